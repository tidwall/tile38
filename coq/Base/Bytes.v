(* Byte strings as lists of N (each < 256 when well-formed) and Go's string order. *)
From Coq Require Export List NArith ZArith Bool Lia.
From Coq Require Import ZifyN ZifyNat ZifyBool.
Export ListNotations.
Open Scope N_scope.

Definition byte := N.
Definition bytes := list N.

Definition wf_bytes (b : bytes) : Prop := Forall (fun x => x < 256) b.
Definition wf_bytesb (b : bytes) : bool := forallb (fun x => x <? 256) b.

Lemma wf_bytesb_spec b : wf_bytesb b = true <-> wf_bytes b.
Proof.
  unfold wf_bytesb, wf_bytes. rewrite forallb_forall, Forall_forall.
  split; intros H x Hx; specialize (H x Hx); lia.
Qed.

Fixpoint bytes_eqb (a b : bytes) : bool :=
  match a, b with
  | [], [] => true
  | x :: a', y :: b' => (x =? y) && bytes_eqb a' b'
  | _, _ => false
  end.

Lemma bytes_eqb_eq a b : bytes_eqb a b = true <-> a = b.
Proof.
  revert b; induction a as [|x a IH]; intros [|y b]; cbn; try (split; congruence).
  rewrite andb_true_iff, IH, N.eqb_eq. split; [intros [-> ->]; reflexivity | intros H; inversion H; auto].
Qed.

Lemma bytes_eqb_refl a : bytes_eqb a a = true.
Proof. apply bytes_eqb_eq; reflexivity. Qed.

Lemma bytes_eqb_spec a b : reflect (a = b) (bytes_eqb a b).
Proof. apply iff_reflect. symmetry. apply bytes_eqb_eq. Qed.

(* Go's string comparison: lexicographic on bytes, shorter prefix first. *)
Fixpoint bytes_cmp (a b : bytes) : comparison :=
  match a, b with
  | [], [] => Eq
  | [], _ :: _ => Lt
  | _ :: _, [] => Gt
  | x :: a', y :: b' =>
      match N.compare x y with
      | Eq => bytes_cmp a' b'
      | c => c
      end
  end.

Definition bytes_ltb (a b : bytes) : bool := match bytes_cmp a b with Lt => true | _ => false end.
Definition bytes_leb (a b : bytes) : bool := match bytes_cmp a b with Gt => false | _ => true end.
Definition bytes_gtb (a b : bytes) : bool := bytes_ltb b a.
Definition bytes_geb (a b : bytes) : bool := bytes_leb b a.

Lemma bytes_cmp_eq a b : bytes_cmp a b = Eq <-> a = b.
Proof.
  revert b; induction a as [|x a IH]; intros [|y b]; cbn; try (split; congruence).
  destruct (N.compare_spec x y) as [->|H|H].
  - rewrite IH. split; [intros ->; reflexivity | intros H; inversion H; auto].
  - split; [discriminate | intros E; inversion E; lia].
  - split; [discriminate | intros E; inversion E; lia].
Qed.

Lemma bytes_cmp_refl a : bytes_cmp a a = Eq.
Proof. apply bytes_cmp_eq; reflexivity. Qed.

Lemma bytes_cmp_antisym a b : bytes_cmp b a = CompOpp (bytes_cmp a b).
Proof.
  revert b; induction a as [|x a IH]; intros [|y b]; cbn; try reflexivity.
  rewrite (N.compare_antisym x y). destruct (N.compare x y); cbn; auto.
Qed.

Lemma bytes_cmp_lt_trans a b c :
  bytes_cmp a b = Lt -> bytes_cmp b c = Lt -> bytes_cmp a c = Lt.
Proof.
  revert b c; induction a as [|x a IH]; intros [|y b] [|z c]; cbn; try congruence.
  destruct (N.compare_spec x y) as [->|Hxy|Hxy]; try discriminate.
  - destruct (N.compare_spec y z) as [->|Hyz|Hyz]; try discriminate; auto.
    + intros H1 H2. eapply IH; eauto.
  - destruct (N.compare_spec y z) as [->|Hyz|Hyz]; try discriminate; intros _ _.
    + destruct (N.compare_spec x z); try lia; reflexivity.
    + destruct (N.compare_spec x z); try lia; reflexivity.
Qed.

Lemma bytes_leb_refl a : bytes_leb a a = true.
Proof. unfold bytes_leb; rewrite bytes_cmp_refl; reflexivity. Qed.

Lemma bytes_leb_trans a b c : bytes_leb a b = true -> bytes_leb b c = true -> bytes_leb a c = true.
Proof.
  unfold bytes_leb. intros H1 H2.
  destruct (bytes_cmp a b) eqn:E1; try discriminate.
  - apply bytes_cmp_eq in E1; subst; exact H2.
  - destruct (bytes_cmp b c) eqn:E2; try discriminate.
    + apply bytes_cmp_eq in E2; subst; rewrite E1; reflexivity.
    + rewrite (bytes_cmp_lt_trans _ _ _ E1 E2); reflexivity.
Qed.

Lemma bytes_ltb_leb a b : bytes_ltb a b = true -> bytes_leb a b = true.
Proof. unfold bytes_ltb, bytes_leb. destruct (bytes_cmp a b); congruence. Qed.

Lemma bytes_leb_total a b : bytes_leb a b = true \/ bytes_leb b a = true.
Proof.
  unfold bytes_leb. rewrite (bytes_cmp_antisym a b).
  destruct (bytes_cmp a b); cbn; auto.
Qed.

Lemma bytes_leb_antisym a b : bytes_leb a b = true -> bytes_leb b a = true -> a = b.
Proof.
  unfold bytes_leb. rewrite (bytes_cmp_antisym a b).
  destruct (bytes_cmp a b) eqn:E; cbn; try discriminate.
  intros _ _. apply bytes_cmp_eq; exact E.
Qed.

Lemma bytes_ltb_negb_leb a b : bytes_ltb a b = negb (bytes_leb b a).
Proof.
  unfold bytes_leb, bytes_ltb. rewrite (bytes_cmp_antisym a b). destruct (bytes_cmp a b); reflexivity.
Qed.

Lemma bytes_leb_ltb_false a b : bytes_leb a b = true -> bytes_ltb b a = false.
Proof. intros H. now rewrite bytes_ltb_negb_leb, H. Qed.

Lemma bytes_ltb_leb_false a b : bytes_ltb a b = true -> bytes_leb b a = false.
Proof. rewrite bytes_ltb_negb_leb. apply negb_true_iff. Qed.

Lemma bytes_ltb_false_leb a b : bytes_ltb a b = false <-> bytes_leb b a = true.
Proof. rewrite bytes_ltb_negb_leb. apply negb_false_iff. Qed.

(* with the order total, the two mixed transitivities are bytes_leb_trans read backwards: were c <= a, then b <= a
   (resp. c <= b) *)
Lemma bytes_ltb_leb_trans a b c : bytes_ltb a b = true -> bytes_leb b c = true -> bytes_ltb a c = true.
Proof.
  intros Hab Hbc. destruct (bytes_ltb a c) eqn:Hca; [reflexivity|]. apply bytes_ltb_false_leb in Hca.
  apply bytes_ltb_leb_false in Hab. rewrite (bytes_leb_trans _ _ _ Hbc Hca) in Hab. discriminate.
Qed.

Lemma bytes_leb_ltb_trans a b c : bytes_leb a b = true -> bytes_ltb b c = true -> bytes_ltb a c = true.
Proof.
  intros Hab Hbc. destruct (bytes_ltb a c) eqn:Hca; [reflexivity|]. apply bytes_ltb_false_leb in Hca.
  apply bytes_ltb_leb_false in Hbc. rewrite (bytes_leb_trans _ _ _ Hca Hab) in Hbc. discriminate.
Qed.

Lemma bytes_ltb_nil_r a : bytes_ltb a [] = false.
Proof. destruct a; reflexivity. Qed.

Lemma bytes_leb_app a s : bytes_leb a (a ++ s) = true.
Proof.
  unfold bytes_leb. induction a as [|x a IH]; cbn.
  - destruct s; reflexivity.
  - rewrite N.compare_refl. exact IH.
Qed.

Lemma bytes_cmp_app_same p a b : bytes_cmp (p ++ a) (p ++ b) = bytes_cmp a b.
Proof. induction p as [|x p IH]; cbn; [reflexivity|]. rewrite N.compare_refl; exact IH. Qed.

Lemma bytes_cmp_app_lt p x y s t : x < y -> bytes_cmp (p ++ x :: s) (p ++ y :: t) = Lt.
Proof.
  intros H. rewrite bytes_cmp_app_same. cbn.
  destruct (N.compare_spec x y); try lia; reflexivity.
Qed.

Definition hasPrefix (p s : bytes) : Prop := exists r, s = p ++ r.

Fixpoint hasPrefixb (p s : bytes) : bool :=
  match p, s with
  | [], _ => true
  | x :: p', y :: s' => (x =? y) && hasPrefixb p' s'
  | _ :: _, [] => false
  end.

Lemma hasPrefixb_spec p s : hasPrefixb p s = true <-> hasPrefix p s.
Proof.
  revert s; induction p as [|x p IH]; intros s; cbn.
  - split; [intros _; exists s; reflexivity | reflexivity].
  - destruct s as [|y s].
    + split; [discriminate | intros [r Hr]; discriminate].
    + rewrite andb_true_iff, N.eqb_eq, IH. split.
      * intros [-> [r ->]]. exists r; reflexivity.
      * intros [r Hr]. inversion Hr; subst. split; [reflexivity | exists r; reflexivity].
Qed.

Fixpoint strip_trailing (v : N) (b : bytes) : bytes :=
  match b with
  | [] => []
  | x :: b' =>
      match strip_trailing v b' with
      | [] => if x =? v then [] else [x]
      | r => x :: r
      end
  end.

Lemma strip_trailing_decomp v b :
  exists k, b = strip_trailing v b ++ repeat v k.
Proof.
  induction b as [|x b [k IH]]; cbn.
  - exists 0%nat; reflexivity.
  - destruct (strip_trailing v b) as [|y r] eqn:E.
    + destruct (N.eqb_spec x v) as [->|Hne].
      * exists (S k). cbn in *. rewrite IH at 1. reflexivity.
      * exists k. cbn in *. rewrite IH at 1. reflexivity.
    + exists k. cbn. rewrite IH at 1. reflexivity.
Qed.

Lemma strip_trailing_last v b :
  strip_trailing v b <> [] -> exists q x, strip_trailing v b = q ++ [x] /\ x <> v.
Proof.
  induction b as [|y b IH]; cbn; [congruence|].
  destruct (strip_trailing v b) as [|z r] eqn:E.
  - destruct (N.eqb_spec y v); [congruence|]. intros _. exists [], y; split; [reflexivity|assumption].
  - intros _. destruct IH as [q [x [Hq Hx]]]; [congruence|].
    exists (y :: q), x. split; [cbn; rewrite Hq; reflexivity | assumption].
Qed.
