(* Insertion sort by a boolean less function, as the model has sort.Slice and sort.SliceStable:
   Roam.insert_match / sort_matches and HookReg.tinsert / sort_msgs are ins / isort of their less
   functions by conversion. *)
From Coq Require Import List Sorted Permutation.
Import ListNotations.

Section InsertionSort.
  Context {A : Type} (less : A -> A -> bool).

  Fixpoint ins (x : A) (l : list A) : list A :=
    match l with
    | [] => [x]
    | y :: t => if less y x then y :: ins x t else x :: l
    end.
  Definition isort (l : list A) : list A := fold_right ins [] l.

  Lemma ins_perm x l : Permutation (ins x l) (x :: l).
  Proof.
    induction l as [|y t IH]; cbn [ins]; [reflexivity|].
    destruct (less y x); [|reflexivity]. rewrite IH. apply perm_swap.
  Qed.

  Lemma isort_perm l : Permutation (isort l) l.
  Proof. induction l as [|x l IH]; cbn [isort fold_right]; [constructor|]. rewrite ins_perm. now constructor. Qed.

  Lemma isort_In l y : In y (isort l) <-> In y l.
  Proof. now rewrite isort_perm. Qed.

  (* the order less decides, one way or the other *)
  Variable le : A -> A -> Prop.
  Hypothesis less_le : forall a b, if less a b then le a b else le b a.
  Hypothesis le_trans : forall a b c, le a b -> le b c -> le a c.

  Lemma ins_sorted x l : StronglySorted le l -> StronglySorted le (ins x l).
  Proof.
    induction 1 as [|y t Ht IH Hy]; cbn [ins]; [repeat constructor|].
    pose proof (less_le y x) as Hyx. destruct (less y x).
    - constructor; [exact IH|]. rewrite ins_perm. now constructor.
    - repeat constructor; [assumption..|]. revert Hy. apply Forall_impl. intro z. now apply le_trans.
  Qed.

  Lemma isort_sorted l : StronglySorted le (isort l).
  Proof. induction l as [|x l IH]; [constructor|]. now apply ins_sorted. Qed.

  (* what le puts first, less does not put second: the sort is stable, so it leaves a list already
     in order alone and commutes with filter *)
  Hypothesis le_less : forall a b, le a b -> less b a = false.

  Lemma isort_id l : Sorted le l -> isort l = l.
  Proof.
    induction 1 as [|x l _ IH Hx]; [reflexivity|]. unfold isort in *. cbn [fold_right]. rewrite IH.
    destruct Hx as [|y t Hxy]; cbn [ins]; [reflexivity | now rewrite (le_less x y Hxy)].
  Qed.

  Lemma filter_ins p x l : StronglySorted le l ->
    filter p (ins x l) = if p x then ins x (filter p l) else filter p l.
  Proof.
    induction 1 as [|y t _ IH Hall]; cbn [ins]; [cbn; now destruct (p x)|].
    pose proof (less_le y x) as Hxy. destruct (less y x) eqn:E.
    - cbn [filter]. rewrite IH. destruct (p y), (p x); cbn [ins]; rewrite ?E; reflexivity.
    - change (filter p (x :: y :: t)) with (if p x then x :: filter p (y :: t) else filter p (y :: t)).
      destruct (p x); [|reflexivity].
      (* x stands before all of y :: t, hence before the first retained element, if any *)
      assert (Hx : Forall (le x) (filter p (y :: t))).
      { apply (incl_Forall (incl_filter p _)). constructor; [exact Hxy|].
        revert Hall. apply Forall_impl. intro z. exact (le_trans x y z Hxy). }
      destruct Hx as [|z r Hz _]; cbn [ins]; [reflexivity | now rewrite (le_less x z Hz)].
  Qed.

  Lemma filter_isort p l : filter p (isort l) = isort (filter p l).
  Proof.
    induction l as [|x l IH]; [reflexivity|]. cbn [filter]. change (isort (x :: l)) with (ins x (isort l)).
    rewrite (filter_ins p x _ (isort_sorted l)), IH. now destruct (p x).
  Qed.
End InsertionSort.
