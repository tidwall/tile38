(* Facts about filter, find, existsb, NoDup, StronglySorted, fold_left, firstn and skipn that the standard library of
   8.16 lacks and that proofs about several parts of the model share; nothing here mentions the model. *)
From Coq Require Import List Bool Sorted.
Import ListNotations.

Lemma filter_rev {A} (f : A -> bool) l : filter f (rev l) = rev (filter f l).
Proof.
  induction l as [|x r IH]; cbn [rev filter]; [reflexivity|].
  rewrite filter_app, IH. cbn [filter]. destruct (f x); cbn [rev]; [reflexivity | now rewrite app_nil_r].
Qed.

Lemma filter_all {A} (f : A -> bool) l : (forall x, In x l -> f x = true) -> filter f l = l.
Proof.
  induction l as [|y r IH]; cbn [filter]; intros H; [reflexivity|].
  rewrite (H y (or_introl eq_refl)). f_equal. apply IH. intros z Hz. apply H. now right.
Qed.

Lemma filter_none {A} (f : A -> bool) l : (forall x, In x l -> f x = false) -> filter f l = [].
Proof.
  induction l as [|y r IH]; cbn [filter]; intros H; [reflexivity|].
  rewrite (H y (or_introl eq_refl)). apply IH. intros z Hz. apply H. now right.
Qed.

Lemma filter_length_le {A} (f : A -> bool) l : length (filter f l) <= length l.
Proof.
  induction l as [|x r IH]; cbn [filter length]; [constructor|].
  destruct (f x); cbn [length]; [apply le_n_S, IH | apply le_S, IH].
Qed.

Lemma filter_length_eq {A} f (l : list A) : length (filter f l) = length l -> filter f l = l.
Proof.
  induction l as [|x l IH]; cbn [filter length]; [reflexivity|]. destruct (f x); cbn [length]; intros H.
  - f_equal. apply IH. now injection H.
  - pose proof (filter_length_le f l) as Hle. rewrite H in Hle. destruct (PeanoNat.Nat.nle_succ_diag_l _ Hle).
Qed.

Lemma Forall_filter {A} (Q : A -> Prop) f (l : list A) : Forall Q l -> Forall Q (filter f l).
Proof. apply incl_Forall, incl_filter. Qed.

Lemma filter_filter {A} (f g : A -> bool) l : filter f (filter g l) = filter (fun x => g x && f x) l.
Proof.
  induction l as [|x r IH]; cbn [filter]; [reflexivity|].
  destruct (g x); cbn [filter andb]; [destruct (f x); now rewrite IH | exact IH].
Qed.

Lemma filter_map_comm {A B} (g : A -> B) (p : B -> bool) l :
  filter p (map g l) = map g (filter (fun x => p (g x)) l).
Proof. induction l as [|x r IH]; cbn [map filter]; [reflexivity|]. destruct (p (g x)); cbn [map]; now rewrite IH. Qed.

Lemma NoDup_app_l {A} (l m : list A) : NoDup (l ++ m) -> NoDup l.
Proof.
  induction l as [|x l IH]; cbn [app]; intros H; [constructor|].
  inversion H as [|? ? Hx Hr]; subst. constructor; [|now apply IH].
  intros Hin. apply Hx. apply in_or_app. now left.
Qed.

Lemma NoDup_app_r {A} (l m : list A) : NoDup (l ++ m) -> NoDup m.
Proof. induction l as [|a l IH]; cbn; [tauto|]. intros H. inversion H; subst. apply IH. assumption. Qed.

Lemma NoDup_map_inj {A B} (f : A -> B) l a b : NoDup (map f l) -> In a l -> In b l -> f a = f b -> a = b.
Proof.
  induction l as [|x l IH]; cbn [map In]; [tauto|]. intros Hn. inversion Hn as [|? ? Hx Hl]; subst.
  intros [->|Ha] [->|Hb] E; [reflexivity | | | exact (IH Hl Ha Hb E)]; exfalso; apply Hx.
  - rewrite E. now apply in_map.
  - rewrite <- E. now apply in_map.
Qed.

Lemma NoDup_map_filter {A B} (f : A -> B) (p : A -> bool) l : NoDup (map f l) -> NoDup (map f (filter p l)).
Proof.
  induction l as [|a l IH]; cbn [map filter]; intros Hn; [constructor|]. inversion Hn as [|? ? Ha Hl]; subst.
  destruct (p a); [|exact (IH Hl)]. cbn [map]. constructor; [|exact (IH Hl)].
  intros Hx. apply Ha. apply in_map_iff in Hx as [b [<- Hb]]. apply in_map. apply filter_In in Hb. exact (proj1 Hb).
Qed.

Lemma find_unique {A B} (key : A -> B) (is : A -> bool) l x :
  (forall y, is y = true <-> key y = key x) -> NoDup (map key l) -> In x l -> find is l = Some x.
Proof.
  intros His Hnd Hin. destruct (find is l) as [y|] eqn:E.
  - apply find_some in E as [Hy Ey]. f_equal. apply (NoDup_map_inj key l); auto. apply His, Ey.
  - apply (find_none _ _ E) in Hin. rewrite (proj2 (His x) eq_refl) in Hin. discriminate.
Qed.

Lemma existsb_eqb_In {A} (eqb : A -> A -> bool) (eqb_eq : forall x y, eqb x y = true <-> x = y) s l :
  existsb (eqb s) l = true <-> In s l.
Proof.
  rewrite existsb_exists. split.
  - intros [y [Hy E]]. apply eqb_eq in E. subst y. exact Hy.
  - intros H. exists s. split; [exact H | apply eqb_eq; reflexivity].
Qed.

Lemma existsb_none {A} (f : A -> bool) l : existsb f l = false -> forall x, In x l -> f x = false.
Proof.
  intros H x Hx. destruct (f x) eqn:E; [|reflexivity]. rewrite <- H. symmetry. apply existsb_exists. eauto.
Qed.

Lemma SS_app_inv {A} (R : A -> A -> Prop) (a b : list A) :
  StronglySorted R (a ++ b) ->
  StronglySorted R a /\ StronglySorted R b /\ (forall x y, In x a -> In y b -> R x y).
Proof.
  induction a as [|x a IH]; cbn [app]; intros H.
  - split; [constructor|]. split; [exact H|]. intros ? ? [].
  - apply StronglySorted_inv in H. destruct H as [H1 H2]. destruct (IH H1) as [Ha [Hb Hab]].
    apply Forall_app in H2. destruct H2 as [H2a H2b]. split; [constructor; assumption|].
    split; [exact Hb|]. intros x' y [->|Hx] Hy.
    + rewrite Forall_forall in H2b. apply H2b; exact Hy.
    + apply Hab; assumption.
Qed.

Lemma SS_app {A} (R : A -> A -> Prop) (a b : list A) :
  StronglySorted R a -> StronglySorted R b -> (forall x y, In x a -> In y b -> R x y) ->
  StronglySorted R (a ++ b).
Proof.
  induction a as [|x a IH]; cbn [app]; intros Ha Hb Hab; [exact Hb|].
  apply StronglySorted_inv in Ha. destruct Ha as [Ha Hx]. constructor.
  - apply IH; [exact Ha | exact Hb|]. intros; apply Hab; [right|]; assumption.
  - apply Forall_app. split; [exact Hx|]. rewrite Forall_forall. intros y Hy. apply Hab; [left; reflexivity | exact Hy].
Qed.

Lemma SS_filter {A} (R : A -> A -> Prop) f l : StronglySorted R l -> StronglySorted R (filter f l).
Proof.
  induction 1 as [|x r Hs IH Hx]; cbn [filter]; [constructor|].
  destruct (f x); [|exact IH]. constructor; [exact IH | apply Forall_filter, Hx].
Qed.

Lemma SS_rev {A} (R : A -> A -> Prop) l : StronglySorted R l -> StronglySorted (fun a b => R b a) (rev l).
Proof.
  induction 1 as [|x r Hs IH Hx]; cbn [rev]; [constructor|].
  apply SS_app; [exact IH | repeat constructor |].
  intros a b Ha Hb. destruct Hb as [<-|[]]. rewrite Forall_forall in Hx. apply Hx. now apply in_rev.
Qed.

(* the one argument behind "sorted by a strict order, hence no two alike", under a key: related
   members of l have different keys *)
Lemma SS_NoDup_map {A B} (R : A -> A -> Prop) (f : A -> B) l :
  (forall x y, In x l -> In y l -> R x y -> f x <> f y) -> StronglySorted R l -> NoDup (map f l).
Proof.
  intros HR Hs. induction Hs as [|x l _ IH Hx]; cbn [map]; constructor.
  - rewrite in_map_iff. intros [y [E Hy]]. rewrite Forall_forall in Hx.
    exact (HR x y (or_introl eq_refl) (or_intror Hy) (Hx y Hy) (eq_sym E)).
  - apply IH. intros a b Ha Hb. apply HR; right; assumption.
Qed.

Lemma SS_NoDup {A} (R : A -> A -> Prop) l : (forall x, ~ R x x) -> StronglySorted R l -> NoDup l.
Proof.
  intros HR Hs. rewrite <- (map_id l). apply (SS_NoDup_map R); [|exact Hs]. intros x y _ _ H <-. exact (HR x H).
Qed.

Lemma fold_left_inv {A B} (f : A -> B -> A) (P : A -> Prop) l :
  (forall a b, In b l -> P a -> P (f a b)) -> forall a, P a -> P (fold_left f l a).
Proof.
  induction l as [|b l IH]; intros Hf a Ha; cbn [fold_left]; [exact Ha|].
  apply IH; [intros a' b' Hb'; apply Hf; right; exact Hb' | apply Hf; [left; reflexivity | exact Ha]].
Qed.

Lemma firstn_app_exact {A} (a b : list A) : firstn (length a) (a ++ b) = a.
Proof. induction a as [|x a IH]; cbn [length app firstn]; [reflexivity | now rewrite IH]. Qed.

Lemma skipn_app_exact {A} (a b : list A) : skipn (length a) (a ++ b) = b.
Proof. induction a as [|x a IH]; cbn [length app skipn]; [reflexivity | exact IH]. Qed.

Lemma firstn_le_app {A} n (l x : list A) : n <= length l -> firstn n (l ++ x) = firstn n l.
Proof. intros H. rewrite firstn_app, (proj2 (PeanoNat.Nat.sub_0_le _ _) H). apply app_nil_r. Qed.

Lemma incl_firstn {A} n (l : list A) : incl (firstn n l) l.
Proof. intros x H. rewrite <- (firstn_skipn n l). apply in_or_app. now left. Qed.

Lemma incl_skipn {A} n (l : list A) : incl (skipn n l) l.
Proof. intros x H. rewrite <- (firstn_skipn n l). apply in_or_app. now right. Qed.
