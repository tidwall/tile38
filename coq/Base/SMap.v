(* Sorted association lists keyed by byte strings: the abstract ordered container standing for
   tidwall/btree maps (Server.cols, Collection.objs) and for "a plain map" in the specifications.
   get/set/del + the algebra the keyspace proofs need. Reusable: nothing here is specific to C01.

   Conventions: [smap V] is a plain [list (bytes * V)]; the functions are total on any list, the
   lemmas that need it take [msorted m] (keys strictly increasing in Go's string order). *)
From T38 Require Import Base.Bytes.
From Coq Require Import Sorted.

Definition smap (V : Type) := list (bytes * V).

Section Defs.
Context {V : Type}.

Fixpoint get (k : bytes) (m : smap V) : option V :=
  match m with
  | [] => None
  | (k', v) :: r => if bytes_eqb k k' then Some v else get k r
  end.

Fixpoint set (k : bytes) (v : V) (m : smap V) : smap V :=
  match m with
  | [] => [(k, v)]
  | (k', v') :: r =>
      match bytes_cmp k k' with
      | Lt => (k, v) :: m
      | Eq => (k, v) :: r
      | Gt => (k', v') :: set k v r
      end
  end.

Fixpoint del (k : bytes) (m : smap V) : smap V :=
  match m with
  | [] => []
  | (k', v') :: r => if bytes_eqb k k' then r else (k', v') :: del k r
  end.

Definition keys (m : smap V) : list bytes := map fst m.
Definition vals (m : smap V) : list V := map snd m.
Definition mem (k : bytes) (m : smap V) : bool := match get k m with Some _ => true | None => false end.

End Defs.

Definition sorted_keys (l : list bytes) : Prop := StronglySorted (fun a b => bytes_ltb a b = true) l.
Definition msorted {V} (m : smap V) : Prop := sorted_keys (keys m).

Definition smap_map {A B} (f : A -> B) (m : smap A) : smap B := map (fun kv => (fst kv, f (snd kv))) m.

Lemma ltb_cmp a b : bytes_ltb a b = true <-> bytes_cmp a b = Lt.
Proof. unfold bytes_ltb. destruct (bytes_cmp a b); split; congruence. Qed.

Lemma cmp_gt_lt a b : bytes_cmp a b = Gt -> bytes_cmp b a = Lt.
Proof. intros H. rewrite (bytes_cmp_antisym a b), H. reflexivity. Qed.

Lemma cmp_lt_gt a b : bytes_cmp a b = Lt -> bytes_cmp b a = Gt.
Proof. intros H. rewrite (bytes_cmp_antisym a b), H. reflexivity. Qed.

Lemma ltb_irrefl a : bytes_ltb a a = false.
Proof. unfold bytes_ltb. rewrite bytes_cmp_refl. reflexivity. Qed.

Lemma ltb_trans a b c : bytes_ltb a b = true -> bytes_ltb b c = true -> bytes_ltb a c = true.
Proof. rewrite !ltb_cmp. apply bytes_cmp_lt_trans. Qed.

Lemma ltb_neq a b : bytes_ltb a b = true -> a <> b.
Proof. intros H E; subst. rewrite ltb_irrefl in H; discriminate. Qed.

Lemma ltb_asym a b : bytes_ltb a b = true -> bytes_ltb b a = false.
Proof. intros H. apply bytes_leb_ltb_false, bytes_ltb_leb, H. Qed.

Lemma eqb_false_neq a b : bytes_eqb a b = false <-> a <> b.
Proof. destruct (bytes_eqb_spec a b); split; congruence. Qed.

Lemma eqb_sym a b : bytes_eqb a b = bytes_eqb b a.
Proof. destruct (bytes_eqb_spec a b), (bytes_eqb_spec b a); congruence. Qed.

Lemma ltb_eqb_false a b : bytes_ltb a b = true -> bytes_eqb a b = false.
Proof. intros H. apply eqb_false_neq. apply ltb_neq; exact H. Qed.

Lemma cmp_cases a b :
  (bytes_cmp a b = Lt /\ bytes_ltb a b = true /\ bytes_eqb a b = false) \/
  (bytes_cmp a b = Eq /\ a = b) \/
  (bytes_cmp a b = Gt /\ bytes_ltb b a = true /\ bytes_eqb a b = false).
Proof.
  destruct (bytes_cmp a b) eqn:E.
  - right; left. split; [reflexivity|]. apply bytes_cmp_eq; exact E.
  - left. split; [reflexivity|]. assert (H : bytes_ltb a b = true) by (apply ltb_cmp; exact E).
    split; [exact H | apply ltb_eqb_false; exact H].
  - right; right. split; [reflexivity|].
    assert (H : bytes_ltb b a = true) by (apply ltb_cmp; apply cmp_gt_lt; exact E).
    split; [exact H|]. rewrite eqb_sym. apply ltb_eqb_false; exact H.
Qed.

Lemma get_In {V} k (m : smap V) v : get k m = Some v -> In (k, v) m.
Proof.
  induction m as [|[k' v'] r IH]; cbn; [discriminate|].
  destruct (bytes_eqb_spec k k') as [<-|_]; [intros [= <-]; left; reflexivity | right; apply IH; assumption].
Qed.

Lemma get_in_keys {V} k (m : smap V) v : get k m = Some v -> In k (keys m).
Proof. intros H. exact (in_map fst _ _ (get_In _ _ _ H)). Qed.

Lemma in_keys_get {V} k (m : smap V) : In k (keys m) -> exists v, get k m = Some v.
Proof.
  induction m as [|[k' v'] r IH]; cbn; [tauto|]. intros [->|H].
  - rewrite bytes_eqb_refl. eexists; reflexivity.
  - destruct (bytes_eqb k k'); [eexists; reflexivity | apply IH; exact H].
Qed.

Lemma get_not_in {V} k (m : smap V) : ~ In k (keys m) -> get k m = None.
Proof. intros H. destruct (get k m) eqn:E; [destruct H; exact (get_in_keys _ _ _ E) | reflexivity]. Qed.

Lemma Forall_get {V} (Q : bytes * V -> Prop) k (m : smap V) v : Forall Q m -> get k m = Some v -> Q (k, v).
Proof. intros HF Hg. rewrite Forall_forall in HF. apply HF. apply get_In; exact Hg. Qed.

Lemma Forall_set {V} (Q : bytes * V -> Prop) k (v : V) m : Forall Q m -> Q (k, v) -> Forall Q (set k v m).
Proof.
  intros HF Hq. induction m as [|[k' v'] r IH]; cbn.
  - constructor; [exact Hq | constructor].
  - inversion HF; subst. destruct (bytes_cmp k k').
    + constructor; assumption.
    + constructor; assumption.
    + constructor; [assumption | apply IH; assumption].
Qed.

Lemma Forall_del {V} (Q : bytes * V -> Prop) k (m : smap V) : Forall Q m -> Forall Q (del k m).
Proof.
  intros HF. induction m as [|[k' v'] r IH]; cbn; [constructor|].
  inversion HF; subst. destruct (bytes_eqb k k'); [assumption|]. constructor; [assumption | apply IH; assumption].
Qed.

Lemma msorted_nil {V} : msorted (@nil (bytes * V)).
Proof. constructor. Qed.

Lemma msorted_inv {V} k (v : V) m :
  msorted ((k, v) :: m) -> msorted m /\ Forall (fun k' => bytes_ltb k k' = true) (keys m).
Proof. intros H. inversion H; subst. split; assumption. Qed.

Lemma msorted_cons {V} k (v : V) m :
  msorted m -> Forall (fun k' => bytes_ltb k k' = true) (keys m) -> msorted ((k, v) :: m).
Proof. intros H1 H2. constructor; assumption. Qed.

Lemma msorted_tail {V} kv (m : smap V) : msorted (kv :: m) -> msorted m.
Proof. destruct kv. intros H. apply msorted_inv in H. tauto. Qed.

Lemma get_below {V} k (m : smap V) :
  Forall (fun k' => bytes_ltb k k' = true) (keys m) -> get k m = None.
Proof.
  intros H. apply get_not_in. intros Hin. rewrite Forall_forall in H.
  apply H in Hin. rewrite ltb_irrefl in Hin; discriminate.
Qed.

Lemma Forall_ltb_trans a b (l : list bytes) :
  bytes_ltb a b = true -> Forall (fun k' => bytes_ltb b k' = true) l -> Forall (fun k' => bytes_ltb a k' = true) l.
Proof. intros Hab. apply Forall_impl. intros x. apply ltb_trans, Hab. Qed.

Lemma get_lt_head {V} k k' (v : V) r :
  msorted ((k', v) :: r) -> bytes_ltb k k' = true -> get k ((k', v) :: r) = None.
Proof.
  intros Hs Hlt. apply get_below. cbn. constructor; [exact Hlt|].
  apply msorted_inv in Hs. destruct Hs as [_ Hall]. eapply Forall_ltb_trans; eauto.
Qed.

(* a bound on the keys is a property of all entries: Forall_set and Forall_del carry it *)
Lemma msorted_set {V} k (v : V) m : msorted m -> msorted (set k v m).
Proof.
  induction m as [|[k' v'] r IH]; intros Hs; cbn.
  - apply msorted_cons; [constructor | constructor].
  - pose proof (msorted_inv _ _ _ Hs) as [Hr Hall].
    destruct (cmp_cases k k') as [[E [Hlt _]]|[[E Heq]|[E [Hgt _]]]]; rewrite E.
    + apply msorted_cons; [exact Hs|]. cbn. constructor; [exact Hlt|]. eapply Forall_ltb_trans; eauto.
    + subst k'. apply msorted_cons; assumption.
    + apply msorted_cons; [apply IH; exact Hr|].
      unfold keys in *. rewrite Forall_map in *. apply Forall_set; assumption.
Qed.

Lemma msorted_del {V} k (m : smap V) : msorted m -> msorted (del k m).
Proof.
  induction m as [|[k' v'] r IH]; intros Hs; cbn; [exact Hs|].
  pose proof (msorted_inv _ _ _ Hs) as [Hr Hall].
  destruct (bytes_eqb k k'); [exact Hr|].
  apply msorted_cons; [apply IH; exact Hr|].
  unfold keys in *. rewrite Forall_map in *. apply Forall_del, Hall.
Qed.

Lemma In_get {V} k (m : smap V) v : msorted m -> In (k, v) m -> get k m = Some v.
Proof.
  induction m as [|[k' v'] r IH]; intros Hs; cbn; [tauto|].
  pose proof (msorted_inv _ _ _ Hs) as [Hr Hall].
  intros [H|H].
  - inversion H; subst. rewrite bytes_eqb_refl. reflexivity.
  - assert (Hk : In k (keys r)) by (apply (in_map fst) in H; exact H).
    rewrite Forall_forall in Hall. apply Hall in Hk.
    rewrite eqb_sym, (ltb_eqb_false _ _ Hk). apply IH; assumption.
Qed.

Lemma get_set {V} k (v : V) m k2 : get k2 (set k v m) = if bytes_eqb k2 k then Some v else get k2 m.
Proof.
  induction m as [|[k' v'] r IH]; cbn; [reflexivity|].
  destruct (cmp_cases k k') as [[E _]|[[E <-]|[E [_ Hne]]]]; rewrite E; cbn; [reflexivity | | rewrite IH].
  - destruct (bytes_eqb k2 k); reflexivity.
  - destruct (bytes_eqb_spec k2 k) as [Ek|_]; [rewrite Ek, Hne|]; reflexivity.
Qed.

Lemma get_set_same {V} k (v : V) m : get k (set k v m) = Some v.
Proof. rewrite get_set, bytes_eqb_refl. reflexivity. Qed.

Lemma get_set_other {V} k k2 (v : V) m : k2 <> k -> get k2 (set k v m) = get k2 m.
Proof. intros Hne. apply eqb_false_neq in Hne. rewrite get_set, Hne. reflexivity. Qed.

Lemma get_del_same {V} k (m : smap V) : msorted m -> get k (del k m) = None.
Proof.
  induction m as [|[k' v'] r IH]; intros Hs; cbn; [reflexivity|].
  pose proof (msorted_inv _ _ _ Hs) as [Hr Hall].
  destruct (bytes_eqb k k') eqn:E.
  - apply bytes_eqb_eq in E; subst. apply get_below; exact Hall.
  - cbn. rewrite E. apply IH; exact Hr.
Qed.

Lemma get_del_other {V} k k2 (m : smap V) : k2 <> k -> get k2 (del k m) = get k2 m.
Proof.
  intros Hne. induction m as [|[k' v'] r IH]; cbn; [reflexivity|].
  destruct (bytes_eqb_spec k k') as [<-|_]; cbn; [|rewrite IH; reflexivity].
  apply eqb_false_neq in Hne. rewrite Hne. reflexivity.
Qed.

Lemma get_del {V} k (m : smap V) k2 : msorted m -> get k2 (del k m) = if bytes_eqb k2 k then None else get k2 m.
Proof.
  intros Hs. destruct (bytes_eqb_spec k2 k) as [->|Hne]; [apply get_del_same, Hs | apply get_del_other, Hne].
Qed.

Lemma del_absent {V} k (m : smap V) : get k m = None -> del k m = m.
Proof.
  induction m as [|[k' v'] r IH]; cbn; [reflexivity|].
  destruct (bytes_eqb k k'); [discriminate|]. intros H. rewrite IH by exact H. reflexivity.
Qed.

Lemma smap_ext {V} (m1 m2 : smap V) :
  msorted m1 -> msorted m2 -> (forall k, get k m1 = get k m2) -> m1 = m2.
Proof.
  revert m2. induction m1 as [|[k1 v1] r1 IH]; intros [|[k2 v2] r2] H1 H2 Hget.
  - reflexivity.
  - specialize (Hget k2). cbn in Hget. rewrite bytes_eqb_refl in Hget. discriminate.
  - specialize (Hget k1). cbn in Hget. rewrite bytes_eqb_refl in Hget. discriminate.
  - assert (Hk : k1 = k2).
    { destruct (cmp_cases k1 k2) as [[_ [Hlt _]]|[[_ Heq]|[_ [Hgt _]]]]; [|exact Heq|].
      - pose proof (Hget k1) as G. rewrite (get_lt_head _ _ _ _ H2 Hlt) in G.
        cbn in G. rewrite bytes_eqb_refl in G. discriminate.
      - pose proof (Hget k2) as G. rewrite (get_lt_head _ _ _ _ H1 Hgt) in G.
        cbn in G. rewrite bytes_eqb_refl in G. discriminate. }
    subst k2.
    assert (Hv : v1 = v2).
    { pose proof (Hget k1) as G. cbn in G. rewrite bytes_eqb_refl in G. congruence. }
    subst v2. f_equal.
    pose proof (msorted_inv _ _ _ H1) as [Hr1 Ha1]. pose proof (msorted_inv _ _ _ H2) as [Hr2 Ha2].
    apply IH; [exact Hr1 | exact Hr2|].
    intros k. destruct (bytes_eqb k k1) eqn:E.
    + apply bytes_eqb_eq in E; subst. rewrite (get_below _ _ Ha1), (get_below _ _ Ha2). reflexivity.
    + specialize (Hget k). cbn in Hget. rewrite E in Hget. exact Hget.
Qed.

Lemma set_same {V} k (v : V) m : msorted m -> get k m = Some v -> set k v m = m.
Proof.
  intros Hs Hg. apply smap_ext; [apply msorted_set; exact Hs | exact Hs|].
  intros k2. rewrite get_set. destruct (bytes_eqb_spec k2 k) as [->|_]; [symmetry; exact Hg | reflexivity].
Qed.

Lemma set_set {V} k (v1 v2 : V) m : msorted m -> set k v2 (set k v1 m) = set k v2 m.
Proof.
  intros Hs. apply smap_ext; [apply msorted_set; apply msorted_set; exact Hs | apply msorted_set; exact Hs|].
  intros k2. rewrite !get_set. destruct (bytes_eqb k2 k); reflexivity.
Qed.

Lemma del_set_same {V} k (v : V) m : msorted m -> del k (set k v m) = del k m.
Proof.
  intros Hs. apply smap_ext; [apply msorted_del; apply msorted_set; exact Hs | apply msorted_del; exact Hs|].
  intros k2. rewrite !get_del, get_set by auto using msorted_set. destruct (bytes_eqb k2 k); reflexivity.
Qed.

Lemma set_del_same {V} k (v : V) m : msorted m -> set k v (del k m) = set k v m.
Proof.
  intros Hs. apply smap_ext; [apply msorted_set; apply msorted_del; exact Hs | apply msorted_set; exact Hs|].
  intros k2. rewrite !get_set, get_del by exact Hs. destruct (bytes_eqb k2 k); reflexivity.
Qed.

Lemma set_nonempty {V} k (v : V) m : set k v m <> [].
Proof. destruct m as [|[k' v'] r]; cbn; [discriminate|]. destruct (bytes_cmp k k'); discriminate. Qed.

Lemma get_nil {V} k : get k (@nil (bytes * V)) = None.
Proof. reflexivity. Qed.

Lemma get_some_nonempty {V} k (m : smap V) v : get k m = Some v -> m <> [].
Proof. destruct m; [discriminate|]. intros _; discriminate. Qed.

Lemma keys_map {A B} (f : A -> B) m : keys (smap_map f m) = keys m.
Proof. unfold keys, smap_map. rewrite map_map. reflexivity. Qed.

Lemma msorted_map {A B} (f : A -> B) m : msorted m -> msorted (smap_map f m).
Proof. unfold msorted. rewrite keys_map. auto. Qed.

Lemma get_map {A B} (f : A -> B) k m : get k (smap_map f m) = option_map f (get k m).
Proof.
  induction m as [|[k' v'] r IH]; cbn; [reflexivity|].
  destruct (bytes_eqb k k'); [reflexivity | exact IH].
Qed.

Lemma set_map {A B} (f : A -> B) k v m : smap_map f (set k v m) = set k (f v) (smap_map f m).
Proof.
  unfold smap_map. induction m as [|[k' v'] r IH]; cbn; [reflexivity|].
  destruct (bytes_cmp k k'); cbn; [reflexivity | reflexivity | rewrite IH; reflexivity].
Qed.

Lemma del_map {A B} (f : A -> B) k m : smap_map f (del k m) = del k (smap_map f m).
Proof.
  unfold smap_map. induction m as [|[k' v'] r IH]; cbn; [reflexivity|].
  destruct (bytes_eqb k k'); cbn; [reflexivity | rewrite IH; reflexivity].
Qed.

Lemma smap_map_nil_inv {A B} (f : A -> B) m : smap_map f m = [] -> m = [].
Proof. destruct m; [reflexivity | discriminate]. Qed.

Lemma smap_map_length {A B} (f : A -> B) m : length (smap_map f m) = length m.
Proof. apply map_length. Qed.
