(* C06 — follow generations (s.followc) and followers without a log (--appendonly no): executable
   model, definitions only.

   Part 1: a small abstract interpreter for the statement lists t38x renders from the source
   (coq/Gen/FollowSteps.v: every leaf statement of followStep / followCheckSome /
   followHandleCommand / followStartOver with the conditions that enclose it and with what it does
   to the server object).  It answers two questions:
     - [stale_run]: what does an attempt whose generation is no longer s.followc reach first - a
       return of errNoLongerFollowing, or a statement that touches the server?  The answers for the
       five places where an attempt comes back from the network are the configuration [gcfg] of the
       transition system below ([cfg_of]);
     - [so_run]: which operations does followStartOver perform when the server has / has not a log?
   Part 2: the transition system.  Every FOLLOW that changes the leader increments s.followc and
   starts a follow() goroutine for the new generation; the goroutines of earlier generations are not
   cancelled, they end where they compare their generation with s.followc.  An attempt (one follow()
   goroutine) walks through followStep: unlocked test at the top, lock+clear the flag, dial/AUTH/SERVER
   (unlocked network round trips), followCheckSome (locked; the resync decision of Model/Follow.v
   [check_some] and its effect on log, dataset and aofsz), REPLCONF/AOF (unlocked) + first caught-up
   test, then the read loop (followHandleCommand per record, then the caught-up test).  The leader's
   log is supplied by the environment at every step that talks to the leader, so the theorems
   quantify over every leader behaviour (appends, AOFSHRINK between two steps, another leader).
   [w_aof] is the follower's --appendonly setting: without a log nothing is appended, aofsz stays 0
   and every followCheckSome starts over. *)
From Coq Require Import List ZArith Bool String Arith.
From T38 Require Import Base.Bytes Model.Follow.
Import ListNotations.

(* ================= Part 1: abstract runs of generated statement lists ================= *)
Open Scope string_scope.

Definition gstmt := (list string * string * list string)%type.

Fixpoint mem_str (x : string) (l : list string) : bool :=
  match l with [] => false | y :: t => String.eqb x y || mem_str x t end.

Definition ends_with (suf s : string) : bool :=
  let n := String.length s in let m := String.length suf in
  Nat.leb m n && String.eqb (substring (n - m) m s) suf.

Definition is_return (t : string) : bool := String.eqb t "return" || prefix "return " t.

(* what does not change the server: taking and releasing s.mu, reading the configuration and the
   generation counter, authenticating on a connection *)
Definition harmless_effs : list string :=
  ["call s.mu.Lock"; "call s.mu.Unlock"; "defer call s.mu.Unlock"; "call s.config.leaderAuth";
   "call s.config.announcePort"; "call s.config.announceIP"; "call s.config.serverID";
   "call s.followDoLeaderAuth"; "call s.followc.Load"].
Definition harmless (effs : list string) : bool := forallb (fun e => mem_str e harmless_effs) effs.

Inductive tv := TTrue | TFalse | TUnknown.

(* an attempt whose generation is stale, on the path without errors and without debug logging *)
Definition stale_guard (g : string) : tv :=
  if String.eqb g "int(s.followc.Load()) != followc" then TTrue   (* = gen_guard *)
  else if String.eqb g "err != nil" then TFalse
  else if String.eqb g "s.opts.ShowDebugMessages" then TFalse
  else if String.eqb g "for" then TTrue
  else TUnknown.

Fixpoint guards_tv (v : string -> tv) (gs : list string) : tv :=
  match gs with
  | [] => TTrue
  | g :: t =>
      match v g with
      | TFalse => TFalse
      | TTrue => guards_tv v t
      | TUnknown => match guards_tv v t with TFalse => TFalse | _ => TUnknown end
      end
  end.

Inductive sres :=
| SEnds (ret : string)      (* returns errNoLongerFollowing: follow() ends this generation *)
| SReturns (ret : string)   (* returns something else before touching the server *)
| SEffect (stmt : string)   (* reaches (or may reach) a statement that touches the server *)
| SFallsOff.

Definition gen_guard : string := "int(s.followc.Load()) != followc".

Fixpoint is_prefix (p l : list string) : bool :=
  match p, l with
  | [], _ => true
  | x :: p', y :: l' => String.eqb x y && is_prefix p' l'
  | _ :: _, [] => false
  end.

(* the conditions around a block whose innermost condition is the generation test *)
Fixpoint ctx_of (gs : list string) : option (list string) :=
  match gs with
  | [] => None
  | [g] => if String.eqb g gen_guard then Some [] else None
  | g :: t => match ctx_of t with Some c => Some (g :: c) | None => None end
  end.

(* [dead]: blocks (given by their enclosing conditions) in which the stale attempt has returned
   errNoLongerFollowing under the generation test: whether such a block is entered is unknown, but if it is, the
   attempt ends there, so the statements of the block that follow are not reached by it *)
Fixpoint stale_run_d (dead : list (list string)) (l : list gstmt) : sres :=
  match l with
  | [] => SFallsOff
  | (gs, t, effs) :: rest =>
      if existsb (fun c => is_prefix c gs) dead then stale_run_d dead rest
      else
      match guards_tv stale_guard gs with
      | TFalse => stale_run_d dead rest
      | TTrue =>
          if negb (harmless effs) then SEffect t
          else if is_return t then (if ends_with "errNoLongerFollowing" t then SEnds t else SReturns t)
          else stale_run_d dead rest
      | TUnknown =>
          if negb (harmless effs) then SEffect t
          else if is_return t && ends_with "errNoLongerFollowing" t then
                 match ctx_of gs with
                 | Some c => stale_run_d (c :: dead) rest
                 | None => stale_run_d dead rest
                 end
          else stale_run_d dead rest
      end
  end.
Definition stale_run (l : list gstmt) : sres := stale_run_d [] l.

(* the statements after the first release of s.mu that is not part of a generation test *)
Fixpoint after_plain_unlock (l : list gstmt) : list gstmt :=
  match l with
  | [] => []
  | (gs, t, effs) :: rest =>
      if mem_str "call s.mu.Unlock" effs && negb (mem_str gen_guard gs) then rest else after_plain_unlock rest
  end.

Fixpoint after_call (c : string) (l : list gstmt) : list gstmt :=
  match l with
  | [] => []
  | (gs, t, effs) :: rest => if mem_str c effs then rest else after_call c rest
  end.

Definition outside_loop (l : list gstmt) : list gstmt :=
  filter (fun x : gstmt => negb (mem_str "for" (fst (fst x)))) l.

(* is the generation compared with s.followc, before anything touches the server, ... *)
Record gcfg := {
  c_top : bool;     (* ... at the top of followStep *)
  c_check : bool;   (* ... in followCheckSome after s.mu is taken *)
  c_cmd : bool;     (* ... in followHandleCommand after s.mu is taken *)
  c_aofg : bool;    (* ... between followCheckSome's return and the first caught-up test after AOF *)
  c_flagg : bool }. (* ... between followHandleCommand's return and the write of faofsz, AND in the caught-up block
                       of the read loop before flushAOF / setCaughtUp(true) *)

Definition ends (r : sres) : bool := match r with SEnds _ => true | _ => false end.
Definition no_effect (r : sres) : bool := match r with SEffect _ => false | _ => true end.

Definition cfg_of (step check cmd : list gstmt) : gcfg :=
  {| c_top := ends (stale_run step);
     c_check := ends (stale_run check);
     c_cmd := ends (stale_run cmd);
     c_aofg := ends (stale_run (outside_loop (after_call "call s.followCheckSome" step)));
     c_flagg := ends (stale_run (after_call "call s.followHandleCommand" step)) &&
                no_effect (stale_run (after_plain_unlock (after_call "call s.followHandleCommand" step))) |}.

(* the configuration the theorems of Props/C06gen.v are stated for: the source as it is - the working tree with
   proposed_fixes/C06-stale-generation-flag.diff: all five places are guarded
   (Props/C06gen.v c06g_guards_from_source: cfg_of <generated lists> = proved_cfg) *)
Definition proved_cfg : gcfg :=
  {| c_top := true; c_check := true; c_cmd := true; c_aofg := true; c_flagg := true |}.

(* the code before that repair: faofsz and the caught-up flag were written after the AOF reply and in the read loop
   without a generation test (refuted: Props/C06gen.v c06g_stale_flag_pinned_refuted) *)
Definition pinned_cfg : gcfg :=
  {| c_top := true; c_check := true; c_cmd := true; c_aofg := false; c_flagg := false |}.

(* ---- followStartOver ---- *)
Inductive so_op :=
| ORecreate   (* the log file is recreated empty *)
| OReset      (* followReset: FLUSHDB + reset(): dataset, hooks, channels cleared, aofsz = 0 *)
| ONilDeref.  (* a method of s.aof is called although s.aof is nil *)

Definition so_guard (aof : bool) (g : string) : option bool :=
  if String.eqb g "s.aof != nil" then Some aof
  else if String.eqb g "s.aof == nil" then Some (negb aof)
  else if String.eqb g "err != nil" then Some false
  else None.

Fixpoint so_guards (aof : bool) (gs : list string) : option bool :=
  match gs with
  | [] => Some true
  | g :: t =>
      match so_guard aof g with
      | None => None
      | Some false => Some false
      | Some true => so_guards aof t
      end
  end.

Fixpoint so_effs (aof : bool) (effs : list string) : option (list so_op) :=
  match effs with
  | [] => Some []
  | e :: t =>
      let here :=
        if String.eqb e "call s.followReset" then Some [OReset]
        else if String.eqb e "set s.aof" then Some [ORecreate]
        else if String.eqb e "call s.aof.Name" || String.eqb e "call s.aof.Close" then Some (if aof then [] else [ONilDeref])
        else if mem_str e harmless_effs then Some []
        else None in
      match here, so_effs aof t with
      | Some a, Some b => Some (a ++ b)%list
      | _, _ => None
      end
  end.

Fixpoint so_run (aof : bool) (l : list gstmt) : option (list so_op) :=
  match l with
  | [] => Some []
  | (gs, t, effs) :: rest =>
      match so_guards aof gs with
      | None => None
      | Some false => so_run aof rest
      | Some true =>
          match so_effs aof effs with
          | None => None
          | Some ops =>
              if is_return t then Some ops
              else match so_run aof rest with Some r => Some (ops ++ r)%list | None => None end
          end
      end
  end.

(* the operations the theorems are stated for (Proofs: so_run aof <generated list> = Some (proved_ops aof)) *)
Definition proved_ops (aof : bool) : list so_op := if aof then [ORecreate; OReset] else [OReset].

Definition all_effs (l : list gstmt) : list string := flat_map (fun x : gstmt => snd x) l.

(* is c called by a statement that no condition encloses? *)
Definition calls_unguarded (c : string) (l : list gstmt) : bool :=
  existsb (fun x : gstmt => match fst (fst x) with [] => mem_str c (snd x) | _ => false end) l.

Close Scope string_scope.

(* ================= Part 2: attempts of several follow generations ================= *)
Open Scope Z_scope.

Section Gen.
  Variable digest : Type.
  Variable md5 : bytes -> digest.
  Variable digest_eqb : digest -> digest -> bool.
  Variable csz : Z.
  Variable st : Type.
  Variable st0 : st.
  Variable app : record -> st -> st * bool.

  Variable cfg : gcfg.
  Variable aof : bool.              (* --appendonly yes / no *)
  Variable ops : bool -> list so_op. (* followStartOver *)

  Record gdata := { d_file : file; d_mem : st; d_aofsz : Z }.

  Definition apply_so (d : gdata) (o : so_op) : gdata :=
    match o with
    | ORecreate => {| d_file := []; d_mem := d_mem d; d_aofsz := d_aofsz d |}
    | OReset => {| d_file := d_file d; d_mem := st0; d_aofsz := 0 |}
    | ONilDeref => d
    end.
  Definition start_over (os : list so_op) (d : gdata) : gdata := fold_left apply_so os d.

  (* followCheckSome below the generation test: the decision of Model/Follow.v check_some (mode
     Repaired) and what it does to log, dataset and aofsz; None = an error (follow() retries) *)
  Definition resync (d : gdata) (l : file) : gdata * option Z :=
    match fst (check_some digest md5 digest_eqb csz Repaired (d_file d) (d_aofsz d) l) with
    | CSStartOverSmall | CSStartOver => (start_over (ops aof) d, Some 0)
    | CSIntact pos => (d, Some pos)
    | CSTruncate pos keep =>
        let fl := firstn keep (d_file d) in
        ({| d_file := fl; d_mem := replay st st0 app fl; d_aofsz := pos |}, Some pos)
    | CSError | CSFuel => (d, None)
    end.

  Record gses := { gs_rest : file;    (* records of the stream not yet handled *)
                   gs_size : Z;       (* aof_size of the SERVER reply of this attempt *)
                   gs_cu : bool;      (* followStep's local caughtUp *)
                   gs_lpos : Z;
                   gs_done : file;    (* ghost: records handed over so far *)
                   gs_pend : bool }.  (* the read loop is between followHandleCommand and setCaughtUp(true) *)

  Inductive phase :=
  | PNew                    (* follow(): about to call followStep *)
  | PTop                    (* passed the unlocked test at the top of followStep *)
  | PHand                   (* flag cleared; dialling / AUTH *)
  | PServer (sz : Z)        (* SERVER answered: the leader's aof_size was sz *)
  | PChecked (sz pos : Z)   (* followCheckSome returned pos; REPLCONF / AOF pos under way *)
  | PStream (s : gses)      (* AOF accepted: the read loop *)
  | PDead.                  (* follow() returned (errNoLongerFollowing) *)

  Record att := { a_gen : nat; a_ph : phase }.

  Record world := { w_data : gdata; w_cup : bool; w_cur : nat; w_atts : list att }.

  Fixpoint set_nth {A : Type} (l : list A) (i : nat) (x : A) : list A :=
    match l, i with
    | [], _ => []
    | _ :: t, O => x :: t
    | y :: t, S k => y :: set_nth t k x
    end.

  Definition set_ph (w : world) (i : nat) (a : att) (p : phase) : world :=
    {| w_data := w_data w; w_cup := w_cup w; w_cur := w_cur w;
       w_atts := set_nth (w_atts w) i {| a_gen := a_gen a; a_ph := p |} |}.
  Definition set_cup (w : world) (b : bool) : world :=
    {| w_data := w_data w; w_cup := b; w_cur := w_cur w; w_atts := w_atts w |}.
  Definition set_data (w : world) (d : gdata) : world :=
    {| w_data := d; w_cup := w_cup w; w_cur := w_cur w; w_atts := w_atts w |}.
  Definition with_att (w : world) (i : nat) (k : att -> world) : world :=
    match nth_error (w_atts w) i with Some a => k a | None => w end.
  Definition stale (w : world) (a : att) : bool := negb (Nat.eqb (a_gen a) (w_cur w)).

  Inductive gev :=
  | GFollow                       (* cmdFollow accepted another leader: followc++, go follow(new generation) *)
  | GUnfollow                     (* FOLLOW no one: followc++ *)
  | GTopCheck (i : nat)           (* followStep: the unlocked generation test at the top *)
  | GClear (i : nat)              (* lock; faofsz = 0; setCaughtUp(false); unlock *)
  | GServer (i : nat) (l : file)  (* dial, AUTH, SERVER answered by a leader whose log is l *)
  | GCheck (i : nat) (l : file)   (* followCheckSome against a leader whose log is l *)
  | GAof (i : nat) (l : file)     (* REPLCONF, AOF pos accepted by a leader whose log is l; first caught-up test *)
  | GFeed (i : nat) (r : record)  (* the leader logs r: liveAOF pushes it into this attempt's stream *)
  | GDeliver (i : nat)            (* read loop: followHandleCommand on the next record, lpos += n, caught-up test *)
  | GFlag (i : nat)               (* read loop: lock; flushAOF; setCaughtUp(true); unlock *)
  | GFail (i : nat).              (* an error / a dropped connection: followStep returns, follow() loops *)

  Definition actor (e : gev) : option nat :=
    match e with
    | GFollow | GUnfollow => None
    | GTopCheck i | GClear i | GServer i _ | GCheck i _ | GAof i _ | GFeed i _ | GDeliver i | GFlag i | GFail i => Some i
    end.

  Definition gstep (w : world) (e : gev) : world :=
    match e with
    | GFollow =>
        {| w_data := w_data w; w_cup := w_cup w; w_cur := S (w_cur w);
           w_atts := w_atts w ++ [{| a_gen := S (w_cur w); a_ph := PNew |}] |}
    | GUnfollow =>
        {| w_data := w_data w; w_cup := w_cup w; w_cur := S (w_cur w); w_atts := w_atts w |}
    | GTopCheck i =>
        with_att w i (fun a =>
          match a_ph a with
          | PNew => if c_top cfg && stale w a then set_ph w i a PDead else set_ph w i a PTop
          | _ => w
          end)
    | GClear i =>
        with_att w i (fun a =>
          match a_ph a with
          | PTop => set_cup (set_ph w i a PHand) false
          | _ => w
          end)
    | GServer i l =>
        with_att w i (fun a =>
          match a_ph a with
          | PHand => set_ph w i a (PServer (flen l))
          | _ => w
          end)
    | GCheck i l =>
        with_att w i (fun a =>
          match a_ph a with
          | PServer sz =>
              if c_check cfg && stale w a then set_ph w i a PDead
              else
                match resync (w_data w) l with
                | (d', Some pos) => set_data (set_ph w i a (PChecked sz pos)) d'
                | (d', None) => set_data (set_ph w i a PNew) d'
                end
          | _ => w
          end)
    | GAof i l =>
        with_att w i (fun a =>
          match a_ph a with
          | PChecked sz pos =>
              if c_aofg cfg && stale w a then set_ph w i a PDead
              else
                match drop_bytes l pos with
                | None => set_ph w i a PNew     (* "pos is too big" / a stream that does not parse: error, retry *)
                | Some rest =>
                    let cu := sz <=? pos in
                    set_cup (set_ph w i a (PStream {| gs_rest := rest; gs_size := sz; gs_cu := cu; gs_lpos := pos;
                                                     gs_done := []; gs_pend := false |}))
                            (w_cup w || cu)
                end
          | _ => w
          end)
    | GFeed i r =>
        with_att w i (fun a =>
          match a_ph a with
          | PStream s =>
              set_ph w i a (PStream {| gs_rest := gs_rest s ++ [r]; gs_size := gs_size s; gs_cu := gs_cu s;
                                       gs_lpos := gs_lpos s; gs_done := gs_done s; gs_pend := gs_pend s |})
          | _ => w
          end)
    | GDeliver i =>
        with_att w i (fun a =>
          match a_ph a with
          | PStream s =>
              match gs_pend s, gs_rest s with
              | false, r :: rest =>
                  if c_cmd cfg && stale w a then set_ph w i a PDead
                  else
                    let d := w_data w in
                    let '(mem', upd) := app r (d_mem d) in
                    let logged := aof && upd in
                    let d' := {| d_file := if logged then d_file d ++ [r] else d_file d; d_mem := mem';
                                 d_aofsz := if logged then d_aofsz d + blen r else d_aofsz d |} in
                    let lpos := gs_lpos s + blen r in
                    let hit := negb (gs_cu s) && (gs_size s <=? lpos) in
                    set_data (set_ph w i a (PStream {| gs_rest := rest; gs_size := gs_size s; gs_cu := gs_cu s || hit;
                                                       gs_lpos := lpos; gs_done := gs_done s ++ [r]; gs_pend := hit |})) d'
              | _, _ => w
              end
          | _ => w
          end)
    | GFlag i =>
        with_att w i (fun a =>
          match a_ph a with
          | PStream s =>
              if gs_pend s then
                if c_flagg cfg && stale w a then set_ph w i a PDead
                else set_cup (set_ph w i a (PStream {| gs_rest := gs_rest s; gs_size := gs_size s; gs_cu := gs_cu s;
                                                       gs_lpos := gs_lpos s; gs_done := gs_done s; gs_pend := false |})) true
              else w
          | _ => w
          end)
    | GFail i =>
        with_att w i (fun a =>
          match a_ph a with
          | PDead => w
          | _ => set_ph w i a PNew
          end)
    end.

  Definition grun (w : world) (es : list gev) : world := fold_left gstep es w.

  Definition gens (w : world) : list nat := map a_gen (w_atts w).

  Definition phase_of (w : world) (i : nat) : option phase :=
    match nth_error (w_atts w) i with Some a => Some (a_ph a) | None => None end.

  (* the records the leader pushed into the streams during es *)
  Fixpoint fed (es : list gev) : file :=
    match es with
    | [] => []
    | GFeed _ r :: t => r :: fed t
    | _ :: t => fed t
    end.
End Gen.
