(* The append discipline: with the position at the end and only flushes / position-neutral functions,
   the file is what it was plus the flushed bytes in order; a seek + read through the server's own
   descriptor that ends short of the end makes the next flush overwrite old bytes. And, over the table
   regenerated from the source, every use of Server.aof outside the audited set is neutral. *)
From Coq Require Import String List Bool Arith NArith Lia.
From T38 Require Import Base.Bytes Base.ListFacts Model.Resp Gen.AofPos Model.AofPos.
Import ListNotations.
Local Open Scope list_scope.
Local Open Scope nat_scope.

Lemma fd_write_at_end c b : fd_write (mkFd c (length c)) b = mkFd (c ++ b) (length (c ++ b)).
Proof.
  unfold fd_write. cbn [f_content f_pos]. rewrite Nat.sub_diag. cbn [repeat]. rewrite app_nil_r.
  rewrite firstn_all. rewrite skipn_all2 by lia. rewrite app_nil_r, app_length. reflexivity.
Qed.

Lemma run_ops_at_end ops : forallb disciplined ops = true -> forall c,
  run_ops ops (mkFd c (length c)) = mkFd (c ++ flushed ops) (length (c ++ flushed ops)).
Proof.
  induction ops as [|[b| |p n] ops IH]; intros Hd c; [cbn; rewrite app_nil_r; reflexivity| | |discriminate].
  - change (run_ops ops (fd_write (mkFd c (length c)) b) =
            mkFd (c ++ b ++ flushed ops) (length (c ++ b ++ flushed ops))).
    rewrite fd_write_at_end, app_assoc. exact (IH Hd _).
  - exact (IH Hd c).
Qed.

(* the file written by flushing the records of a log one by one (a neutral command before
   each) from the empty file is the byte string the replay theorems call the log *)
Fixpoint flush_log (log : list (list bytes)) : list op :=
  match log with [] => [] | c :: l => ONeutral :: OFlush (enc c) :: flush_log l end.

Lemma flushed_flush_log log : flushed (flush_log log) = encs log.
Proof.
  induction log as [|c l IH]; [reflexivity|].
  cbn [flush_log]. unfold flushed in *. cbn [map concat]. rewrite IH. reflexivity.
Qed.

Lemma flush_log_disciplined log : forallb disciplined (flush_log log) = true.
Proof. induction log as [|c l IH]; [reflexivity|]. cbn. exact IH. Qed.

Lemma fd_write_length f b :
  length (f_content (fd_write f b)) = Nat.max (length (f_content f)) (f_pos f + length b).
Proof.
  unfold fd_write. cbn [f_content]. rewrite !app_length, firstn_length, skipn_length, app_length, repeat_length. lia.
Qed.

(* A seek + read through the server's descriptor that ends short of the end of the file, then a flush
   of at least one byte: the file is NOT the old file plus the flushed bytes — it is shorter: old
   bytes were overwritten. Whatever the file, the block and the record. *)
Lemma seek_read_breaks_append f p n b :
  p + n < length (f_content f) -> b <> [] ->
  f_content (run_ops [OSeekRead p n; OFlush b] f) <> (f_content f ++ b)%list.
Proof.
  intros Hs Hb H. apply (f_equal (@length _)) in H.
  cbn [run_ops fold_left step] in H.
  rewrite fd_write_length in H. cbn [f_content f_pos] in H. rewrite app_length in H.
  destruct b as [|x b]; [congruence|]. cbn [length] in H. lia.
Qed.

Lemma uses_audited : forallb use_ok aof_uses = true.
Proof. vm_compute. reflexivity. Qed.

Local Opaque aof_uses audited.

Lemma uses_audited_spec u : In u aof_uses ->
  use_neutral u = true \/ existsb (use_eqb (use_key u)) audited = true.
Proof.
  intros Hi. pose proof uses_audited as H. rewrite forallb_forall in H. specialize (H u Hi).
  unfold use_ok in H. apply orb_true_iff in H. exact H.
Qed.

Lemma audited_fn u : existsb (use_eqb (use_key u)) audited = true -> In (u_fn u) audited_functions.
Proof.
  intros H. apply existsb_exists in H. destruct H as [a [Ha He]].
  unfold use_eqb in He. apply andb_true_iff in He. destruct He as [He _]. apply andb_true_iff in He. destruct He as [He _].
  cbn [use_key u_fn fst] in He. apply String.eqb_eq in He. rewrite He.
  assert (T : forallb (fun a => existsb (String.eqb (u_fn a)) audited_functions) audited = true) by (vm_compute; reflexivity).
  rewrite forallb_forall in T. exact (proj1 (existsb_eqb_In _ String.eqb_eq _ _) (T a Ha)).
Qed.

(* every function outside the audited ones only makes position-neutral uses of the descriptor: it is
   an ONeutral step of the model. In particular every command handler (AOFMD5, AOF, SERVER, ...). *)
Lemma unaudited_functions_neutral fn : ~ In fn audited_functions -> fn_neutral fn = true.
Proof.
  intros Hn. unfold fn_neutral. apply forallb_forall. intros u Hu.
  unfold uses_of in Hu. apply filter_In in Hu. destruct Hu as [Hi Hf]. apply String.eqb_eq in Hf.
  destruct (uses_audited_spec u Hi) as [H|H]; [exact H|].
  exfalso. apply Hn. rewrite <- Hf. apply audited_fn. exact H.
Qed.
