(* Lemmas about Model/Aof.v.  loadAOF's inner loop is the loop of ReadMessages (Pipeline.rm_loop) run with the
   parser that takes a NUL for a command without arguments, so what PipelineProofs.v proves of rm_loop holds of
   drain.  A log is read as a run of whole records followed by a torn piece: loading any byte prefix of a log
   of encoded commands yields exactly the commands wholly inside the cut; zero runs at command boundaries are
   skipped. *)
From Coq Require Import ZifyN ZifyNat ZifyBool.
From T38 Require Import Base.Bytes Base.ListFacts Model.Resp Model.Aof Model.Pipeline Proofs.RespProofs Proofs.PipelineProofs.
Local Open Scope Z_scope.

Definition cmd_ok (c : list bytes) : Prop := c <> [] /\ len (enc c) < BIG.

(* number of commands wholly inside the first k bytes of encs cmds *)
Fixpoint inside (cmds : list (list bytes)) (k : Z) : nat :=
  match cmds with
  | [] => O
  | c :: cs => if len (enc c) <=? k then S (inside cs (k - len (enc c))) else O
  end.

Definition aof_parse (d : bytes) : cres :=
  match d with 0%N :: d' => CComplete [] KRedis d' | _ => of_result (read_next d) end.

(* loadAOF returns an error without the commands read before it; aof_parse has no error but EParse *)
Definition of_rm (r : rm_res) : drain_res :=
  match r with
  | RM ms b None => DOk (map m_args ms) b
  | RM _ _ (Some (EParse x)) => DErr x
  | RM _ _ (Some _) | RMPanic => DPanic
  | RMFuel => DFuel
  end.

Lemma drain_rm : forall f d, drain f d = of_rm (rm_loop aof_parse f d).
Proof.
  induction f as [|f IH]; intros d; [reflexivity|]. cbn [drain]. rewrite rm_loop_S. unfold rm_round.
  destruct d as [|[|p] d']; [reflexivity| |].
  - cbn [aof_parse bad_http keep]. rewrite IH. destruct (rm_loop aof_parse f d') as [ms b [[]|]| |]; reflexivity.
  - cbn [aof_parse]. destruct (read_next (N.pos p :: d')) as [args k rest| | | |]; cbn [of_result]; try reflexivity.
    replace (bad_http (of_kind k) args) with false by (destruct k; reflexivity). rewrite IH.
    destruct (rm_loop aof_parse f rest) as [ms b [[]|]| |]; destruct args; reflexivity.
Qed.
Lemma drain_all_rm d : drain_all d = of_rm (rm_all aof_parse d).
Proof. apply drain_rm. Qed.

Lemma aof_parse_ext d e : cext_good (len (d ++ e) < BIG) e d (aof_parse d) (aof_parse (d ++ e)).
Proof.
  destruct d as [|[|p] d']; [exact I| |exact (of_result_ext _ _ _ _ (read_next_app (N.pos p :: d') e))].
  cbn [aof_parse app cext_good]. rewrite len_cons. split; [lia|reflexivity].
Qed.
Lemma aof_parse_stable d e : cext e (aof_parse d) (aof_parse (d ++ e)).
Proof. exact (cext_good_cext _ _ _ _ _ (aof_parse_ext d e)). Qed.
Lemma aof_parse_good : cgood aof_parse.
Proof. intros d. pose proof (aof_parse_ext d []) as H. destruct (aof_parse d); cbn in *; tauto. Qed.

Definition dprepend (cs : list (list bytes)) (r : drain_res) : drain_res :=
  match r with DOk cs' l => DOk (cs ++ cs') l | o => o end.

(* what bytes arriving behind d make of the outcome on d (PipelineProofs.rm_all_ext for loadAOF's loop) *)
Lemma drain_all_ext d e : drain_all d <> DPanic ->
  drain_all (d ++ e) = match drain_all d with DOk cs lo => dprepend cs (drain_all (lo ++ e)) | o => o end.
Proof.
  rewrite !drain_all_rm. intros Hp.
  rewrite (rm_all_ext aof_parse (len (d ++ e) + 1) (fun d e _ => aof_parse_stable d e) aof_parse_good);
    [|lia|intros E; rewrite E in Hp; exact (Hp eq_refl)].
  destruct (rm_all aof_parse d) as [ms b [[]|]| |]; cbn [resume of_rm] in *; try congruence.
  rewrite drain_all_rm.
  destruct (rm_all aof_parse (b ++ e)) as [ms' b' [[]|]| |]; cbn [prepend of_rm dprepend]; rewrite ?map_app; reflexivity.
Qed.

(* x is a run of whole records (commands, NULs) holding the commands cs: it loads with nothing left over *)
Definition whole_run (x : bytes) (cs : list (list bytes)) : Prop := drain_all x = DOk cs [].

Lemma whole_then x cs rest : whole_run x cs -> drain_all (x ++ rest) = dprepend cs (drain_all rest).
Proof. intros H. rewrite drain_all_ext, H by (rewrite H; discriminate). reflexivity. Qed.

Lemma whole_app x y cs cs' : whole_run x cs -> whole_run y cs' -> whole_run (x ++ y) (cs ++ cs').
Proof. intros Hx Hy. unfold whole_run. rewrite (whole_then x cs y Hx), Hy. reflexivity. Qed.

Lemma whole_zeros z : whole_run (repeat 0%N z) [].
Proof. induction z as [|z IH]; [reflexivity|exact IH]. Qed.

(* an encoded command does not begin with a NUL: the loop hands it to read_next *)
Lemma whole_enc c : cmd_ok c -> whole_run (enc c) [c].
Proof.
  intros [Hne Hbig]. pose proof (read_next_enc c [] Hbig) as R. rewrite app_nil_r in R.
  unfold whole_run, drain_all. cbn [drain]. rewrite R.
  destruct (enc c) as [|[|p] d'] eqn:Ed; try (unfold enc in Ed; discriminate Ed). destruct c; [congruence|reflexivity].
Qed.

Lemma whole_encs cmds : Forall cmd_ok cmds -> whole_run (encs cmds) cmds.
Proof. induction 1 as [|c cs Hc _ IH]; [reflexivity|]. exact (whole_app _ _ [c] cs (whole_enc c Hc) IH). Qed.

Fixpoint padded (l : list (nat * list bytes)) : bytes :=
  match l with
  | [] => []
  | (z, c) :: r => repeat 0%N z ++ enc c ++ padded r
  end.

Lemma whole_padded l ztail :
  Forall (fun zc => cmd_ok (snd zc)) l -> whole_run (padded l ++ repeat 0%N ztail) (map snd l).
Proof.
  induction 1 as [|[z c] l Hc _ IH]; [exact (whole_zeros ztail)|]. cbn [padded]. rewrite <- !app_assoc.
  exact (whole_app _ _ [] _ (whole_zeros z) (whole_app _ _ [c] _ (whole_enc c Hc) IH)).
Qed.

(* the end of a file cut inside a record: nothing, or a strict prefix of a command *)
Inductive torn : bytes -> Prop :=
| torn_nil : torn []
| torn_cmd c lo l : cmd_ok c -> lo ++ l = enc c -> l <> [] -> torn lo.

Lemma drain_all_torn lo : torn lo -> drain_all lo = DOk [] lo.
Proof.
  intros [|c q l [_ Hbig] E Hl]; [reflexivity|].
  pose proof (read_next_enc_cut c q l Hbig E Hl) as R.
  destruct q as [|[|p] q']; [reflexivity|unfold enc in E; discriminate E|].
  unfold drain_all. cbn [drain]. rewrite R. reflexivity.
Qed.

Lemma load_whole_framed x cs lo : whole_run x cs -> torn lo -> load_whole (x ++ lo) = Loaded cs (len x).
Proof.
  intros Hx Ht. unfold load_whole. rewrite (whole_then x cs lo Hx), (drain_all_torn lo Ht). cbn [dprepend].
  rewrite app_nil_r, len_app. f_equal. lia.
Qed.

Lemma load_whole_run x cs : whole_run x cs -> load_whole x = Loaded cs (len x).
Proof. intros Hx. rewrite <- (app_nil_r x) at 1. exact (load_whole_framed x cs [] Hx torn_nil). Qed.

Lemma encs_cut : forall cmds q s, Forall cmd_ok cmds -> q ++ s = encs cmds ->
  exists lo, q = encs (firstn (inside cmds (len q)) cmds) ++ lo /\ torn lo.
Proof.
  induction cmds as [|c cs IH]; intros q s Hok E.
  { apply app_eq_nil in E as [-> _]. exists []. split; [reflexivity|exact torn_nil]. }
  inversion Hok as [|? ? Hc Hok']; subst.
  change (encs (c :: cs)) with (enc c ++ encs cs) in E. cbn [inside].
  destruct (prefix_cases _ _ _ _ _ E) as [[l [-> El]]|[l [Hl El]]].
  - rewrite len_app. pose proof (len_nonneg l).
    destruct (Z.leb_spec (len (enc c)) (len (enc c) + len l)); [|lia].
    replace (len (enc c) + len l - len (enc c)) with (len l) by lia.
    destruct (IH l s Hok' El) as [lo [Q Ht]]. exists lo. split; [|exact Ht].
    cbn [firstn]. change (encs (c :: ?x)) with (enc c ++ encs x). rewrite <- app_assoc, <- Q. reflexivity.
  - apply len_pos in Hl as Hl'. apply (f_equal len) in El as Hq. rewrite len_app in Hq.
    destruct (Z.leb_spec (len (enc c)) (len q)); [lia|].
    exists q. split; [reflexivity|exact (torn_cmd c q l Hc El Hl)].
Qed.

Lemma Forall_firstn (A : Type) (P : A -> Prop) n l : Forall P l -> Forall P (firstn n l).
Proof. apply incl_Forall, incl_firstn. Qed.

Theorem load_whole_cut cmds q s : Forall cmd_ok cmds -> q ++ s = encs cmds ->
  load_whole q = Loaded (firstn (inside cmds (len q)) cmds) (len (encs (firstn (inside cmds (len q)) cmds))).
Proof.
  intros Hok E. destruct (encs_cut cmds q s Hok E) as [lo [Q Ht]]. rewrite Q at 1.
  exact (load_whole_framed _ _ lo (whole_encs _ (Forall_firstn _ _ _ _ Hok)) Ht).
Qed.

Lemma inside_le cmds z : (inside cmds z <= length cmds)%nat.
Proof.
  revert z. induction cmds as [|c cs IH]; intros z; cbn [inside length]; [apply Nat.le_refl|].
  destruct (len (enc c) <=? z); [apply le_n_S, IH | apply Nat.le_0_l].
Qed.

Lemma inside_ge cmds : forall m k, (m <= length cmds)%nat -> len (encs (firstn m cmds)) <= k -> (m <= inside cmds k)%nat.
Proof.
  induction cmds as [|c cs IH]; intros m k Hm Hk; destruct m as [|m]; try lia; cbn [length] in Hm; [lia|].
  cbn [firstn] in Hk. change (encs (c :: firstn m cs)) with (enc c ++ encs (firstn m cs)) in Hk. rewrite len_app in Hk.
  pose proof (len_nonneg (encs (firstn m cs))).
  cbn [inside]. destruct (Z.leb_spec (len (enc c)) k); [|lia].
  specialize (IH m (k - len (enc c)) ltac:(lia) ltac:(lia)). lia.
Qed.

(* what start-up keeps of a file that is a byte prefix q of the records l: the first n records, which
   fit in q, and every record that was wholly written is among them *)
Lemma cut_log l q t : Forall cmd_ok l -> q ++ t = encs l ->
  exists n, load_whole q = Loaded (firstn n l) (len (encs (firstn n l))) /\
    len (encs (firstn n l)) <= len q /\
    (forall m, (m <= length l)%nat -> len (encs (firstn m l)) <= len q -> (m <= length (firstn n l))%nat).
Proof.
  intros Hok E. exists (inside l (len q)). split; [exact (load_whole_cut l q t Hok E)|]. split.
  - destruct (encs_cut l q t Hok E) as [lo [Q _]].
    apply (f_equal len) in Q. rewrite len_app in Q. pose proof (len_nonneg lo). lia.
  - intros m Hm Hk. rewrite firstn_length. pose proof (inside_ge l m (len q) Hm Hk). lia.
Qed.

Theorem load_whole_padded l ztail : Forall (fun zc => cmd_ok (snd zc)) l ->
  load_whole (padded l ++ repeat 0%N ztail) = Loaded (map snd l) (len (padded l ++ repeat 0%N ztail)).
Proof.
  intros Hok. exact (load_whole_run _ _ (whole_padded l ztail Hok)).
Qed.

Lemma encs_app a b : encs (a ++ b) = encs a ++ encs b.
Proof. unfold encs. apply flat_map_app. Qed.

Theorem load_whole_full cmds : Forall cmd_ok cmds -> load_whole (encs cmds) = Loaded cmds (len (encs cmds)).
Proof. intros Hok. exact (load_whole_run _ _ (whole_encs cmds Hok)). Qed.

