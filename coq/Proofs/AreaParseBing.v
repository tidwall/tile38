(* internal/bing quadkey arithmetic (Model/AreaParse.v: qk_loop, quadkey_to_tilexy,
   tilexy_to_quadkey, quadkey_to_bounds): basic laws. *)
From Coq Require Import String Ascii List Bool ZArith NArith Lia.
From T38 Require Import Base.Bytes Model.AreaParse.
Import ListNotations.
Local Open Scope Z_scope.

Definition dig_x (c : N) : bool := ((c =? 49) || (c =? 51))%N.   (* '1', '3': tileX |= mask *)
Definition dig_y (c : N) : bool := ((c =? 50) || (c =? 51))%N.   (* '2', '3': tileY |= mask *)

(* QuadKeyToTileXY treats tileX and tileY alike: [d] says which digits set the bit *)
Fixpoint qk_acc (d : N -> bool) (k : bytes) (x : Z) : Z :=
  match k with
  | [] => x
  | c :: r => qk_acc d r (if d c then Z.lor x (mask64 (Z.of_nat (length r))) else x)
  end.

Lemma qk_loop_acc k : forall x y,
  qk_loop k x y = if forallb quadkey_digit k then Some (qk_acc dig_x k x, qk_acc dig_y k y) else None.
Proof.
  induction k as [|c r IH]; intros x y; [reflexivity|].
  cbn [qk_loop forallb qk_acc].
  replace (Z.of_nat (length (c :: r)) - 1) with (Z.of_nat (length r)) by (cbn [length]; lia).
  unfold quadkey_digit, dig_x, dig_y.
  destruct (N.eqb_spec c 48) as [->|_]; [apply IH|].
  destruct (N.eqb_spec c 49) as [->|_]; [apply IH|].
  destruct (N.eqb_spec c 50) as [->|_]; [apply IH|].
  destruct (N.eqb_spec c 51) as [->|_]; [apply IH|reflexivity].
Qed.

Lemma quadkey_to_tilexy_acc k :
  quadkey_to_tilexy k = if forallb quadkey_digit k
                        then Some (qk_acc dig_x k 0, qk_acc dig_y k 0, Z.of_nat (length k)) else None.
Proof. unfold quadkey_to_tilexy. rewrite qk_loop_acc. destruct (forallb quadkey_digit k); reflexivity. Qed.

Lemma quadkey_level k x y z : quadkey_to_tilexy k = Some (x, y, z) -> z = Z.of_nat (length k).
Proof.
  rewrite quadkey_to_tilexy_acc. destruct (forallb quadkey_digit k); [|discriminate].
  intros H; inversion H; reflexivity.
Qed.

Lemma quadkey_to_bounds_acc k :
  quadkey_to_bounds k = Ok (if forallb quadkey_digit k
                            then Some (ATile (qk_acc dig_x k 0) (qk_acc dig_y k 0) (Z.of_nat (length k)))
                            else None).
Proof.
  unfold quadkey_to_bounds. rewrite quadkey_to_tilexy_acc. destruct (forallb quadkey_digit k); reflexivity.
Qed.

Lemma mask64_small n : (n < 63)%nat -> mask64 (Z.of_nat n) = 2 ^ Z.of_nat n.
Proof. intros H. unfold mask64. destruct (Z.ltb_spec (Z.of_nat n) 63); [reflexivity|lia]. Qed.

Lemma digit_bit (b : bool) x n m : (n < 63)%nat ->
  Z.testbit (if b then Z.lor x (mask64 (Z.of_nat n)) else x) m = Z.testbit x m || b && (Z.of_nat n =? m).
Proof.
  intros Hn. destruct b; [|symmetry; apply orb_false_r].
  rewrite mask64_small, Z.lor_spec, Z.pow2_bits_eqb by (assumption || apply Nat2Z.is_nonneg). reflexivity.
Qed.

Lemma qk_acc_high d : forall k x m, (length k <= 63)%nat -> Z.of_nat (length k) <= m ->
  Z.testbit (qk_acc d k x) m = Z.testbit x m.
Proof.
  induction k as [|c r IH]; intros x m Hlen Hm; cbn [length qk_acc] in *; [reflexivity|].
  rewrite IH, digit_bit, (proj2 (Z.eqb_neq _ m)), andb_false_r by lia. apply orb_false_r.
Qed.

(* The digit with [post] behind it lands on bit (length post): the digits before it sit on higher
   bits, the digits behind leave bit (length post) alone. *)
Lemma qk_acc_bit d : forall pre c post x, (length (pre ++ c :: post) <= 63)%nat ->
  Z.testbit (qk_acc d (pre ++ c :: post) x) (Z.of_nat (length post))
  = Z.testbit x (Z.of_nat (length post)) || d c.
Proof.
  induction pre as [|a pre IH]; intros c post x Hlen; cbn [app qk_acc length] in *.
  - rewrite qk_acc_high, digit_bit, Z.eqb_refl, andb_true_r by lia. reflexivity.
  - rewrite IH, digit_bit, (proj2 (Z.eqb_neq _ _)), andb_false_r, orb_false_r
      by (rewrite ?app_length in *; cbn [length] in *; lia).
    reflexivity.
Qed.

(* QuadKeyToTileXY(k) for len(k) <= 63: bit (level-1-j) of tileX / tileY is the low / high bit of digit j,
   every bit at or above level is clear *)
Lemma quadkey_bits k x y z : (length k <= 63)%nat ->
  quadkey_to_tilexy k = Some (x, y, z) ->
  (forall j, (j < length k)%nat ->
     Z.testbit x (Z.of_nat (length k - 1 - j)) = dig_x (nth j k 0%N) /\
     Z.testbit y (Z.of_nat (length k - 1 - j)) = dig_y (nth j k 0%N))
  /\ (forall m, Z.of_nat (length k) <= m -> Z.testbit x m = false /\ Z.testbit y m = false).
Proof.
  intros Hlen H. rewrite quadkey_to_tilexy_acc in H.
  destruct (forallb quadkey_digit k); [|discriminate]. inversion H; subst; clear H.
  split.
  - intros j Hj. destruct (nth_split k 0%N Hj) as (pre & post & E & <-).
    revert E. generalize (nth (length pre) k 0%N). intros c ->.
    replace (length (pre ++ c :: post) - 1 - length pre)%nat with (length post)
      by (rewrite app_length; cbn [length]; lia).
    rewrite !qk_acc_bit, !Z.bits_0 by exact Hlen. split; reflexivity.
  - intros m Hm. rewrite !qk_acc_high, !Z.bits_0 by assumption. split; reflexivity.
Qed.

Lemma high_bits_clear_range v n : 0 <= n ->
  (forall m, n <= m -> Z.testbit v m = false) -> 0 <= v < 2 ^ n.
Proof.
  intros Hn Hv. replace v with (v mod 2 ^ n); [apply Z.mod_pos_bound, Z.pow_pos_nonneg; lia|].
  apply Z.bits_inj'. intros m _. rewrite Z.testbit_mod_pow2 by exact Hn.
  destruct (Z.ltb_spec m n); [reflexivity|symmetry; apply Hv; assumption].
Qed.

Lemma mask64_test x n : (n < 63)%nat ->
  (Z.land x (mask64 (Z.of_nat n)) =? 0) = negb (Z.testbit x (Z.of_nat n)).
Proof.
  intros Hn. rewrite mask64_small by exact Hn. pose proof (Nat2Z.is_nonneg n) as Hs.
  destruct (Z.testbit x (Z.of_nat n)) eqn:E.
  - apply Z.eqb_neq. intros H0.
    assert (Hb : Z.testbit (Z.land x (2 ^ Z.of_nat n)) (Z.of_nat n) = true).
    { rewrite Z.land_spec, E, Z.pow2_bits_true by exact Hs. reflexivity. }
    rewrite H0, Z.bits_0 in Hb. discriminate.
  - apply Z.eqb_eq. apply Z.bits_inj'. intros m Hm.
    rewrite Z.land_spec, Z.bits_0, Z.pow2_bits_eqb by exact Hs.
    destruct (Z.eqb_spec (Z.of_nat n) m) as [<-|]; [rewrite E; reflexivity|apply andb_false_r].
Qed.

Lemma digit_of_bits c : quadkey_digit c = true ->
  (if dig_x c then (if dig_y c then 51%N else 49%N) else if dig_y c then 50%N else 48%N) = c.
Proof.
  unfold quadkey_digit, dig_x, dig_y.
  destruct (N.eqb_spec c 48) as [->|]; [reflexivity|].
  destruct (N.eqb_spec c 49) as [->|]; [reflexivity|].
  destruct (N.eqb_spec c 50) as [->|]; [reflexivity|].
  destruct (N.eqb_spec c 51) as [->|]; [reflexivity|]. discriminate.
Qed.

(* a string of digits is read back from the bits it set *)
Lemma tilexy_of_bits : forall k x y, (length k <= 63)%nat -> forallb quadkey_digit k = true ->
  (forall pre c post, k = pre ++ c :: post ->
     Z.testbit x (Z.of_nat (length post)) = dig_x c /\ Z.testbit y (Z.of_nat (length post)) = dig_y c) ->
  tilexy_to_quadkey (length k) x y = k.
Proof.
  induction k as [|c r IH]; intros x y Hlen Hv Hbits; [reflexivity|].
  cbn [length forallb] in *. apply andb_true_iff in Hv. destruct Hv as [Hc Hr].
  cbn [tilexy_to_quadkey]. rewrite !mask64_test, !negb_involutive by exact Hlen.
  destruct (Hbits [] c r eq_refl) as [-> ->]. rewrite (digit_of_bits _ Hc). f_equal.
  apply IH; [apply Nat.lt_le_incl, Hlen|exact Hr|]. intros pre c' post ->. apply (Hbits (c :: pre)). reflexivity.
Qed.

Lemma quadkey_roundtrip k x y z : (length k <= 63)%nat ->
  quadkey_to_tilexy k = Some (x, y, z) -> tilexy_to_quadkey (Z.to_nat z) x y = k.
Proof.
  intros Hlen H. rewrite quadkey_to_tilexy_acc in H.
  destruct (forallb quadkey_digit k) eqn:Hv; [|discriminate]. inversion H; subst; clear H.
  rewrite Nat2Z.id. apply tilexy_of_bits; [exact Hlen|exact Hv|]. intros pre c post ->.
  rewrite !qk_acc_bit, !Z.bits_0 by exact Hlen. split; reflexivity.
Qed.

(* above 64 digits the leading digits do not matter: int64(1 << (i-1)) is 0 there *)
Lemma quadkey_leading_ignored c k x y : (64 <= length k)%nat -> quadkey_digit c = true ->
  qk_loop (c :: k) x y = qk_loop k x y.
Proof.
  intros Hlen Hc. rewrite !qk_loop_acc. cbn [forallb qk_acc]. rewrite Hc.
  assert (Hm : mask64 (Z.of_nat (length k)) = 0).
  { unfold mask64. destruct (Z.ltb_spec (Z.of_nat (length k)) 63); [lia|].
    destruct (Z.eqb_spec (Z.of_nat (length k)) 63); [lia|reflexivity]. }
  rewrite Hm, !Z.lor_0_r. destruct (dig_x c), (dig_y c); reflexivity.
Qed.
