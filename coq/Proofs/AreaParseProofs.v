(* The two query-area parsers (Model/AreaParse.v): neither panics nor runs out of fuel; on the
   area words they share they build the same object, consume the same tokens and fail with the
   same error; where they differ the difference is stated ([agree] for the successes of one area
   word), and witnessed in Props/C02ar.v.

   Two representations stand beside the transcribed parsers.  The statements of an arm of a switch
   are data ([prog], executed by [run]); a switch on the lower-cased type word is a table of rows
   keyed by words ([dispatch]).  Each parser equals its table by conversion (rect_table_eq,
   search_table_eq, test_table_eq, expr_table_eq), the arms of the shared words are the same terms in
   both tables (CIRCLE up to circle_same), and what holds of every program (run_post; run_rel and
   run_tok2 for two runs at once) or of every table (dispatch_word) is proved once. *)
From Coq Require Import String Ascii List Bool ZArith NArith Lia.
From T38 Require Import Base.Bytes Model.AreaParse Proofs.AreaParseBing.
Import ListNotations.
Local Open Scope Z_scope.

Lemma beq_true l s : beq l s = true -> l = lit s.
Proof. unfold beq. apply bytes_eqb_eq. Qed.

Lemma beq_refl s : beq (lit s) s = true.
Proof. unfold beq. apply bytes_eqb_refl. Qed.

(* Partial correctness of a parser run.  [post E Q r]: the run neither panics nor runs out of fuel,
   an error it answers satisfies E and a value it answers satisfies Q. *)
Definition post {A} (E : perr -> Prop) (Q : A -> Prop) (r : res A) : Prop :=
  match r with Ok a => Q a | Err e => E e | Panic | NoFuel => False end.

Definition safe {A} (r : res A) : Prop := post (fun _ => True) (fun _ => True) r.

Lemma post_safe {A} E (Q : A -> Prop) r : post E Q r -> safe r.
Proof. destruct r; cbn; auto. Qed.

Lemma post_ok {A} E (Q : A -> Prop) r a : post E Q r -> r = Ok a -> Q a.
Proof. intros H ->. exact H. Qed.

(* `do a <- r; f a`, with what is known of r *)
Lemma post_seq {A B} (E : perr -> Prop) (Q' : A -> Prop) (Q : B -> Prop) (r : res A) (f : A -> res B) :
  post E Q' r -> (forall a, Q' a -> post (fun _ => True) Q (f a)) -> post (fun _ => True) Q (bind r f).
Proof. destruct r; cbn; auto. Qed.

Lemma safe_no_panic {A} (r : res A) : safe r -> r <> Panic /\ r <> NoFuel.
Proof. destruct r; cbn; try contradiction; split; discriminate. Qed.

Lemma need_tok_ok vs vs' t : need_tok vs = Ok (vs', t) -> vs = t :: vs' /\ is_empty t = false.
Proof. destruct vs as [|[|c t0] vs0]; try discriminate. intros [= <- <-]. split; reflexivity. Qed.

Lemma need_tok_cons t vs : is_empty t = false -> need_tok (t :: vs) = Ok (vs, t).
Proof. destruct t; [discriminate|reflexivity]. Qed.

(* `do (vs, x) <- need_tok vs; k` *)
Lemma post_tok {B} (E : perr -> Prop) (Q : B -> Prop) vs (k : list bytes * bytes -> res B) :
  E ENumArgs -> (forall t vs', vs = t :: vs' -> is_empty t = false -> post E Q (k (vs', t))) ->
  post E Q (bind (need_tok vs) k).
Proof. intros He H. destruct vs as [|[|c t] vs']; [exact He|exact He|exact (H _ _ eq_refl eq_refl)]. Qed.

(* What the two sides compare a lower-cased token with.  The literals are pairwise distinct
   (lits_distinct, evaluated, as is word_of on each of them), so a token is at most one word [word_of];
   a comparison with a literal, a disjunction of such comparisons [key] and a chain of
   `if key … then … else …` [dispatch] are then tests on that word. *)
Inductive word :=
| WPoint | WCircle | WObject | WSector | WBounds | WHash | WQuadkey | WTile | WGet | WMvt | WRoam
| WClip | WClipby | WOpen | WClose | WNot | WAnd | WOr.

Definition word_str (w : word) : string :=
  match w with
  | WPoint => "point" | WCircle => "circle" | WObject => "object" | WSector => "sector"
  | WBounds => "bounds" | WHash => "hash" | WQuadkey => "quadkey" | WTile => "tile" | WGet => "get"
  | WMvt => "mvt" | WRoam => "roam" | WClip => "clip" | WClipby => "clipby"
  | WOpen => "(" | WClose => ")" | WNot => "not" | WAnd => "and" | WOr => "or"
  end.

Definition words : list word :=
  [WPoint; WCircle; WObject; WSector; WBounds; WHash; WQuadkey; WTile; WGet; WMvt; WRoam;
   WClip; WClipby; WOpen; WClose; WNot; WAnd; WOr].

Definition word_eqb (a b : word) : bool :=
  match a, b with
  | WPoint, WPoint | WCircle, WCircle | WObject, WObject | WSector, WSector | WBounds, WBounds
  | WHash, WHash | WQuadkey, WQuadkey | WTile, WTile | WGet, WGet | WMvt, WMvt | WRoam, WRoam
  | WClip, WClip | WClipby, WClipby | WOpen, WOpen | WClose, WClose | WNot, WNot | WAnd, WAnd
  | WOr, WOr => true
  | _, _ => false
  end.

Definition word_of (l : bytes) : option word := find (fun w => beq l (word_str w)) words.
Definition memw (ws : list word) (o : option word) : bool :=
  match o with Some w => existsb (word_eqb w) ws | None => false end.

Lemma lits_distinct a b : beq (lit (word_str a)) (word_str b) = word_eqb a b.
Proof. destruct a, b; vm_compute; reflexivity. Qed.

Lemma beq_word l w : beq l (word_str w) = memw [w] (word_of l).
Proof.
  unfold word_of, memw. cbn [existsb]. destruct (find _ words) as [w'|] eqn:F.
  - apply find_some in F. destruct F as [_ F]. apply beq_true in F. subst l.
    rewrite orb_false_r. apply lits_distinct.
  - apply (find_none _ _ F). destruct w; repeat first [left; reflexivity|right].
Qed.

(* b1 || b2 || … as the parsers write it (associated to the left) *)
Definition key (ws : list word) (l : bytes) : bool :=
  fold_left (fun b w => b || beq l (word_str w)) ws false.

Lemma key_word ws l : key ws l = memw ws (word_of l).
Proof.
  unfold key. rewrite <- (orb_false_l (memw ws _)). generalize false.
  induction ws as [|w ws IH]; intros b; cbn [fold_left].
  - destruct (word_of l); symmetry; apply orb_false_r.
  - rewrite IH, beq_word, <- orb_assoc. destruct (word_of l); cbn [memw existsb]; rewrite ?orb_false_r; reflexivity.
Qed.

Lemma beq_word_of l w : beq l (word_str w) = true -> word_of l = Some w.
Proof. intros H. apply beq_true in H. subst l. destruct w; vm_compute; reflexivity. Qed.

(* a switch on the word, in the order the source tests its cases *)
Fixpoint dispatch {X} (rows : list (list word * X)) (dflt : X) (l : bytes) : X :=
  match rows with
  | [] => dflt
  | (ws, x) :: rows => if key ws l then x else dispatch rows dflt l
  end.

Fixpoint row_of {X} (rows : list (list word * X)) (dflt : X) (o : option word) : X :=
  match rows with
  | [] => dflt
  | (ws, x) :: rows => if memw ws o then x else row_of rows dflt o
  end.

Lemma dispatch_word {X} rows (dflt : X) l : dispatch rows dflt l = row_of rows dflt (word_of l).
Proof.
  induction rows as [|[ws x] rows IH]; cbn [dispatch row_of]; [reflexivity|]. rewrite key_word, IH. reflexivity.
Qed.

(* The statement forms of the transcribed parsers as data.  An arm of a switch is a [prog]; [run]
   (in the section, it needs the ParseFloat oracle) executes it on a token list and hands the rest of
   the list and the value built to [ret]. *)
Inductive prog (A : Type) : Type :=
| Ret (a : A)
| Fail (e : perr)
| Tok (k : bytes -> prog A)                         (* do (vs, t) <- need_tok vs; k t *)
| Flt (s : bytes) (k : Z -> prog A)                 (* do b <- need_float s; k b *)
| Opt (o : option Z) (s : bytes) (k : Z -> prog A)  (* match o with None => Err (EInvalidArg s) | Some x => k x end *)
| If (b : bool) (p q : prog A)
| Quad (key : bytes) (k : area -> prog A)           (* QuadKeyToBounds *)
| Look (r : lookupT) (p : prog A)
| Peek (k : bytes -> bool -> prog A).               (* vs, t, ok = tokenval(vs), no test *)
Arguments Ret {A} a.
Arguments Fail {A} e.
Arguments Tok {A} k.
Arguments Flt {A} s k.
Arguments Opt {A} o s k.
Arguments If {A} b p q.
Arguments Quad {A} key k.
Arguments Look {A} r p.
Arguments Peek {A} k.

(* every way the program can end: an error it answers satisfies E, a value it builds satisfies P *)
Fixpoint ends {A} (E : perr -> Prop) (P : A -> Prop) (p : prog A) : Prop :=
  match p with
  | Ret a => P a
  | Fail e => E e
  | Tok k => E ENumArgs /\ forall t, ends E P (k t)
  | Flt s k | Opt _ s k => E (EInvalidArg s) /\ forall x, ends E P (k x)
  | If _ p q => ends E P p /\ ends E P q
  | Quad key k => E (EInvalidArg key) /\ forall x y z, ends E P (k (ATile x y z))
  | Look _ p => E EKeyNotFound /\ E EIdNotFound /\ ends E P p
  | Peek k => forall t ok, ends E P (k t ok)
  end.

(* a concrete arm: down to its ends, which are constructor terms *)
Ltac ends := repeat split; discriminate.

Section P.
  Variable lower : bytes -> bytes.
  Variable pf : bytes -> option Z.
  Variable gj_ok : bytes -> bool.
  Variable sec_ok : Z -> Z -> Z -> Z -> Z -> bool.
  Variable lookup : bytes -> bytes -> lookupT.

  Notation parse_rect_area := (parse_rect_area pf).
  Notation search_switch := (search_switch lower pf gj_ok sec_ok lookup).
  Notation clipby_loop := (clipby_loop lower pf).
  Notation search_area := (search_area lower pf gj_ok sec_ok lookup).
  Notation parse_area := (parse_area lower pf gj_ok sec_ok lookup).
  Notation test_expr_loop := (test_expr_loop lower pf gj_ok sec_ok lookup).
  Notation test_expr := (test_expr lower pf gj_ok sec_ok lookup).
  Notation test_tail := (test_tail lower pf gj_ok sec_ok lookup).
  Notation need_float := (need_float pf).

  Fixpoint run {A R} (ret : list bytes -> A -> res R) (p : prog A) (vs : list bytes) : res R :=
    match p with
    | Ret a => ret vs a
    | Fail e => Err e
    | Tok k => do (vs, t) <- need_tok vs; run ret (k t) vs
    | Flt s k => do b <- need_float s; run ret (k b) vs
    | Opt o s k => match o with Some x => run ret (k x) vs | None => Err (EInvalidArg s) end
    | If b p q => if b then run ret p vs else run ret q vs
    | Quad key k => do b <- quadkey_to_bounds key;
                    match b with None => Err (EInvalidArg key) | Some a => run ret (k a) vs end
    | Look r p => match r with LNoKey => Err EKeyNotFound | LNoId => Err EIdNotFound | LFound => run ret p vs end
    | Peek k => match tokenval vs with (nvs, t, ok) => run ret (k t ok) nvs end
    end.

  (* a run does not panic, and ends as the program's ends and [ret] on a rest no longer than vs allow *)
  Lemma run_post {A R} (E : perr -> Prop) (P : A -> Prop) (Q : R -> Prop) ret (p : prog A) : forall vs,
    ends E P p ->
    (forall vs' a, (length vs' <= length vs)%nat -> P a -> post E Q (ret vs' a)) ->
    post E Q (run ret p vs).
  Proof.
    induction p as [a|e|k IH|s k IH|o s k IH|b p IHp q IHq|key k IH|r p IH|k IH]; intros vs Hp Hret;
      cbn [run ends] in *.
    - apply Hret; [apply le_n|exact Hp].
    - exact Hp.
    - apply post_tok; [apply Hp|intros t vs' -> _]. apply IH; [apply Hp|].
      intros vs'' a Hl. apply Hret. cbn [length]. apply le_S, Hl.
    - unfold AreaParse.need_float. destruct (pf s); [apply IH; [apply Hp|exact Hret]|apply Hp].
    - destruct o; [apply IH; [apply Hp|exact Hret]|apply Hp].
    - destruct b; [apply IHp|apply IHq]; (apply Hp || exact Hret).
    - rewrite quadkey_to_bounds_acc. cbn [bind]. destruct (forallb _ _); [apply IH; [apply Hp|exact Hret]|apply Hp].
    - destruct r; [apply Hp|apply Hp|apply IH; [apply Hp|exact Hret]].
    - destruct vs as [|t vs']; cbn [tokenval]; apply IH; try apply Hp; [exact Hret|].
      intros vs'' a Hl. apply Hret. cbn [length]. apply le_S, Hl.
  Qed.

  (* `do (vs, t) <- need_tok vs; …` in two runs at once *)
  Lemma run_tok2 {A A' R R'} (Rel : res R -> res R' -> Prop) ret ret' (k : bytes -> prog A) (k' : bytes -> prog A') vs :
    Rel (Err ENumArgs) (Err ENumArgs) ->
    (forall t vs', vs = t :: vs' -> Rel (run ret (k t) vs') (run ret' (k' t) vs')) ->
    Rel (run ret (Tok k) vs) (run ret' (Tok k') vs).
  Proof. intros He H. destruct vs as [|[|c t] vs']; [exact He|exact He|exact (H _ _ eq_refl)]. Qed.

  (* the same program under two [ret]s: the statements answer nothing but errors by themselves, so what
     relates an error to itself and the two answers of [ret] relates the two runs *)
  Lemma run_rel {A R R'} (Rel : res R -> res R' -> Prop) ret ret' (p : prog A) :
    (forall e, Rel (Err e) (Err e)) -> (forall vs a, Rel (ret vs a) (ret' vs a)) ->
    forall vs, Rel (run ret p vs) (run ret' p vs).
  Proof.
    intros Herr Hret.
    induction p as [a|e|k IH|s k IH|o s k IH|b p IHp q IHq|key k IH|r p IH|k IH]; intros vs; cbn [run].
    - apply Hret.
    - apply Herr.
    - apply (run_tok2 Rel ret ret' k k); [apply Herr|intros t vs' _; apply IH].
    - unfold AreaParse.need_float. destruct (pf s); [apply IH|apply Herr].
    - destruct o; [apply IH|apply Herr].
    - destruct b; [apply IHp|apply IHq].
    - rewrite quadkey_to_bounds_acc. cbn [bind]. destruct (forallb _ _); [apply IH|apply Herr].
    - destruct r; [apply Herr|apply Herr|apply IH].
    - destruct (tokenval vs) as [[nvs t] ok]. apply IH.
  Qed.

  Lemma run_bind {A R S} (f : R -> res S) ret (p : prog A) vs :
    bind (run ret p vs) f = run (fun vs a => bind (ret vs a) f) p vs.
  Proof. apply (run_rel (fun s t => bind s f = t)); reflexivity. Qed.

  (* the arms both sides have, word for word.  POINT: under NEARBY, which only the search side has,
     an optional radius follows.  CIRCLE: cmdSearchArgs tests the error of ParseFloat(smeters) and
     meters < 0 in one condition, so F is Opt there and Flt in parseArea *)
  Definition arm_point (nearby : bool) : prog area :=
    Tok (fun slat => Tok (fun slon => Flt slat (fun lat => Flt slon (fun lon =>
    If nearby
      (Peek (fun smeters ok =>
         If (ok && negb (is_empty smeters))
            (Opt (pf smeters) smeters (fun meters =>
               If (f_lt0 meters) (Fail (EInvalidArg smeters)) (Ret (ACircle lat lon meters))))
            (Ret (ACircle lat lon f_neg1))))
      (Ret (APoint lat lon)))))).
  Definition arm_circle (F : bytes -> (Z -> prog area) -> prog area) : prog area :=
    Tok (fun slat => Tok (fun slon => Flt slat (fun lat => Flt slon (fun lon =>
    Tok (fun smeters => F smeters (fun meters =>
    If (f_lt0 meters) (Fail (EInvalidArg smeters)) (Ret (ACircle lat lon meters)))))))).
  Definition arm_object : prog area :=
    Tok (fun obj => If (gj_ok obj) (Ret (AObject obj)) (Fail (EGeoJSON obj))).
  Definition arm_sector : prog area :=
    Tok (fun slat => Tok (fun slon => Tok (fun smeters => Tok (fun sb1 => Tok (fun sb2 =>
    Flt slat (fun lat => Flt slon (fun lon => Flt smeters (fun meters => Flt sb1 (fun b1 => Flt sb2 (fun b2 =>
    If (negb (f_finite b1)) (Fail (EInvalidArg sb1))
    (If (negb (f_finite b2)) (Fail (EInvalidArg sb2))
    (If (f_eq b1 b2) (Fail (EEqualBearings sb1 sb2))
    (If (sec_ok lat lon meters b1 b2) (Ret (ASector lat lon meters b1 b2))
        (Fail (ESector lat lon meters b1 b2))))))))))))))).
  Definition arm_bounds : prog area :=
    Tok (fun sminlat => Tok (fun sminlon => Tok (fun smaxlat => Tok (fun smaxlon =>
    Flt sminlat (fun minlat => Flt sminlon (fun minlon => Flt smaxlat (fun maxlat => Flt smaxlon (fun maxlon =>
    Ret (ABounds minlat minlon maxlat maxlon))))))))).
  Definition arm_hash : prog area := Tok (fun hash => Ret (AHash hash)).
  Definition arm_quadkey : prog area := Tok (fun key => Quad key (fun a => Ret a)).
  Definition arm_get : prog area :=
    Tok (fun key => Tok (fun id => Look (lookup key id) (Ret (AGet key id)))).

  (* the arms only one side has.  TILE: parseArea takes any int64 x, y and uint64 z; parseRectArea
     (TILE and MVT) wants 0 <= x, 0 <= y, 0 <= z <= 23 *)
  Definition arm_tile_test : prog area :=
    Tok (fun sx => Tok (fun sy => Tok (fun sz =>
    Opt (parse_int64 sx) sx (fun x => Opt (parse_int64 sy) sy (fun y => Opt (parse_uint64 sz) sz (fun z =>
    Ret (ATile x y z))))))).
  Definition arm_tile_rect (mvt : bool) : prog (area * (Z * Z * Z)) :=
    Tok (fun sx => Tok (fun sy => Tok (fun sz =>
    Opt (parse_int64 sx) sx (fun x => If (x <? 0) (Fail (EInvalidArg sx))
    (Opt (parse_int64 sy) sy (fun y => If (y <? 0) (Fail (EInvalidArg sy))
    (Opt (parse_int64 sz) sz (fun z => If ((z <? 0) || (23 <? z)) (Fail (EInvalidArg sz))
    (Ret (if mvt then AMvt x y z else ATile x y z, (x, y, z))))))))))).
  Definition arm_roam : prog roamT :=
    Tok (fun key => Tok (fun id => Tok (fun smeters => Flt smeters (fun meters =>
    Peek (fun scan ok =>
      If ok (If (negb (beq (lower scan) "scan")) (Fail (EInvalidArg scan))
               (Tok (fun scan => Ret (mkRoam key id meters scan))))
            (Ret (mkRoam key id meters []))))))).

  Definition ret_pair (vs : list bytes) (a : area) : res (list bytes * area) := Ok (vs, a).
  Definition ret_rect (vs : list bytes) (a : area) : res (list bytes * area * (Z * Z * Z)) :=
    Ok (vs, a, (0, 0, 0)).
  Definition ret_tile (vs : list bytes) (r : area * (Z * Z * Z)) : res (list bytes * area * (Z * Z * Z)) :=
    let '(a, t) := r in Ok (vs, a, t).
  Definition ret_head (clip : bool) (vs : list bytes) (a : area) : res shead :=
    Ok (mkH vs a (0, 0, 0) false clip None None).
  Definition ret_roam (clip : bool) (vs : list bytes) (r : roamT) : res shead :=
    Ok (mkH vs ANil (0, 0, 0) false clip (Some r) None).

  Definition rect_table (mvt : bool) (vs : list bytes) : list (list word * res (list bytes * area * (Z * Z * Z))) :=
    [([WBounds], run ret_rect arm_bounds vs);
     ([WHash], run ret_rect arm_hash vs);
     ([WQuadkey], run ret_rect arm_quadkey vs);
     ([WTile; WMvt], run ret_tile (arm_tile_rect mvt) vs)].

  Lemma rect_table_eq l vs : parse_rect_area l vs = dispatch (rect_table (beq l "mvt") vs) (Err ENotRectangle) l.
  Proof. reflexivity. Qed.

  (* what cmdSearchArgs does with the triple parseRectArea returns *)
  Definition rect_head (clip mvt : bool) (r : list bytes * area * (Z * Z * Z)) : res shead :=
    match r with
    | (vs, obj, tile) =>
        if mvt then Ok (mkH vs obj tile true true None None)
        else Ok (mkH vs obj tile false clip None None)
    end.

  Definition search_table (cmd : scmd) (clip mvt : bool) (l : bytes) (vs : list bytes) : list (list word * res shead) :=
    [([WPoint], run (ret_head clip) (arm_point (is_nearby cmd)) vs);
     ([WCircle], if clip then Err (EInvalidArg (lit "cannot clip with " ++ l))
                 else run (ret_head clip) (arm_circle (fun s => Opt (pf s) s)) vs);
     ([WObject], if clip then Err (EInvalidArg (lit "cannot clip with object"))
                 else run (ret_head clip) arm_object vs);
     ([WSector], if clip then Err (EInvalidArg (lit "cannot clip with " ++ l))
                 else run (ret_head clip) arm_sector vs);
     ([WBounds; WHash; WTile; WMvt; WQuadkey], bind (parse_rect_area l vs) (rect_head clip mvt));
     ([WGet], if clip then Err (EInvalidArg (lit "cannot clip with get")) else run (ret_head clip) arm_get vs);
     ([WRoam], run (ret_roam clip) arm_roam vs)].

  Lemma search_table_eq cmd clip l vs :
    search_switch cmd clip l vs =
      dispatch (search_table cmd clip (beq l "mvt") l vs) (Ok (mkH vs ANil (0, 0, 0) false clip None None)) l.
  Proof. reflexivity. Qed.

  Definition test_table (dc : bool) (typ : bytes) (vs : list bytes) : list (list word * res (list bytes * area)) :=
    [([WPoint], run ret_pair (arm_point false) vs);
     ([WSector], if dc then Err (EClipType typ) else run ret_pair arm_sector vs);
     ([WCircle], if dc then Err (EClipType typ) else run ret_pair (arm_circle Flt) vs);
     ([WObject], if dc then Err (EClipType typ) else run ret_pair arm_object vs);
     ([WBounds], run ret_pair arm_bounds vs);
     ([WHash], run ret_pair arm_hash vs);
     ([WQuadkey], run ret_pair arm_quadkey vs);
     ([WTile], run ret_pair arm_tile_test vs);
     ([WGet], if dc then Err (EClipType typ) else run ret_pair arm_get vs)].

  Lemma test_table_eq dc typ vs :
    is_empty typ = false ->
    parse_area dc (typ :: vs) = dispatch (test_table dc typ vs) (Ok (vs, ANil)) (lower typ).
  Proof. intros Hne. unfold AreaParse.parse_area. rewrite (need_tok_cons _ _ Hne). reflexivity. Qed.

  (* the nine words of parseAreaExpression *)
  Definition area_words := [WPoint; WCircle; WObject; WBounds; WHash; WQuadkey; WTile; WGet; WSector].

  (* what the loop answers at the end of the tokens and at a word that is none of its own *)
  Definition finish (dc : bool) (ae : option (area * bool)) (vs : list bytes) : tres * list bytes :=
    match ae with
    | None => (TErr ENumArgs, vs)
    | Some (ANil, false) => (TErr ENumArgs, vs)
    | Some (ANil, true) => (TOutside, vs)
    | Some (a, _) => (TOk dc a, vs)
    end.

  (* parseAreaExpression at an area word: parseArea, then the loop behind what it left, the object kept
     if it is the first *)
  Definition expr_area (n : nat) (dc : bool) (ae : option (area * bool)) (vs : list bytes) : tres * list bytes :=
    match parse_area dc vs with
    | Ok (pvs, pobj) =>
        test_expr_loop n dc (match ae with None => Some (pobj, false) | Some (a, _) => Some (a, true) end) pvs
    | Err e => (TErr e, vs)
    | Panic => (TPanic, vs)
    | NoFuel => (TNoFuel, vs)
    end.

  (* parseAreaExpression: one iteration on a non-empty token *)
  Definition expr_table (n : nat) (dc : bool) (ae : option (area * bool)) (vs : list bytes)
    : list (list word * (tres * list bytes)) :=
    [([WOpen], (TOutside, vs));
     ([WClose], (TErr (EInvalidArg (lit ")")), vs));
     ([WNot], (TOutside, vs));
     ([WAnd], match ae with None => (TErr (EInvalidArg (lit "and")), vs) | Some _ => (TOutside, vs) end);
     ([WOr], match ae with None => (TErr (EInvalidArg (lit "or")), vs) | Some _ => (TOutside, vs) end);
     (area_words, expr_area n dc ae vs)].

  Lemma expr_table_eq n dc ae tok rest :
    is_empty tok = false ->
    test_expr_loop (S n) dc ae (tok :: rest) =
      dispatch (expr_table n dc ae (tok :: rest)) (finish dc ae (tok :: rest)) (lower tok).
  Proof. intros Hne. cbn [AreaParse.test_expr_loop tokenval negb orb]. rewrite Hne. reflexivity. Qed.

  (* the word is known, or ranges over all: select its row *)
  Ltac row :=
    cbv beta iota delta [row_of memw existsb word_eqb orb rect_table search_table test_table expr_table
                         area_words].

  Lemma is_area_word_key l : is_area_word l = memw area_words (word_of l).
  Proof. apply (key_word area_words). Qed.

  Definition plain (a : area) : bool :=
    match a with ANil | AClip _ _ | AMvt _ _ _ => false | _ => true end.

  (* the rest of the token list is no longer, the object is not nil, and errNotRectangle is answered
     only for a word that is none of BOUNDS / HASH / QUADKEY / TILE *)
  Lemma parse_rect_area_post l vs :
    post (fun e => e = ENotRectangle ->
            beq l "bounds" = false /\ beq l "hash" = false /\ beq l "quadkey" = false /\ beq l "tile" = false)
         (fun r => (length (fst (fst r)) <= length vs)%nat /\ snd (fst r) <> ANil)
         (parse_rect_area l vs).
  Proof.
    rewrite rect_table_eq, dispatch_word, (beq_word l WBounds : beq l "bounds" = _),
      (beq_word l WHash : beq l "hash" = _), (beq_word l WQuadkey : beq l "quadkey" = _),
      (beq_word l WTile : beq l "tile" = _).
    destruct (word_of l) as [[]|]; row; try (intros _; repeat split).
    1-3: apply (run_post _ (fun a => a <> ANil)); [ends|intros vs' a Hl Ha; split; assumption].
    all: apply (run_post _ (fun r => fst r <> ANil));
      [case (beq l "mvt"); ends|intros vs' [a t] Hl Ha; split; assumption].
  Qed.

  Lemma parse_rect_area_notrect l vs :
    parse_rect_area l vs = Err ENotRectangle ->
    beq l "bounds" = false /\ beq l "hash" = false /\ beq l "quadkey" = false /\ beq l "tile" = false.
  Proof.
    intros H. pose proof (parse_rect_area_post l vs) as P. rewrite H in P. exact (P eq_refl).
  Qed.

  (* withinOrIntersectsTypes: the nine words of parseAreaExpression, and MVT *)
  Lemma types_split cmd l : is_nearby cmd = false -> types_has cmd l = is_area_word l || beq l "mvt".
  Proof.
    intros Hnb. replace (types_has cmd l) with (types_has CWithin l) by (destruct cmd; [discriminate|reflexivity..]).
    rewrite (key_word [WBounds; WHash; WTile; WQuadkey; WGet; WObject; WCircle; WPoint; WSector; WMvt] l
             : types_has CWithin l = _), is_area_word_key, (beq_word l WMvt : beq l "mvt" = _).
    destruct (word_of l) as [[]|]; reflexivity.
  Qed.

  (* the rest is no longer, lfs.obj stays nil only for ROAM and for a word of no type list, and only
     MVT sets lfs.mvt *)
  Lemma search_switch_post cmd clip l vs :
    post (fun _ => True)
         (fun h => (length (h_vs h) <= length vs)%nat /\
                   (h_obj h = ANil -> is_area_word l || beq l "mvt" = false) /\ h_mvt h = beq l "mvt")
         (search_switch cmd clip l vs).
  Proof.
    rewrite search_table_eq, dispatch_word, is_area_word_key, (beq_word l WMvt : beq l "mvt" = _).
    (* the rows: an arm that builds an object, perhaps behind a refusal of CLIP; the rectangle words at
       their call of parseRectArea; ROAM and the word of no arm, which leave nil *)
    destruct (word_of l) as [[]|]; row; try case clip;
      lazymatch goal with
      | |- post _ _ (Err _) => exact I
      | |- post _ _ (run (ret_head _) _ _) =>
          apply (run_post _ (fun a => a <> ANil)); [ends|intros vs' a Hl Ha];
          (split; [exact Hl|split; [intros H; destruct (Ha H)|reflexivity]])
      | |- post _ _ (bind _ _) =>
          apply (post_seq _ _ _ _ _ (parse_rect_area_post _ _)); intros [[vs' a] t] [Hl Ha];
          (split; [exact Hl|split; [intros H; destruct (Ha H)|reflexivity]])
      | |- post _ _ (run (ret_roam _) _ _) =>
          apply (run_post _ (fun _ => True)); [ends|intros vs' a Hl _; repeat split; exact Hl]
      | |- post _ _ (Ok _) => repeat split; apply le_n
      end.
  Qed.

  Lemma search_switch_len cmd clip l vs h :
    search_switch cmd clip l vs = Ok h -> (length (h_vs h) <= length vs)%nat.
  Proof. intros H. apply (post_ok _ _ _ _ (search_switch_post cmd clip l vs) H). Qed.

  Lemma clipby_nil n obj t : clipby_loop n [] obj t None = Ok (obj, t).
  Proof. destruct n; reflexivity. Qed.

  (* with fuel for every token the loop neither panics nor runs dry, and the object it hands back is
     the one it was given if no token was left, a clip behind a CLIPBY otherwise *)
  Lemma clipby_loop_post : forall fuel vs obj t e, (length vs < fuel)%nat ->
    post (fun _ => True)
         (fun r => match vs with
                   | [] => fst r = obj
                   | tok :: _ => is_empty tok = false /\ beq (lower tok) "clipby" = true /\
                                 exists a c, fst r = AClip a c
                   end)
         (clipby_loop fuel vs obj t e).
  Proof.
    induction fuel as [|fuel IH]; intros vs obj t e Hf; [lia|].
    destruct vs as [|tok rest]; [destruct e; [exact I|reflexivity]|].
    cbn [AreaParse.clipby_loop]. apply post_tok; [exact I|intros ? ? [= <- <-] Ht]. cbn beta iota.
    destruct (beq (lower tok) "clipby"); [|exact I]. cbn [negb].
    apply post_tok; [exact I|intros t1 vs1 -> _]. cbn beta iota.
    destruct (_ || _); [|exact I].
    pose proof (parse_rect_area_post (lower t1) vs1) as P.
    destruct (parse_rect_area (lower t1) vs1) as [[[vs' c] tl]|er| |]; try contradiction; [|destruct er; exact I].
    destruct P as [Hl _]. cbn [fst length] in Hl, Hf.
    pose proof (IH vs' (AClip obj c) tl None ltac:(lia)) as R.
    destruct (clipby_loop fuel vs' (AClip obj c) tl None); try exact R.
    repeat split; [exact Ht|]. destruct vs'; [|destruct R as (_ & _ & R)]; eauto.
  Qed.

  Lemma clipby_cons_other n tok rest obj t e :
    is_empty tok = false -> beq (lower tok) "clipby" = false ->
    clipby_loop (S n) (tok :: rest) obj t e = Err ENumArgs.
  Proof.
    intros Ht Hc. cbn [AreaParse.clipby_loop]. rewrite (need_tok_cons _ _ Ht). cbn [bind]; cbn beta iota.
    rewrite Hc. reflexivity.
  Qed.

  (* cmdSearchArgs neither panics nor runs dry, and every accepted WITHIN / INTERSECTS area — any
     flags, the BOUNDS shorthand included — leaves a search object *)
  Lemma search_area_post cmd fence clip outb vs :
    post (fun _ => True) (fun r => is_nearby cmd = false -> s_obj r <> ANil) (search_area cmd fence clip outb vs).
  Proof.
    unfold AreaParse.search_area. apply post_tok; [exact I|intros t vs' _ _]. cbn beta iota.
    destruct (if outb && _ then _ else _) as [[vs1 typ] outreset].
    destruct (types_has cmd (lower typ) || _) eqn:Hty; [|exact I]. cbn [negb].
    apply (post_seq _ _ _ _ _ (search_switch_post _ _ _ _)). intros h (_ & Hnil & _).
    apply (post_seq _ _ _ _ _ (clipby_loop_post _ _ _ _ _ (Nat.lt_succ_diag_r _))).
    intros [obj tile] Hcl Hnb Ho. cbn [fst s_obj] in Hcl, Ho.
    rewrite Hnb, andb_false_r, orb_false_r, (types_split _ _ Hnb) in Hty.
    destruct (h_vs h); [rewrite Hcl in Ho; rewrite (Hnil Ho) in Hty; discriminate|].
    destruct Hcl as (_ & _ & a & c & Hcl). rewrite Hcl in Ho. discriminate.
  Qed.

  (* every arm consumes the type word, and an area word leaves one of the plain objects *)
  Lemma parse_area_post dc vs :
    post (fun _ => True)
         (fun r => (length (fst r) < length vs)%nat /\
                   (is_area_word (lower (hd [] vs)) = true -> plain (snd r) = true))
         (parse_area dc vs).
  Proof.
    destruct vs as [|typ vs1]; [exact I|]. destruct (is_empty typ) eqn:Hne; [destruct typ; [exact I|discriminate Hne]|].
    rewrite (test_table_eq _ _ _ Hne), dispatch_word, is_area_word_key. cbn [hd length].
    destruct (word_of (lower typ)) as [[]|]; row; try case dc;
      lazymatch goal with
      | |- post _ _ (Err _) => exact I
      | |- post _ _ (run _ _ _) =>
          apply (run_post _ (fun a => plain a = true));
          [ends|intros vs' a Hl Ha; split; [apply le_n_S, Hl|intros _; exact Ha]]
      | |- post _ _ (Ok _) => split; [apply le_n|discriminate]
      end.
  Qed.

  Lemma parse_area_safe dc vs : safe (parse_area dc vs).
  Proof. exact (post_safe _ _ _ (parse_area_post dc vs)). Qed.

  Lemma parse_area_len dc vs vs' a : parse_area dc vs = Ok (vs', a) -> (length vs' < length vs)%nat.
  Proof. intros H. apply (post_ok _ _ _ _ (parse_area_post dc vs) H). Qed.

  Lemma parse_area_plain dc typ vs rest a :
    is_area_word (lower typ) = true -> parse_area dc (typ :: vs) = Ok (rest, a) -> plain a = true.
  Proof. intros Hw H. apply (post_ok _ _ _ _ (parse_area_post dc (typ :: vs)) H), Hw. Qed.

  Lemma finish_plain dc a vs : plain a = true -> finish dc (Some (a, false)) vs = (TOk dc a, vs).
  Proof. destruct a; try discriminate; reflexivity. Qed.

  Lemma test_loop_end n dc ae : test_expr_loop (S n) dc ae [] = finish dc ae [].
  Proof. reflexivity. Qed.

  Lemma test_loop_word n dc ae typ vs1 :
    is_empty typ = false -> is_area_word (lower typ) = true ->
    test_expr_loop (S n) dc ae (typ :: vs1) = expr_area n dc ae (typ :: vs1).
  Proof.
    intros Hne Hw. rewrite (expr_table_eq _ _ _ _ _ Hne), dispatch_word. rewrite is_area_word_key in Hw.
    destruct (word_of (lower typ)) as [[]|]; try discriminate Hw; reflexivity.
  Qed.

  Definition refused (r : tres) : Prop := match r with TErr _ | TOutside => True | _ => False end.

  Lemma finish_cases dc ae vs :
    (exists a k, ae = Some (a, k) /\ finish dc ae vs = (TOk dc a, vs)) \/ refused (fst (finish dc ae vs)).
  Proof.
    destruct ae as [[a k]|]; [|right; exact I].
    destruct a; try solve [left; eauto]. destruct k; right; exact I.
  Qed.

  (* one iteration, backwards: it answers the object in place and leaves the tokens, or answers an error
     or TOutside, or took an area word and goes on behind the (shorter) rest parseArea left, the first
     object kept *)
  Lemma test_loop_step fuel dc ae vs :
    (exists a k, ae = Some (a, k) /\ test_expr_loop (S fuel) dc ae vs = (TOk dc a, vs))
    \/ refused (fst (test_expr_loop (S fuel) dc ae vs))
    \/ exists w vs0 vs' a,
         vs = w :: vs0 /\ is_empty w = false /\ is_area_word (lower w) = true /\
         parse_area dc vs = Ok (vs', a) /\
         test_expr_loop (S fuel) dc ae vs =
           test_expr_loop fuel dc (match ae with None => Some (a, false) | Some (a0, _) => Some (a0, true) end) vs'.
  Proof.
    destruct vs as [|w vs0]; [apply or_assoc; left; apply finish_cases|].
    destruct (is_empty w) eqn:Hne; [destruct w; [apply or_assoc; left; apply finish_cases|discriminate Hne]|].
    destruct (is_area_word (lower w)) eqn:Hw.
    - right. rewrite (test_loop_word _ _ _ _ _ Hne Hw). unfold expr_area.
      pose proof (parse_area_safe dc (w :: vs0)) as Hs.
      destruct (parse_area dc (w :: vs0)) as [[vs' a]|e| |]; try contradiction; [|left; exact I].
      right. exists w, vs0, vs', a. repeat split; assumption.
    - apply or_assoc; left. rewrite (expr_table_eq _ _ _ _ _ Hne), dispatch_word. rewrite is_area_word_key in Hw.
      destruct (word_of (lower w)) as [[]|]; try discriminate Hw; row;
        first [apply finish_cases|right; try destruct ae; exact I].
  Qed.

  (* What the loop answers, on any fuel: the CLIP flag of an object is the argument, and once the first
     object is in place the loop never replaces it; it does not panic, and runs dry only on less fuel
     than tokens *)
  Lemma test_expr_loop_post : forall fuel dc ae vs r rest,
    test_expr_loop fuel dc ae vs = (r, rest) ->
    match r with
    | TOk dc' a' => dc' = dc /\ forall a k, ae = Some (a, k) -> a' = a
    | TPanic => False
    | TNoFuel => (fuel <= length vs)%nat
    | _ => True
    end.
  Proof.
    induction fuel as [|fuel IH]; intros dc ae vs r rest H; [injection H as <- _; apply Nat.le_0_l|].
    destruct (test_loop_step fuel dc ae vs) as [(a & k & -> & E)|[R|(w & vs0 & vs' & a0 & _ & _ & _ & Hpa & E)]].
    - rewrite E in H. injection H as <- _. split; [reflexivity|]. intros ? ? [= <- _]. reflexivity.
    - rewrite H in R. destruct r; try destruct R; exact I.
    - rewrite E in H. apply IH in H. apply parse_area_len in Hpa.
      destruct r as [dc' a'| | | |]; try exact H; [|lia].
      destruct H as [-> Hk]. split; [reflexivity|]. intros a k ->. exact (Hk _ _ eq_refl).
  Qed.

  Theorem test_tail_safe isect a1nil vs :
    test_tail isect a1nil vs <> TPanic /\ test_tail isect a1nil vs <> TNoFuel.
  Proof.
    unfold AreaParse.test_tail, AreaParse.test_expr.
    destruct (tokenval vs) as [[nvs wtok] ok].
    set (isclip := ok && negb (is_empty wtok) && beq (lower wtok) "clip").
    destruct (isclip && negb isect); [split; discriminate|].
    set (vs2 := if isclip then nvs else vs).
    destruct (test_expr_loop (S (length vs2)) isclip None vs2) as [r rest] eqn:E.
    apply test_expr_loop_post in E.
    destruct r as [dc a| | | |]; [|split; discriminate|destruct E|destruct (Nat.nle_succ_diag_l _ E)|split; discriminate].
    destruct (isclip && a1nil); [|destruct rest]; split; discriminate.
  Qed.

  (* a token that the loop swallowed is an area word *)
  Lemma test_loop_consumes n dc ae tok rest' dc' a' :
    test_expr_loop (S n) dc ae (tok :: rest') = (TOk dc' a', []) ->
    is_empty tok = false /\ is_area_word (lower tok) = true.
  Proof.
    intros H.
    destruct (test_loop_step n dc ae (tok :: rest'))
      as [(a & k & _ & E)|[E|(w & vs0 & vs' & a0 & [= <- <-] & Hne & Hw & _)]];
      [rewrite E in H; discriminate H|rewrite H in E; destruct E|auto].
  Qed.

  Lemma test_tail_unfold isect a1nil typ vs1 :
    is_empty typ = false -> beq (lower typ) "clip" = false ->
    test_tail isect a1nil (typ :: vs1) =
      match test_expr_loop (S (S (length vs1))) false None (typ :: vs1) with
      | (TOk dc a, rest) => match rest with [] => TOk dc a | _ => TErr ENumArgs end
      | (r, _) => r
      end.
  Proof.
    intros Hne Hc. unfold AreaParse.test_tail. cbn [tokenval]. rewrite Hne, Hc. cbn [negb andb].
    cbn beta iota. reflexivity.
  Qed.

  Definition lift (clip : bool) (r : res (list bytes * area)) : res shead :=
    match r with
    | Ok (vs, a) => Ok (mkH vs a (0, 0, 0) false clip None None)
    | Err e => Err e
    | Panic => Panic
    | NoFuel => NoFuel
    end.

  (* words on which the two parsers run the same statements (CIRCLE up to circle_same) *)
  Definition shared_any (l : bytes) : bool :=
    beq l "point" || beq l "bounds" || beq l "hash" || beq l "quadkey".
  Definition shared_noclip (l : bytes) : bool :=
    beq l "circle" || beq l "object" || beq l "sector" || beq l "get".

  Lemma shared_any_key l : shared_any l = memw [WPoint; WBounds; WHash; WQuadkey] (word_of l).
  Proof. apply (key_word [WPoint; WBounds; WHash; WQuadkey]). Qed.

  Lemma shared_noclip_key l : shared_noclip l = memw [WCircle; WObject; WSector; WGet] (word_of l).
  Proof. apply (key_word [WCircle; WObject; WSector; WGet]). Qed.

  Lemma run_flt_ext {A R} (ret : list bytes -> A -> res R) s k k' vs :
    (forall b, run ret (k b) vs = run ret (k' b) vs) -> run ret (Flt s k) vs = run ret (Flt s k') vs.
  Proof. intros H. cbn [run]. destruct (need_float s); [apply H|reflexivity..]. Qed.

  (* CIRCLE: the two ways of reading the radius *)
  Lemma circle_same {R} (ret : list bytes -> area -> res R) vs :
    run ret (arm_circle (fun s => Opt (pf s) s)) vs = run ret (arm_circle Flt) vs.
  Proof.
    unfold arm_circle. apply (run_tok2 eq); [reflexivity|intros slat vs1 _].
    apply (run_tok2 eq); [reflexivity|intros slon vs2 _].
    apply run_flt_ext; intros lat. apply run_flt_ext; intros lon.
    apply (run_tok2 eq); [reflexivity|intros smeters vs3 _].
    cbn [run]. unfold AreaParse.need_float. destruct (pf smeters); reflexivity.
  Qed.

  (* what the switch makes of an arm both sides have *)
  Lemma head_is_lift clip (p : prog area) vs : run (ret_head clip) p vs = lift clip (run ret_pair p vs).
  Proof. apply (run_rel (fun s t => s = lift clip t)); reflexivity. Qed.

  Lemma switch_shared cmd clip typ vs :
    is_nearby cmd = false -> is_empty typ = false ->
    (shared_any (lower typ) = true \/ (clip = false /\ shared_noclip (lower typ) = true)) ->
    search_switch cmd clip (lower typ) vs = lift clip (parse_area clip (typ :: vs)).
  Proof.
    intros Hnb Hne.
    rewrite search_table_eq, (test_table_eq _ _ _ Hne), !dispatch_word, shared_any_key, shared_noclip_key,
      (beq_word _ WMvt : beq _ "mvt" = _).
    destruct (word_of (lower typ)) as [[]|] eqn:Hw; row;
      try (intros [H|[_ H]]; discriminate H);          (* a word that is not shared *)
      try (intros [H|[-> _]]; [discriminate H|]);      (* no CLIP: neither side refuses *)
      (* BOUNDS, HASH, QUADKEY: behind parseRectArea, the head built where the arm ends *)
      try (intros _; rewrite rect_table_eq, dispatch_word, Hw; row; rewrite run_bind; apply head_is_lift).
    - intros _. rewrite Hnb. apply head_is_lift.
    - rewrite circle_same. apply head_is_lift.
    - apply head_is_lift.
    - apply head_is_lift.
    - apply head_is_lift.
  Qed.

  (* with CLIP both refuse CIRCLE / OBJECT / SECTOR / GET — in different words *)
  Lemma switch_clip_refused cmd typ vs :
    is_empty typ = false -> shared_noclip (lower typ) = true ->
    (exists m, search_switch cmd true (lower typ) vs = Err (EInvalidArg (lit "cannot clip with " ++ m)))
    /\ parse_area true (typ :: vs) = Err (EClipType typ).
  Proof.
    intros Hne. rewrite search_table_eq, (test_table_eq _ _ _ Hne), !dispatch_word, shared_noclip_key.
    destruct (word_of (lower typ)) as [[]|]; row; intros [=].
    - split; [eexists|]; reflexivity.
    - split; [exists (lit "object")|]; reflexivity.
    - split; [eexists|]; reflexivity.
    - split; [exists (lit "get")|]; reflexivity.
  Qed.

  (* strconv: the same digits read by Atoi / ParseInt and by ParseUint *)

  Definition unsigned_tok (s : bytes) : bool :=
    match s with c :: _ => negb ((c =? 43) || (c =? 45))%N | [] => true end.

  Lemma digits_val_nonneg : forall s acc v, 0 <= acc -> digits_val acc s = Some v -> 0 <= v.
  Proof.
    induction s as [|c r IH]; intros acc v Ha H; cbn in H; [inversion H; subst; exact Ha|].
    destruct (isdigit c); [|discriminate]. eapply IH; [|exact H]. lia.
  Qed.

  Lemma pu_nonneg s z : parse_uint64 s = Some z -> 0 <= z.
  Proof.
    unfold parse_uint64. destruct s as [|c r]; [discriminate|].
    destruct (digits_val 0 (c :: r)) as [v|] eqn:Ed; [|discriminate].
    destruct (v <? 2 ^ 64); [|discriminate]. intros [= <-]. exact (digits_val_nonneg _ _ _ (Z.le_refl 0) Ed).
  Qed.

  (* an unsigned token: ParseInt hands the whole of it to ParseUint *)
  Lemma pi_unsigned s : unsigned_tok s = true ->
    parse_int64 s = match parse_uint64 s with
                    | Some un => if un <? 2 ^ 63 then Some un else None
                    | None => None
                    end.
  Proof.
    destruct s as [|c r]; [reflexivity|]. cbn [unsigned_tok]. intros Hu. apply negb_true_iff in Hu.
    unfold parse_int64. rewrite Hu. apply orb_false_iff in Hu. destruct Hu as [_ ->]. reflexivity.
  Qed.

  Lemma pu_first_digit s z : parse_uint64 s = Some z -> unsigned_tok s = true.
  Proof.
    unfold parse_uint64, unsigned_tok. destruct s as [|c r]; [discriminate|].
    cbn [digits_val]. destruct (isdigit c) eqn:Ed; [|discriminate]. intros _.
    unfold isdigit in Ed. apply andb_true_iff in Ed. destruct Ed as [H1 H2].
    apply N.leb_le in H1. apply negb_true_iff. apply orb_false_iff.
    split; apply N.eqb_neq; lia.
  Qed.

  Lemma pi_pu s z : parse_int64 s = Some z -> unsigned_tok s = true -> parse_uint64 s = Some z.
  Proof.
    intros H Hu. rewrite (pi_unsigned _ Hu) in H.
    destruct (parse_uint64 s) as [un|]; [|discriminate]. destruct (un <? 2 ^ 63); [exact H|discriminate].
  Qed.

  Lemma pu_pi s z : parse_uint64 s = Some z ->
    parse_int64 s = if z <? 2 ^ 63 then Some z else None.
  Proof. intros H. rewrite (pi_unsigned _ (pu_first_digit _ _ H)), H. reflexivity. Qed.

  (* the third number of a TILE has no sign *)
  Definition tile_z_unsigned (vs : list bytes) : bool :=
    match vs with
    | typ :: _ :: _ :: sz :: _ => if beq (lower typ) "tile" then unsigned_tok sz else true
    | _ => true
    end.

  (* What the two sides answer for one area word, no CLIP.  Under U a success of the search side is
     one of the TEST side, with the same object and the same rest; a success of the TEST side is one
     of the search side, but for the TILE numbers only the search side checks. *)
  Definition agree (U : Prop) (s : res shead) (t : res (list bytes * area)) : Prop :=
    (U -> forall h, s = Ok h -> exists rest a tl, h = mkH rest a tl false false None None /\ t = Ok (rest, a)) /\
    (forall rest a, t = Ok (rest, a) ->
       (exists tl, s = Ok (mkH rest a tl false false None None)) \/
       exists x y z e, a = ATile x y z /\ (x < 0 \/ y < 0 \/ 23 < z) /\ s = Err (EInvalidArg e)).

  Lemma agree_lift U t : agree U (lift false t) t.
  Proof.
    split.
    - intros _ h H. destruct t as [[rest a]| | |]; try discriminate H. injection H as <-. eauto.
    - intros rest a ->. left. exists (0, 0, 0). reflexivity.
  Qed.

  Lemma agree_tile cmd typ vs :
    is_empty typ = false -> beq (lower typ) "tile" = true ->
    agree (tile_z_unsigned (typ :: vs) = true) (search_switch cmd false (lower typ) vs) (parse_area false (typ :: vs)).
  Proof.
    intros Hne Hk. unfold tile_z_unsigned. rewrite Hk. pose proof (beq_word_of _ WTile Hk) as Hw.
    rewrite search_table_eq, (test_table_eq _ _ _ Hne), !dispatch_word, (beq_word _ WMvt : beq _ "mvt" = _), Hw. row.
    rewrite rect_table_eq, dispatch_word, (beq_word _ WMvt : beq _ "mvt" = _), Hw. row.
    (* the head is built where the arm ends; then the three tokens on both sides at once *)
    rewrite run_bind. unfold arm_tile_rect, arm_tile_test.
    apply run_tok2; [split; discriminate|intros sx vs1 ->].
    apply run_tok2; [split; discriminate|intros sy vs2 ->].
    apply run_tok2; [split; discriminate|intros sz vs3 ->].
    cbn [run ret_tile ret_pair bind rect_head]. split.
    - intros Hu h.
      destruct (parse_int64 sx) as [x|]; [|discriminate]. destruct (x <? 0); [discriminate|].
      destruct (parse_int64 sy) as [y|]; [|discriminate]. destruct (y <? 0); [discriminate|].
      destruct (parse_int64 sz) as [z|] eqn:Ez; [|discriminate]. destruct (_ || _); [discriminate|].
      rewrite (pi_pu _ _ Ez Hu). intros [= <-]. eauto.
    - intros rest a.
      destruct (parse_int64 sx) as [x|]; [|discriminate]. destruct (parse_int64 sy) as [y|]; [|discriminate].
      destruct (parse_uint64 sz) as [z|] eqn:Ez; [|discriminate]. intros [= <- <-].
      rewrite (pu_pi _ _ Ez). pose proof (pu_nonneg _ _ Ez) as Hz0. clear - Hz0.
      destruct (Z.ltb_spec x 0); [right; exists x, y, z, sx; auto|].
      destruct (Z.ltb_spec y 0); [right; exists x, y, z, sy; auto|].
      destruct (Z.ltb_spec z (2 ^ 63)); [|right; exists x, y, z, sz; repeat split; lia].
      destruct (Z.ltb_spec z 0); [lia|].
      destruct (Z.ltb_spec 23 z); [right; exists x, y, z, sz; auto 6|]. left. exists (x, y, z). reflexivity.
  Qed.

  Lemma area_word_split l : is_area_word l = shared_any l || shared_noclip l || beq l "tile".
  Proof.
    rewrite is_area_word_key, shared_any_key, shared_noclip_key, (beq_word l WTile : beq l "tile" = _).
    destruct (word_of l) as [[]|]; reflexivity.
  Qed.

  Lemma area_word_not_clip l : is_area_word l = true -> beq l "clip" = false /\ beq l "clipby" = false.
  Proof.
    rewrite is_area_word_key, (beq_word l WClip : beq l "clip" = _), (beq_word l WClipby : beq l "clipby" = _).
    destruct (word_of l) as [[]|]; row; intros [=]; split; reflexivity.
  Qed.

  Lemma agree_area cmd typ vs :
    is_nearby cmd = false -> is_empty typ = false -> is_area_word (lower typ) = true ->
    agree (tile_z_unsigned (typ :: vs) = true) (search_switch cmd false (lower typ) vs) (parse_area false (typ :: vs)).
  Proof.
    intros Hnb Hne Hw. rewrite area_word_split, !orb_true_iff in Hw.
    destruct Hw as [[Hk|Hk]|Hk]; [| |exact (agree_tile _ _ _ Hne Hk)]; rewrite switch_shared by auto; apply agree_lift.
  Qed.

  (* what the search side answers, read on the TEST side *)
  Definition obj_answer (o : area) : tres :=
    match o with
    | ANil | AClip _ _ => TErr ENumArgs      (* a CLIPBY followed: TEST does not know it *)
    | a => TOk false a
    end.
  Definition expected_test (r : sres) : tres :=
    if s_mvt r then TErr ENumArgs else obj_answer (s_obj r).

  (* the switch and parseArea left the same object and the same rest; then the CLIPBY loop against
     the second iteration of the expression loop *)
  Lemma after_head isect typ vs1 rest a tile obj tile' :
    is_empty typ = false -> is_area_word (lower typ) = true ->
    parse_area false (typ :: vs1) = Ok (rest, a) ->
    clipby_loop (S (length rest)) rest a tile None = Ok (obj, tile') ->
    test_tail isect false (typ :: vs1) = obj_answer obj.
  Proof.
    intros Hne Hw Hpa Hcl.
    pose proof (parse_area_plain _ _ _ _ _ Hw Hpa) as Hp.
    destruct (area_word_not_clip _ Hw) as [Kc _].
    rewrite (test_tail_unfold _ _ _ _ Hne Kc), (test_loop_word _ _ _ _ _ Hne Hw). unfold expr_area. rewrite Hpa.
    apply (post_ok _ _ _ _ (clipby_loop_post _ _ _ _ _ (Nat.lt_succ_diag_r _))) in Hcl. cbn [fst] in Hcl.
    destruct rest as [|tok rest'].
    - subst obj. rewrite test_loop_end, (finish_plain _ _ _ Hp). destruct a; try discriminate; reflexivity.
    - destruct Hcl as (Ht & Hc & a' & c' & ->).
      rewrite (expr_table_eq _ _ _ _ _ Ht), dispatch_word, (beq_word_of _ WClipby Hc). row.
      rewrite (finish_plain _ _ _ Hp). reflexivity.
  Qed.

  (* WITHIN / INTERSECTS, BOUNDS not read as the output format: the type list, the switch, the loop *)
  Lemma search_area_cons cmd fence clip typ vs1 :
    is_nearby cmd = false -> is_empty typ = false ->
    search_area cmd fence clip false (typ :: vs1) =
      if is_area_word (lower typ) || beq (lower typ) "mvt" then
        do h <- search_switch cmd clip (lower typ) vs1;
        do r <- clipby_loop (S (length (h_vs h))) (h_vs h) (h_obj h) (h_tile h) (h_err h);
        match r with (obj, tile) => Ok (mkS obj false tile (h_mvt h) (h_clip h) (h_roam h)) end
      else Err (EInvalidArg typ).
  Proof.
    intros Hnb Hne. unfold AreaParse.search_area. rewrite (need_tok_cons _ _ Hne).
    cbn [bind andb]. cbn beta iota. rewrite (types_split _ _ Hnb), Hnb, andb_false_r, orb_false_r.
    destruct (_ || _); reflexivity.
  Qed.

  Theorem search_ok_test_same cmd fence isect vs r :
    is_nearby cmd = false ->
    search_area cmd fence false false vs = Ok r ->
    tile_z_unsigned vs = true ->
    test_tail isect false vs = expected_test r.
  Proof.
    intros Hnb Hs Hu. destruct vs as [|typ vs1]; [discriminate|].
    destruct (is_empty typ) eqn:Hne; [destruct typ; discriminate|].
    rewrite (search_area_cons _ _ _ _ _ Hnb Hne) in Hs.
    destruct (is_area_word (lower typ) || _) eqn:Hty; [|discriminate].
    destruct (search_switch cmd false (lower typ) vs1) as [h| | |] eqn:Hsw; try discriminate. cbn [bind] in Hs.
    destruct (clipby_loop _ _ _ _ _) as [[obj tile]| | |] eqn:Hcl; try discriminate. injection Hs as <-.
    unfold expected_test. cbn [s_mvt s_obj]. apply orb_true_iff in Hty. destruct Hty as [Hw|Hm].
    - destruct (proj1 (agree_area _ _ _ Hnb Hne Hw) Hu _ Hsw) as (rest & a & tl & -> & Hpa).
      exact (after_head _ _ _ _ _ _ _ _ Hne Hw Hpa Hcl).
    - (* MVT: lfs.mvt is set, and TEST does not know the word *)
      destruct (post_ok _ _ _ _ (search_switch_post _ _ _ _) Hsw) as (_ & _ & ->). rewrite Hm.
      pose proof (beq_word_of _ WMvt Hm) as Hwd.
      rewrite test_tail_unfold; [|exact Hne|rewrite (beq_word _ WClip : _ = _), Hwd; reflexivity].
      rewrite (expr_table_eq _ _ _ _ _ Hne), dispatch_word, Hwd. reflexivity.
  Qed.

  Theorem test_ok_search_same cmd fence isect vs a :
    is_nearby cmd = false ->
    test_tail isect false vs = TOk false a ->
    (exists r, search_area cmd fence false false vs = Ok r /\ s_obj r = a /\ s_mvt r = false /\
               s_clip r = false /\ s_outreset r = false /\ s_roam r = None)
    \/ (search_area cmd fence false false vs = Err ENumArgs /\
        exists rest, parse_area false vs = Ok (rest, a) /\ rest <> [])
    \/ (exists x y z t, a = ATile x y z /\ (x < 0 \/ y < 0 \/ 23 < z) /\
        search_area cmd fence false false vs = Err (EInvalidArg t)).
  Proof.
    intros Hnb Ht. destruct vs as [|typ vs1]; [discriminate|].
    destruct (is_empty typ) eqn:Hne; [destruct typ; discriminate|].
    destruct (beq (lower typ) "clip") eqn:Hc.
    { (* after CLIP the answer carries doclip = true, or is an error *)
      unfold AreaParse.test_tail in Ht. cbn [tokenval] in Ht. rewrite Hne, Hc in Ht.
      cbn [negb andb] in Ht. destruct isect; cbn [negb] in Ht; [|discriminate].
      cbn beta iota in Ht.
      destruct (test_expr true vs1) as [[dc a0| | | |] rest] eqn:Hte; try discriminate.
      apply test_expr_loop_post in Hte. destruct Hte as [-> _]. destruct rest; discriminate. }
    rewrite (test_tail_unfold _ _ _ _ Hne Hc) in Ht.
    destruct (test_expr_loop _ false None (typ :: vs1)) as [[dc a0| | | |] [|]] eqn:Hte; try discriminate.
    injection Ht as -> ->.
    destruct (test_loop_consumes _ _ _ _ _ _ _ Hte) as [_ Hw].
    rewrite (test_loop_word _ _ _ _ _ Hne Hw) in Hte. unfold expr_area in Hte.
    destruct (parse_area false (typ :: vs1)) as [[rest1 a1]|e| |] eqn:Hpa; try discriminate.
    destruct (test_expr_loop_post _ _ _ _ _ _ Hte) as [_ Ha]. rewrite (Ha _ _ eq_refl).
    rewrite (search_area_cons _ fence false _ vs1 Hnb Hne), Hw.
    destruct (proj2 (agree_area cmd _ vs1 Hnb Hne Hw) _ _ Hpa) as [[tl ->]|(x & y & z & t & -> & Hr & ->)];
      [|right; right; exists x, y, z, t; auto].
    cbn [orb bind h_vs h_obj h_tile h_err h_mvt h_clip h_roam]. destruct rest1 as [|tok rest'].
    - left. rewrite clipby_nil. eexists. repeat split.
    - (* a further area follows: TEST parsed and dropped it, search wants CLIPBY there *)
      right; left. destruct (test_loop_consumes _ _ _ _ _ _ _ Hte) as [Htk Hwk].
      destruct (area_word_not_clip _ Hwk) as [_ Kcb].
      rewrite (clipby_cons_other _ _ _ _ _ _ Htk Kcb). split; [reflexivity|].
      exists (tok :: rest'). split; [reflexivity|discriminate].
  Qed.

  Theorem shared_error_same cmd fence isect typ vs1 e :
    is_nearby cmd = false -> is_empty typ = false ->
    shared_any (lower typ) = true \/ shared_noclip (lower typ) = true ->
    search_area cmd fence false false (typ :: vs1) = Err e ->
    test_tail isect false (typ :: vs1) = TErr e
    \/ exists rest a, parse_area false (typ :: vs1) = Ok (rest, a) /\ rest <> [].
  Proof.
    intros Hnb Hne Hk Hs.
    assert (Hw : is_area_word (lower typ) = true) by (rewrite area_word_split; destruct Hk as [-> | ->]; rewrite ?orb_true_r; reflexivity).
    rewrite (search_area_cons _ fence false _ vs1 Hnb Hne), Hw in Hs. cbn [orb] in Hs.
    rewrite switch_shared in Hs; [|exact Hnb|exact Hne|destruct Hk; auto].
    destruct (parse_area false (typ :: vs1)) as [[rest a]|e0| |] eqn:Hpa; cbn [lift bind] in Hs; try discriminate.
    - right. exists rest, a. split; [reflexivity|]. intros ->.
      cbn [h_vs h_obj h_tile h_err length] in Hs. rewrite clipby_nil in Hs. discriminate.
    - left. inversion Hs; subst e0.
      destruct (area_word_not_clip _ Hw) as [Kc _].
      rewrite (test_tail_unfold _ _ _ _ Hne Kc), (test_loop_word _ _ _ _ _ Hne Hw). unfold expr_area.
      rewrite Hpa. reflexivity.
  Qed.

  Theorem bounds_shorthand cmd fence clip t vs b :
    is_nearby cmd = false -> is_empty t = false -> pf t = Some b ->
    search_area cmd fence clip true (t :: vs) =
      match search_area cmd fence clip false (lit "BOUNDS" :: t :: vs) with
      | Ok r => Ok (mkS (s_obj r) true (s_tile r) (s_mvt r) (s_clip r) (s_roam r))
      | x => x
      end.
  Proof.
    intros Hnb Hne Hpf. unfold AreaParse.search_area.
    rewrite (need_tok_cons _ _ Hne). rewrite (need_tok_cons (lit "BOUNDS")) by reflexivity.
    cbn [bind andb]. cbn beta iota. rewrite Hnb. cbn [negb]. rewrite Hpf. cbn beta iota.
    destruct (negb _); [reflexivity|].
    destruct (search_switch cmd clip (lower (lit "BOUNDS")) (t :: vs)) as [h| | |]; cbn [bind]; try reflexivity.
    destruct (clipby_loop _ _ _ _ _) as [[obj tile]| | |]; reflexivity.
  Qed.
End P.

Definition lower0 (s : bytes) : bytes :=
  map (fun c => if ((65 <=? c) && (c <=? 90))%N then (c + 32)%N else c) s.
(* strconv.ParseFloat on the tokens the witnesses use *)
Definition pf0 (s : bytes) : option Z :=
  if beq s "0" then Some 0
  else if beq s "1" then Some 4607182418800017408
  else if beq s "5" then Some 4617315517961601024
  else if beq s "-1" then Some 13830554455654793216
  else if beq s "+1" then Some 4607182418800017408
  else if beq s "24" then Some 4627448617123184640
  else None.
Definition gj0 (_ : bytes) : bool := true.
Definition sec0 (_ _ _ _ _ : Z) : bool := true.
Definition lookup0 (_ _ : bytes) : lookupT := LFound.

Definition search0 := search_area lower0 pf0 gj0 sec0 lookup0.
Definition search0_pinned := search_area_pinned lower0 pf0 gj0 sec0 lookup0.
Definition test0 := test_tail lower0 pf0 gj0 sec0 lookup0.

Definition toks (l : list string) : list bytes := map lit l.
