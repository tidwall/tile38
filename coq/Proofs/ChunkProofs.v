(* The 0xFFFF-chunked loop of loadAOF equals one-shot parsing, for every way the reads cut the file.
   loadAOF's inner loop is the loop of ReadMessages (Pipeline.rm_loop) run with the parser that takes a NUL
   for a command without arguments, so what PipelineProofs.v proves of rm_loop and conn_run holds of drain
   and load_chunks. *)
From Coq Require Import ZifyN ZifyNat ZifyBool.
From T38 Require Import Base.Bytes Model.Resp Model.Aof Model.Pipeline Proofs.RespProofs Proofs.AofProofs
  Proofs.PipelineProofs.
Local Open Scope Z_scope.

(* the outer loop is conn_run; total is the number of bytes read *)
Definition loaded (total : Z) (r : conn_res) : load_res :=
  match r with
  | Open ms b => Loaded (map m_args ms) (total - len b)
  | Closed _ (EParse x) => LoadErr x
  | Closed _ _ | Crashed => LoadPanic
  | NoFuel => LoadFuel
  end.

Lemma load_chunks_conn : forall chunks buf sz acc,
  load_chunks chunks buf sz (map m_args acc) = loaded (sz + len (concat chunks)) (conn_run aof_parse chunks buf acc).
Proof.
  induction chunks as [|c rest IH]; intros buf sz acc; cbn [load_chunks conn_run concat].
  - rewrite len_nil, Z.add_0_r. reflexivity.
  - rewrite drain_all_rm. change (rm_step aof_parse buf c) with (rm_all aof_parse (buf ++ c)).
    destruct (rm_all aof_parse (buf ++ c)) as [ms b [[]|]| |]; try reflexivity.
    cbn [of_rm]. rewrite <- map_app, IH, len_app. f_equal. lia.
Qed.

Theorem load_chunks_eq_whole chunks :
  (forall k, drain_all (firstn k (concat chunks)) <> DPanic) ->
  load_chunks chunks [] 0 [] = load_whole (concat chunks).
Proof.
  (* one-shot parsing is the loop given the file in one read *)
  intros H. change (load_whole (concat chunks)) with (load_chunks [concat chunks] [] 0 []).
  rewrite !(load_chunks_conn _ [] 0 []). cbn [concat]. rewrite app_nil_r. f_equal.
  apply (conn_run_chunking aof_parse (len (concat chunks) + 1) (fun d e _ => aof_parse_stable d e) aof_parse_good); [lia|].
  intros k E. apply (H k). rewrite drain_all_rm, E. reflexivity.
Qed.

Lemma split_chunks_concat csz : (0 < csz)%nat -> forall fuel file, (length file <= fuel)%nat ->
  concat (split_chunks fuel csz file) = file.
Proof.
  intros Hc. induction fuel as [|f IH]; intros file Hf.
  - destruct file; [reflexivity|cbn [length] in Hf; lia].
  - cbn [split_chunks]. destruct file as [|x file]; [reflexivity|].
    cbn [concat]. rewrite IH.
    + apply firstn_skipn.
    + rewrite skipn_length. cbn [length] in *. lia.
Qed.

Lemma load_aof_one_read file : (length file <= chunk_size)%nat -> load_aof file = load_chunks [file] [] 0 [].
Proof.
  intros Hl. unfold load_aof, load_aof_sz. destruct file as [|x file]; [reflexivity|].
  cbn [length split_chunks]. rewrite firstn_all2, skipn_all2 by exact Hl. destruct (length file); reflexivity.
Qed.

Theorem load_aof_sz_eq_whole csz file : (0 < csz)%nat ->
  (forall k, drain_all (firstn k file) <> DPanic) ->
  load_aof_sz csz file = load_whole file.
Proof.
  intros Hc Hnp. unfold load_aof_sz.
  pose proof (split_chunks_concat csz Hc (length file) file (le_n _)) as E.
  rewrite (load_chunks_eq_whole (split_chunks (length file) csz file)); rewrite E; [reflexivity|exact Hnp].
Qed.

Lemma chunk_size_pos : (0 < chunk_size)%nat.
Proof. unfold chunk_size. lia. Qed.

Lemma load_aof_eq_whole file : (forall k, drain_all (firstn k file) <> DPanic) -> load_aof file = load_whole file.
Proof. apply load_aof_sz_eq_whole, chunk_size_pos. Qed.

Lemma padded_cut : forall l ztail q s, Forall (fun zc => cmd_ok (snd zc)) l -> q ++ s = padded l ++ repeat 0%N ztail ->
  exists n z' lo, q = padded (firstn n l) ++ repeat 0%N z' ++ lo /\ torn lo.
Proof.
  assert (Z : forall l q s n, q ++ s = repeat 0%N n -> exists n z' lo, q = padded (firstn n l) ++ repeat 0%N z' ++ lo /\ torn lo).
  { intros l q s n E. exists O, (length q), []. rewrite app_nil_r.
    split; [exact (eq_sym (proj1 (repeat_eq_app _ _ _ _ (eq_sym E))))|exact torn_nil]. }
  induction l as [|[z c] l IH]; intros ztail q s Hok E; [exact (Z _ q s ztail E)|].
  inversion Hok as [|? ? Hc Hok']; subst. cbn [padded] in E. rewrite <- !app_assoc in E.
  destruct (prefix_cases _ _ _ _ _ E) as [[l1 [-> E1]]|[l' [_ E1]]]; [|exact (Z _ q l' z E1)].
  destruct (prefix_cases _ _ _ _ _ E1) as [[l2 [-> E2]]|[l' [Hl' E2]]].
  - destruct (IH ztail l2 s Hok' E2) as (n & z' & lo & Q & Ht). exists (S n), z', lo. split; [|exact Ht].
    cbn [firstn padded]. rewrite Q at 1. rewrite <- !app_assoc. reflexivity.
  - exists O, z, l1. split; [reflexivity|exact (torn_cmd c l1 l' Hc E2 Hl')].
Qed.

Theorem load_whole_cut_padded l ztail q s :
  Forall (fun zc => cmd_ok (snd zc)) l -> q ++ s = padded l ++ repeat 0%N ztail ->
  exists n z' lo,
    q = padded (firstn n l) ++ repeat 0%N z' ++ lo /\
    load_whole q = Loaded (map snd (firstn n l)) (len (padded (firstn n l)) + Z.of_nat z').
Proof.
  intros Hok E. destruct (padded_cut l ztail q s Hok E) as (n & z' & lo & Q & Ht). exists n, z', lo. split; [exact Q|].
  rewrite Q, app_assoc, (load_whole_framed _ _ lo (whole_padded _ z' (Forall_firstn _ _ n l Hok)) Ht).
  rewrite len_app, (len_spec (repeat 0%N z')), repeat_length. reflexivity.
Qed.

(* a prefix of a prefix of a log is a prefix of the log, and those load: no read of the chunked loader panics *)
Lemma load_aof_padded l ztail q s : Forall (fun zc => cmd_ok (snd zc)) l ->
  q ++ s = padded l ++ repeat 0%N ztail -> load_aof q = load_whole q.
Proof.
  intros Hok E. apply load_aof_eq_whole. intros k D.
  assert (Ek : firstn k q ++ (skipn k q ++ s) = padded l ++ repeat 0%N ztail) by (rewrite app_assoc, firstn_skipn; exact E).
  destruct (load_whole_cut_padded l ztail (firstn k q) (skipn k q ++ s) Hok Ek) as (n & z' & lo & _ & L).
  unfold load_whole in L. rewrite D in L. discriminate L.
Qed.

Lemma padded_plain cmds : padded (map (fun c => (O, c)) cmds) = encs cmds.
Proof. induction cmds as [|c cs IH]; [reflexivity|]. cbn [map padded repeat app]. rewrite IH. reflexivity. Qed.

Lemma load_aof_encs cmds q s : Forall cmd_ok cmds -> q ++ s = encs cmds -> load_aof q = load_whole q.
Proof.
  intros Hok E. apply (load_aof_padded (map (fun c => (O, c)) cmds) O q s).
  - apply Forall_map. exact Hok.
  - rewrite padded_plain. cbn [repeat]. rewrite app_nil_r. exact E.
Qed.

Theorem load_aof_cut cmds q s :
  Forall cmd_ok cmds -> q ++ s = encs cmds ->
  load_aof q = Loaded (firstn (inside cmds (len q)) cmds) (len (encs (firstn (inside cmds (len q)) cmds))).
Proof. intros Hok E. rewrite (load_aof_encs cmds q s Hok E). exact (load_whole_cut cmds q s Hok E). Qed.

Lemma load_aof_full cmds : Forall cmd_ok cmds -> load_aof (encs cmds) = Loaded cmds (len (encs cmds)).
Proof. intros Hok. rewrite (load_aof_encs cmds _ [] Hok (app_nil_r _)). exact (load_whole_full cmds Hok). Qed.

(* A torn command FOLLOWED by zero padding (what a crash during an append leaves on a file system
   that zero-extends) is not recovered: once enough NULs stand where the rest of the bulk and its
   CRLF should be, the parser reports "invalid bulk length" and loadAOF returns the error.
   Witness: SET k "hello world" torn after "h", then 64 NULs. *)
Lemma torn_then_padded_fails :
  let c1 := [[83; 69; 84]; [107]; [118]]%N in
  let c2 := [[83; 69; 84]; [107]; [104; 101; 108; 108; 111; 32; 119; 111; 114; 108; 100]]%N in
  let q := firstn 53 (encs [c1; c2]) in
  cmd_ok c1 /\ cmd_ok c2 /\ (length q < length (encs [c1; c2]))%nat /\
  load_whole q = Loaded [c1] 27 /\
  load_aof (q ++ repeat 0%N 64) = LoadErr EBulk /\
  load_aof (q ++ repeat 0%N 5) = Loaded [c1] 27.
Proof.
  intros c1 c2 q.
  assert (Hok : cmd_ok c1 /\ cmd_ok c2) by (vm_compute; repeat split; congruence).
  assert (Eq : q = enc c1 ++ firstn 26 (enc c2)) by (vm_compute; reflexivity).
  split; [tauto|]. split; [tauto|]. split; [vm_compute; lia|]. split.
  { rewrite (load_whole_cut [c1; c2] q (skipn 53 (encs [c1; c2]))); [vm_compute; reflexivity| |apply firstn_skipn].
    destruct Hok. auto using Forall_cons, Forall_nil. }
  (* the first command is read back by whole_enc; only the torn piece and the NULs are evaluated *)
  assert (L : forall z, (z <= 64)%nat -> load_aof (q ++ repeat 0%N z) =
    match dprepend [c1] (drain_all (firstn 26 (enc c2) ++ repeat 0%N z)) with
    | DOk cs lo => Loaded cs (len (q ++ repeat 0%N z) - len lo)
    | DErr e => LoadErr e | DPanic => LoadPanic | DFuel => LoadFuel
    end).
  { intros z Hz. rewrite load_aof_one_read.
    - cbn [load_chunks app]. rewrite Eq at 1. rewrite <- app_assoc, (whole_then _ [c1]) by (apply whole_enc; tauto).
      destruct (dprepend _ _); reflexivity.
    - rewrite app_length, repeat_length. replace (length q) with 53%nat by (vm_compute; reflexivity).
      unfold chunk_size. lia. }
  split; rewrite L by lia; vm_compute; reflexivity.
Qed.
