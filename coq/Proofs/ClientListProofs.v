(* C17 — CLIENT LIST: the members the JSON arm recovers from the RESP text are exactly the fields
   the text was printed from, for every connection name CLIENT SETNAME accepts. *)
From Coq Require Import ZifyN ZifyNat ZifyBool.
From T38 Require Import Base.Bytes Model.ClientList.
Open Scope N_scope.

Lemma split_on_nonempty sep s : split_on sep s <> [].
Proof.
  destruct s as [|c r]; cbn [split_on]; [discriminate|].
  destruct (c =? sep); [discriminate|]. destruct (split_on sep r); discriminate.
Qed.

Lemma split_on_nosep sep t : ~ In sep t -> split_on sep t = [t].
Proof.
  induction t as [|c r IH]; intros H; [reflexivity|]. cbn [split_on].
  destruct (N.eqb_spec c sep) as [->|Hn]; [exfalso; apply H; left; reflexivity|].
  rewrite IH by (intros Hin; apply H; right; exact Hin). reflexivity.
Qed.

Lemma split_on_app sep t rest : ~ In sep t -> split_on sep (t ++ sep :: rest) = t :: split_on sep rest.
Proof.
  induction t as [|c r IH]; intros H; cbn [app split_on].
  - rewrite N.eqb_refl. reflexivity.
  - destruct (N.eqb_spec c sep) as [->|Hn]; [exfalso; apply H; left; reflexivity|].
    rewrite IH by (intros Hin; apply H; right; exact Hin). reflexivity.
Qed.

Lemma split_on_join sep toks : toks <> [] -> Forall (fun t => ~ In sep t) toks ->
  split_on sep (join sep toks) = toks.
Proof.
  induction toks as [|t r IH]; intros Hne Hall; [congruence|].
  inversion Hall as [|? ? Ht Hr]; subst. destruct r as [|t2 r2].
  - cbn [join]. apply split_on_nosep. exact Ht.
  - change (join sep (t :: t2 :: r2)) with (t ++ sep :: join sep (t2 :: r2)).
    rewrite split_on_app by exact Ht. rewrite IH; [reflexivity | discriminate | exact Hr].
Qed.

Lemma split_lines sep lines : Forall (fun l => ~ In sep l) lines ->
  split_on sep (concat (map (fun l => l ++ [sep]) lines)) = lines ++ [[]].
Proof.
  induction 1 as [|l r Hl _ IH]; [reflexivity|].
  cbn [map concat]. rewrite <- app_assoc. cbn [app]. rewrite split_on_app by exact Hl. rewrite IH. reflexivity.
Qed.

Definition hd_ok (s : bytes) : Prop := match s with [] => True | c :: _ => is_space c = false end.

Lemma drop_space_hd s : hd_ok s -> drop_space s = s.
Proof. destruct s as [|c r]; [reflexivity|]. cbn [hd_ok drop_space]. intros ->. reflexivity. Qed.

Lemma trim_space_id s : hd_ok s -> hd_ok (rev s) -> trim_space s = s.
Proof.
  intros H1 H2. unfold trim_space. rewrite (drop_space_hd s H1), (drop_space_hd _ H2). apply rev_involutive.
Qed.

Lemma no_space_spec s : no_space s = true -> forall c, In c s -> is_space c = false.
Proof.
  unfold no_space. rewrite forallb_forall. intros H c Hc. specialize (H c Hc).
  destruct (is_space c); [discriminate | reflexivity].
Qed.

Lemma name_ok_no_space s : name_ok s = true -> no_space s = true.
Proof.
  unfold name_ok, no_space. rewrite !forallb_forall. intros H c Hc. specialize (H c Hc).
  unfold is_space. lia.
Qed.

Lemma no_space_hd s : no_space s = true -> hd_ok s.
Proof. destruct s as [|c r]; [exact (fun _ => I)|]. intros H. apply (no_space_spec _ H). left; reflexivity. Qed.

Lemma no_space_rev s : no_space s = true -> no_space (rev s) = true.
Proof.
  unfold no_space. rewrite !forallb_forall. intros H c Hc. apply H. apply in_rev. exact Hc.
Qed.

Lemma no_space_app a b : no_space (a ++ b) = no_space a && no_space b.
Proof. unfold no_space. apply forallb_app. Qed.

Lemma trim_token t : no_space t = true -> trim_space t = t.
Proof. intros H. apply trim_space_id; apply no_space_hd; [exact H | apply no_space_rev; exact H]. Qed.

Lemma no_space_not_in s c : no_space s = true -> is_space c = true -> ~ In c s.
Proof. intros Hs Hc Hin. rewrite (no_space_spec _ Hs _ Hin) in Hc. discriminate. Qed.

Lemma in_join sep x : forall toks, In x (join sep toks) -> x = sep \/ exists t, In t toks /\ In x t.
Proof.
  induction toks as [|t r IH]; [intros []|]. destruct r as [|t2 r2].
  - intros H. right. exists t. split; [left; reflexivity | exact H].
  - change (join sep (t :: t2 :: r2)) with (t ++ sep :: join sep (t2 :: r2)). intros H.
    apply in_app_or in H as [H|[H|H]]; [right; exists t; split; [left; reflexivity | exact H] | auto |].
    destruct (IH H) as [?|(u & Hu & Hx)]; [auto|]. right. exists u. split; [right; exact Hu | exact Hx].
Qed.

Lemma hd_ok_rev_app (a b : bytes) : b <> [] -> hd_ok (rev b) -> hd_ok (rev (a ++ b)).
Proof.
  intros Hb. destruct b as [|x b _] using rev_ind; [contradiction|].
  rewrite app_assoc, !rev_unit. exact (fun H => H).
Qed.

Lemma join_edges : forall toks, Forall (fun t => t <> [] /\ no_space t = true) toks -> toks <> [] ->
  join SP toks <> [] /\ hd_ok (join SP toks) /\ hd_ok (rev (join SP toks)).
Proof.
  induction 1 as [|t r [Hne Hs] _ IH]; intros N; [congruence|]. clear N.
  assert (Ht : hd_ok t /\ hd_ok (rev t)) by (split; apply no_space_hd; [|apply no_space_rev]; exact Hs).
  destruct r as [|t2 r2]; [tauto|]. destruct IH as (Jne & _ & Jr); [discriminate|].
  change (join SP (t :: t2 :: r2)) with (t ++ SP :: join SP (t2 :: r2)).
  split; [destruct t; [contradiction | discriminate]|].
  split; [destruct t; [contradiction | apply Ht]|].
  apply hd_ok_rev_app; [discriminate|]. apply (hd_ok_rev_app [SP]); assumption.
Qed.

Definition token (kv : bytes * bytes) : bytes := fst kv ++ EQ :: snd kv.

Lemma cut_first_token k v : ~ In EQ k -> cut_first EQ (k ++ EQ :: v) = Some (k, v).
Proof.
  induction k as [|c r IH]; intros H; cbn [app cut_first].
  - rewrite N.eqb_refl. reflexivity.
  - destruct (N.eqb_spec c EQ) as [->|Hn]; [exfalso; apply H; left; reflexivity|].
    rewrite IH by (intros Hin; apply H; right; exact Hin). reflexivity.
Qed.

(* a member the JSON arm gets back: no white space in name and value, no '=' in the name *)
Definition field_ok (kv : bytes * bytes) : Prop :=
  no_space (fst kv) = true /\ no_space (snd kv) = true /\ ~ In EQ (fst kv).

Lemma token_ok kv : field_ok kv -> token kv <> [] /\ no_space (token kv) = true.
Proof.
  intros (Hk & Hv & _). unfold token. split; [destruct (fst kv); discriminate|].
  rewrite no_space_app, Hk. change (no_space (EQ :: snd kv)) with (negb (is_space EQ) && no_space (snd kv)).
  rewrite Hv. reflexivity.
Qed.

Lemma tokens_ok fields : Forall field_ok fields ->
  Forall (fun t => t <> [] /\ no_space t = true) (map token fields).
Proof. intros F. apply Forall_map. eapply Forall_impl; [|exact F]. apply token_ok. Qed.

Lemma entry_fields_join fields : Forall field_ok fields -> fields <> [] ->
  entry_fields cut_first (join SP (map token fields)) = fields.
Proof.
  intros F N. pose proof (tokens_ok fields F) as FT.
  assert (NT : map token fields <> []) by (destruct fields; [contradiction | discriminate]).
  unfold entry_fields. destruct (join_edges _ FT NT) as (_ & L1 & L2).
  rewrite (trim_space_id _ L1 L2), split_on_join; [|exact NT|].
  - clear N FT NT L1 L2. induction F as [|[k v] r Hkv _ IH]; [reflexivity|]. cbn [map flat_map].
    rewrite trim_token by apply (token_ok _ Hkv). unfold token at 1. cbn [fst snd].
    rewrite cut_first_token by apply Hkv. cbn [app]. f_equal. exact IH.
  - eapply Forall_impl; [|exact FT]. intros t [_ Hs]. apply (no_space_not_in _ _ Hs). reflexivity.
Qed.

Lemma join_no_newline fields : Forall field_ok fields -> ~ In NL (join SP (map token fields)).
Proof.
  intros F H. apply in_join in H as [H|(t & Ht & H)]; [discriminate|].
  pose proof (tokens_ok fields F) as FT. rewrite Forall_forall in FT. destruct (FT t Ht) as [_ Hs].
  exact (no_space_not_in t NL Hs eq_refl H).
Qed.

Lemma fields_ok c : client_wf c = true -> Forall field_ok (resp_fields c).
Proof.
  intros H. unfold client_wf in H. rewrite !andb_true_iff in H.
  destruct H as ((((H1 & H2) & H3) & H4) & H5). apply name_ok_no_space in H3.
  repeat (constructor; [split; [reflexivity|]; split; [assumption|]; cbn; intuition discriminate|]). constructor.
Qed.

(* The JSON arm inverts the printer on ANY lines of members that are free of white space and of '=' in the name:
   nothing depends on which five members the Sprintf of CLIENT LIST prints. The empty piece behind the last
   newline has no member and is dropped. *)
Theorem json_entries_lines fss : Forall (fun fs => fs <> [] /\ Forall field_ok fs) fss ->
  json_entries cut_first (concat (map (fun fs => join SP (map token fs) ++ [NL]) fss)) = fss.
Proof.
  intros F. unfold json_entries.
  rewrite <- (map_map (fun fs => join SP (map token fs)) (fun l => l ++ [NL])), split_lines.
  - rewrite map_app, filter_app, map_map.
    refine (eq_trans (app_nil_r _) _).   (* the summand of the piece [] evaluates to [] *)
    induction F as [|fs r [N Hfs] _ IH]; [reflexivity|]. cbn [map filter].
    rewrite (entry_fields_join fs Hfs N), IH. destruct fs; [contradiction | reflexivity].
  - apply Forall_map. eapply Forall_impl; [|exact F]. intros fs [_ Hfs]. apply join_no_newline, Hfs.
Qed.

Theorem client_list_fields_agree : forall cs, forallb client_wf cs = true ->
  json_entries cut_first (list_text cs) = map resp_fields cs.
Proof.
  intros cs Hwf. rewrite forallb_forall in Hwf.
  rewrite <- (json_entries_lines (map resp_fields cs)); [unfold list_text; rewrite map_map; reflexivity|].
  apply Forall_map, Forall_forall. intros c Hc. split; [discriminate | apply fields_ok, Hwf, Hc].
Qed.

(* cutting at every '=' and wanting two pieces (seeded change C17/12): a name with '=' in it is lost *)
Definition client_eq_name : cinfo := mkC [55] [49; 58; 50] [97; 61; 98] [48] [48].

