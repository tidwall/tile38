(* Finding C19-inverted-bounds (repaired in /repo by 85e217d): the PINNED
   cmdSET ... BOUNDS minlat minlon maxlat maxlon (Model/SetBounds.v set_bounds_rect_pinned)
   stores geometry.Rect{Min, Max} as given, also when min > max; the repaired one orders the corners.  Model/Collection.v (and
   c19_bounds_partial / bounds_exact) read o_rect as a rectangle; for an object whose "rectangle" has
   Min > Max the answer the code gives (the extreme float32 keys, admitted by bounds_ok and even
   accepted by bounds_exact, which compares min sides with min sides and max sides with max sides) is a
   box that does not contain that object's own corner. *)
From Coq Require Import Reals.
From Flocq Require Import Core BinarySingleNaN.
From T38 Require Import Base.Bytes Model.Float32 Model.Collection Proofs.Float32Proofs Proofs.CollectionProofs Model.SetBounds.
Import ListNotations.
Local Open Scope Z_scope.

(* SET k a BOUNDS 10 10 0 0 ; SET k b POINT 5 5  (bits of 10.0, 0.0, 5.0) *)
Definition inv_a : obj := Obj [97]%N true false 2 20 [] 0
  (rect64_of_bits 4621819117588971520 4621819117588971520 0 0).
Definition inv_b : obj := Obj [98]%N true false 1 18 [] 0
  (rect64_of_bits 4617315517961601024 4617315517961601024 4617315517961601024 4617315517961601024).
Definition inv_coll : coll := run [OSet inv_a; OSet inv_b].
Definition inv_answer : rect64 := o_rect inv_b.     (* BOUNDS k -> [[5 5] [5 5]] *)

Definition f10 : f64 := f64_of_bits 4621819117588971520.
Definition f0 : f64 := f64_of_bits 0.

Lemma bounds_inverted_pinned_refuted :
  exists v0 v1 v2 v3 c b o,
    o_rect o = set_bounds_rect_pinned v0 v1 v2 v3 /\ rect_ordered (o_rect o) = false /\
    Wf c /\ In o (spatial_list c) /\ bounds_ok c b = true /\ bounds_exact c b = true /\
    le64 (r64_minx (o_rect o)) (r64_maxx b) = false /\
    (* the repaired construction on the same four numbers *)
    rect_ordered (set_bounds_rect v0 v1 v2 v3) = true.
Proof.
  exists f10, f10, f0, f0, inv_coll, inv_answer, inv_a.
  split; [reflexivity|]. split; [reflexivity|]. split; [apply wf_run|].
  split; [right; left; reflexivity|]. repeat split; reflexivity.
Qed.

Lemma bounds_inverted_refuted :
  exists c b o, Wf c /\ In o (spatial_list c) /\ bounds_ok c b = true /\ bounds_exact c b = true /\
                le64 (r64_minx (o_rect o)) (r64_maxx b) = false.
Proof.
  destruct bounds_inverted_pinned_refuted as (_ & _ & _ & _ & c & b & o & _ & _ & W & Hin & Hok & Hex & Hle & _).
  exists c, b, o. auto.
Qed.

(* Go's comparisons on float64, NaN and the infinities included: > and <= are each other's negation
   exactly when neither side is NaN, and <= is transitive outright (it is false on NaN) *)
Lemma gt64_false_le (a b : f64) : nonnan a -> nonnan b -> gt64 a b = false -> le64 a b = true.
Proof.
  intros Na Nb. unfold gt64, le64. rewrite (Bcompare_ext _ _ a b Na Nb).
  destruct (Rcompare (ext64 a) (ext64 b)); congruence.
Qed.

Lemma gt64_true_le (a b : f64) : gt64 a b = true -> le64 b a = true.
Proof.
  unfold gt64, le64. rewrite (Bcompare_swap _ _ a b).
  destruct (Bcompare a b) as [[| |]|]; cbn; congruence.
Qed.

Theorem set_bounds_ordered (v0 v1 v2 v3 : f64) : nonnan v0 -> nonnan v1 -> nonnan v2 -> nonnan v3 ->
  rect_ordered (set_bounds_rect v0 v1 v2 v3) = true.
Proof.
  intros N0 N1 N2 N3. unfold set_bounds_rect, rect_ordered.
  destruct (gt64 v0 v2) eqn:E02; destruct (gt64 v1 v3) eqn:E13; cbn [r64_minx r64_miny r64_maxx r64_maxy];
    apply andb_true_iff; split;
    first [apply gt64_false_le; assumption | apply gt64_true_le; assumption].
Qed.

Definition finite_rect (r : rect64) : Prop :=
  is_finite (r64_minx r) = true /\ is_finite (r64_miny r) = true /\ is_finite (r64_maxx r) = true /\ is_finite (r64_maxy r) = true.

Lemma le64_trans (a b c : f64) : le64 a b = true -> le64 b c = true -> le64 a c = true.
Proof.
  intros H1 H2. destruct (le64_nonnan a b H1) as [Na Nb], (le64_nonnan b c H2) as [_ Nc].
  rewrite le64_ext in * by assumption. exact (Rle_trans _ _ _ H1 H2).
Qed.

(* with ordered rectangles in the index (what the repaired SET guarantees for BOUNDS objects) a box
   the model calls exact does contain every indexed object: the pinned witness cannot occur *)
Theorem ordered_box_contains c b :
  (forall o, In o (spatial_list c) -> rect_ordered (o_rect o) = true) ->
  bounds_exact c b = true ->
  forall o, In o (spatial_list c) ->
    le64 (r64_minx (o_rect o)) (r64_maxx b) = true /\ le64 (r64_miny (o_rect o)) (r64_maxy b) = true /\
    le64 (r64_minx b) (r64_maxx (o_rect o)) = true /\ le64 (r64_miny b) (r64_maxy (o_rect o)) = true.
Proof.
  intros Hall Hex o Ho. pose proof (Hall o Ho) as Hord. unfold rect_ordered in Hord.
  apply andb_true_iff in Hord as [Hx Hy].
  unfold spatial_list in Ho. apply in_map_iff in Ho as [e [He Hin]]. unfold bounds_exact in Hex.
  destruct (c_spatial c) as [|e0 sp] eqn:Es; [destruct Hin|].
  rewrite forallb_forall in Hex. specialize (Hex e Hin). cbv zeta in Hex. rewrite He in Hex.
  apply andb_true_iff in Hex as [Hex H4]. apply andb_true_iff in Hex as [Hex H3]. apply andb_true_iff in Hex as [H1 H2].
  repeat split.
  - apply (le64_trans _ (r64_maxx (o_rect o))); assumption.
  - apply (le64_trans _ (r64_maxy (o_rect o))); assumption.
  - apply (le64_trans _ (r64_minx (o_rect o))); assumption.
  - apply (le64_trans _ (r64_miny (o_rect o))); assumption.
Qed.
