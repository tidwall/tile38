(* The COUNT shortcut of SCAN / SEARCH with CURSOR and LIMIT (Model/CollSel.v:
   coll_scan_count_at / coll_search_count_at) against the recomputation from the retrievable objects
   and against C11's counting iteration / page model (Model/Cursor.v), which is what the IDS form of
   the same query walks. *)
From Coq Require Import ZifyN ZifyNat ZifyBool Lia.
From T38 Require Import Base.Bytes Model.Glob Model.Collection Proofs.CollectionProofs Model.GlobSel
  Proofs.GlobSelProofs Model.CollSel Proofs.CollSelProofs.
From T38 Require Model.Cursor Proofs.CursorProofs.
Import ListNotations.
Open Scope N_scope.

Lemma cursor_shortcut_iter {A} (src : list A) cursor limit :
  Cursor.count_shortcut src cursor limit = iter_count src cursor limit.
Proof.
  unfold Cursor.count_shortcut, iter_count. rewrite N.leb_antisym.
  destruct (cursor <? N.of_nat (length src)); reflexivity.
Qed.

(* min(max(n - cursor, 0), limit), n = the retrievable objects (SCAN) / the retrievable strings (SEARCH) *)
Theorem count_at_spec c cursor limit : Wf c ->
  coll_scan_count_at c cursor limit = N.min limit (N.of_nat (length (scan_ids c)) - cursor) /\
  coll_search_count_at c cursor limit =
    N.min limit (N.of_nat (length (filter (fun o => negb (o_spatial o)) (scan_ids c))) - cursor).
Proof.
  intros W. destruct (count_shortcut_wf c cursor limit W) as [Hs Hc].
  unfold coll_scan_count_at, coll_search_count_at.
  rewrite Hs, Hc, !iter_count_spec, (values_length c W). split; reflexivity.
Qed.

(* ... which is what the counting iteration over the index returns and how many ids the IDS form of
   the same query (same CURSOR, same LIMIT, either direction) lists: Model.Cursor.page *)
Theorem count_at_is_page c (desc : bool) cursor limit : Wf c -> 1 <= limit ->
  let ids := dir desc (scan_ids c) in
  let vals := dir desc (search_values c) in
  coll_scan_count_at c cursor limit =
    N.of_nat (length (fst (Cursor.page (fun _ => true) (fun _ => false) ids cursor limit))) /\
  coll_search_count_at c cursor limit =
    N.of_nat (length (fst (Cursor.page (fun _ => true) (fun _ => false) vals cursor limit))).
Proof.
  intros W Hl ids vals. destruct (count_at_spec c cursor limit W) as [H1 H2].
  rewrite <- !(CursorProofs.count_eq_items (fun _ => true) (fun _ => false)) by exact Hl.
  rewrite <- !CursorProofs.count_shortcut_exact by exact Hl.
  rewrite !cursor_shortcut_iter, !iter_count_spec, H1, H2. unfold ids, vals.
  destruct desc; cbn [dir]; rewrite ?rev_length, (values_length c W); split; reflexivity.
Qed.
