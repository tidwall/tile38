(* The deadline index of Model/Collection.v under Set / Delete, stated for
   every deadline in Z: negative ones (SET ... EX accepts any float, a negative one gives a deadline
   before 1970), zero (= no deadline) and positive ones.  Corollaries of Proofs/CollectionProofs.v:
   after Delete id the expiry path holds no entry for id whatever the sign of the deleted object's
   deadline; after Set the path holds the new object iff its deadline is not 0, and of the others
   what it held (Props/C19ex.v reads off: an object stored without deadline is out of the sweep's reach). *)
From Coq Require Import ZifyBool Lia.
From T38 Require Import Base.Bytes Model.Float32 Model.Collection Proofs.CollectionProofs.
Import ListNotations.
Local Open Scope Z_scope.

Lemma expiry_path_spec c : Wf c -> forall o, In o (scan_expires c) <-> (In o (c_objs c) /\ o_ex o <> 0).
Proof.
  intros W o. destruct (paths_agree c W) as (_ & _ & _ & P4 & _). rewrite P4, (retrievable_iff c W). tauto.
Qed.

(* Delete id: the expiry path loses exactly the entry of id (if any), for every deadline of the
   deleted object — collection.go tests prev.Expires() != 0, not > 0 *)
Theorem delete_expiry_path c id : Wf c ->
  forall o, In o (scan_expires (cdelete c id)) <-> (In o (scan_expires c) /\ o_id o <> id).
Proof.
  intros W o. pose proof (cdelete_wf c id W) as W'.
  rewrite (expiry_path_spec _ W'), (expiry_path_spec _ W), cdelete_objs.
  rewrite (del_In o_id id_cmp order_bytes _ (wf_objs c W)). tauto.
Qed.

Corollary deleted_unreachable_by_expiry c id : Wf c -> ~ In id (map o_id (scan_expires (cdelete c id))).
Proof.
  intros W H. apply in_map_iff in H as [o [Hid Ho]]. apply (delete_expiry_path c id W) in Ho. tauto.
Qed.

(* Set o: the expiry path reaches o's id iff o itself carries a deadline (<> 0, either sign);
   whatever was stored under that id before — with a past, negative or future deadline — is gone *)
Theorem set_expiry_path c o : Wf c ->
  forall x, In x (scan_expires (cset c o)) <-> ((x = o /\ o_ex o <> 0) \/ (In x (scan_expires c) /\ o_id x <> o_id o)).
Proof.
  intros W x. pose proof (cset_wf c o W) as W'.
  rewrite (expiry_path_spec _ W'), (expiry_path_spec _ W), cset_objs.
  rewrite (ins_In o_id id_cmp order_bytes _ (wf_objs c W)). split.
  - intros [[->|[Hx Hk]] He]; [left; auto | right; auto].
  - intros [[-> He]|[[Hx He] Hk]]; auto.
Qed.

