(* Lemmas about Model/CollSel.v (property C19): on a well-formed
   collection SCAN / SEARCH with any set of MATCH patterns whose literal prefixes do not end in 0xFF
   (ff_free, C12's known finding), ascending and descending, reach exactly the retrievable objects
   they should, once each, and the COUNT forms return their number. *)
From Coq Require Import ZifyN ZifyNat ZifyBool Sorting.Sorted Sorting.Permutation Lia.
From T38 Require Import Base.Bytes Base.ListFacts Model.Glob Proofs.GlobProofs.
From T38 Require Import Model.Collection Proofs.CollectionProofs Model.GlobSel Proofs.GlobSelProofs Model.CollSel.
Import ListNotations.
Open Scope N_scope.

Lemma sorted_map {A B} (R : A -> A -> Prop) (R' : B -> B -> Prop) (f : A -> B) l :
  (forall a b, R a b -> R' (f a) (f b)) -> StronglySorted R l -> StronglySorted R' (map f l).
Proof.
  intros H Hs. induction Hs as [|a l Hs IH Hall]; cbn; constructor; auto.
  apply Forall_forall. intros y Hy. apply in_map_iff in Hy as [x [<- Hx]]. apply H.
  rewrite Forall_forall in Hall. auto.
Qed.

Definition dir {A} (desc : bool) (l : list A) : list A := if desc then rev l else l.

Lemma dir_length {A} (f : A -> bool) desc l : length (filter f (dir desc l)) = length (filter f l).
Proof. destruct desc; cbn [dir]; [rewrite filter_rev, rev_length|]; reflexivity. Qed.

Lemma dir_In {A} desc (l : list A) x : In x (dir desc l) <-> In x l.
Proof. destruct desc; cbn [dir]; [symmetry; apply in_rev | reflexivity]. Qed.

Lemma dir_map {A B} (g : A -> B) desc l : dir desc (map g l) = map g (dir desc l).
Proof. destruct desc; cbn [dir]; [symmetry; apply map_rev | reflexivity]. Qed.

Lemma dir_NoDup {A} desc (l : list A) : NoDup l -> NoDup (dir desc l).
Proof. destruct desc; cbn [dir]; [apply NoDup_rev | auto]. Qed.

Lemma everything_test globs s : glob_everything globs = true -> glob_test globs s = true.
Proof. unfold glob_test. intros ->. reflexivity. Qed.

Lemma ids_bsorted c : Wf c -> bsorted (map o_id (c_objs c)).
Proof.
  intros W. apply (sorted_map (klt o_id id_cmp)); [|exact (wf_objs c W)].
  intros a b H. unfold klt, id_cmp in H. unfold bytes_ltb. rewrite H. reflexivity.
Qed.

Lemma values_vsorted c : Wf c -> vsorted (map vkey (c_values c)).
Proof.
  intros W. apply (sorted_map (klt vkey vcmp)); [|exact (wf_values_sorted c W)].
  intros a b H. apply ventry_ltb_vcmp, H.
Qed.

Definition ff_free (globs : list bytes) : Prop := forall p, In p globs -> prefix_ends_ff p = false.

Lemma scan_sel_nofilter globs : forall l, filter (scan_sel globs no_filter) l = filter (glob_test globs) l.
Proof. intros l. apply filter_ext. intros x. unfold scan_sel, no_filter. apply andb_true_r. Qed.

Lemma search_sel_nofilter globs : forall l : list ventry,
  filter (search_sel globs no_filter) l = filter (fun e : ventry => glob_test globs (fst e)) l.
Proof. intros l. apply filter_ext. intros x. unfold search_sel, no_filter. apply andb_true_r. Qed.

Lemma coll_scan_ids_exact c globs desc lim : Wf c -> ff_free globs -> N.of_nat (length (scan_ids c)) < lim ->
  coll_scan_ids globs desc c lim = map o_id (filter (scan_hit globs) (dir desc (scan_ids c))).
Proof.
  intros W Hff Hl. unfold coll_scan_ids, scan_ids in *.
  destruct (scan_multi_exact globs no_filter lim desc _ (ids_bsorted c W) Hff ltac:(lia)) as [H _].
  rewrite H, scan_sel_nofilter. unfold scan_hit.
  rewrite firstn_filter_all.
  - destruct desc; cbn [dir]; [rewrite <- map_rev|]; apply filter_map_comm.
  - destruct desc; [rewrite rev_length|]; rewrite map_length; exact Hl.
Qed.

Lemma coll_scan_count_iter c globs desc limit : Wf c -> ff_free globs -> 1 <= limit ->
  out_count (scan_multi globs no_filter limit true desc (map o_id (scan_ids c))) =
  N.min limit (N.of_nat (length (filter (scan_hit globs) (scan_ids c)))).
Proof.
  intros W Hff Hl. unfold scan_ids.
  destruct (scan_multi_exact globs no_filter limit desc _ (ids_bsorted c W) Hff Hl) as [_ H].
  rewrite H, scan_sel_nofilter. f_equal. f_equal. unfold scan_hit.
  etransitivity; [exact (dir_length (glob_test globs) desc _)|].
  rewrite filter_map_comm, map_length. reflexivity.
Qed.

Theorem coll_scan_reach c globs desc lim : Wf c -> ff_free globs -> N.of_nat (length (scan_ids c)) < lim ->
  let reached := coll_scan_ids globs desc c lim in
  reached = map o_id (filter (scan_hit globs) (dir desc (scan_ids c))) /\
  (forall id, In id reached <-> exists o, cget c id = Some o /\ glob_test globs id = true) /\
  NoDup reached /\
  (forall limit, 1 <= limit -> coll_scan_count globs desc c limit =
                 N.min limit (N.of_nat (length (filter (scan_hit globs) (scan_ids c))))).
Proof.
  intros W Hff Hlim reached. pose proof (coll_scan_ids_exact c globs desc lim W Hff Hlim) as E. fold reached in E.
  split; [exact E|]. split; [|split].
  - intros id. rewrite E, in_map_iff. split.
    + intros [o [Hid Ho]]. apply filter_In in Ho as [Ho Hh]. apply dir_In in Ho. exists o. split.
      * apply (cget_spec c W). split; assumption.
      * unfold scan_hit in Hh. rewrite Hid in Hh. exact Hh.
    + intros [o [Hg Ht]]. apply (cget_spec c W) in Hg as [Ho Hid]. exists o. split; [exact Hid|].
      apply filter_In. split; [apply dir_In; exact Ho|]. unfold scan_hit. rewrite Hid. exact Ht.
  - rewrite E. apply NoDup_map_filter. rewrite <- dir_map. apply dir_NoDup.
    apply (ssorted_NoDup o_id id_cmp order_bytes), (wf_objs c W).
  - intros limit Hl. unfold coll_scan_count. destruct (glob_everything globs) eqn:Ge.
    + rewrite (proj2 (count_shortcut_wf c 0 limit W)), iter_count_spec, N.sub_0_r.
      rewrite filter_all; [reflexivity|]. intros o _. apply everything_test. exact Ge.
    + apply coll_scan_count_iter; assumption.
Qed.

Definition value_hit (globs : list bytes) (o : obj) : bool := glob_test globs (o_str o).

Lemma search_entries_exact globs (l : list obj) :
  map snd (filter (fun e : ventry => glob_test globs (fst e)) (map vkey l)) = map o_id (filter (value_hit globs) l).
Proof. rewrite filter_map_comm, map_map. reflexivity. Qed.

Lemma coll_search_ids_exact c globs desc lim : Wf c -> ff_free globs -> N.of_nat (length (search_values c)) < lim ->
  coll_search_ids globs desc c lim = map o_id (filter (value_hit globs) (dir desc (search_values c))).
Proof.
  intros W Hff Hl. unfold coll_search_ids, search_values in *.
  destruct (search_multi_exact globs no_filter lim desc _ (values_vsorted c W) Hff ltac:(lia)) as [H _].
  rewrite H, search_sel_nofilter. rewrite firstn_filter_all.
  - destruct desc; cbn [dir]; [rewrite <- map_rev|]; apply search_entries_exact.
  - destruct desc; [rewrite rev_length|]; rewrite map_length; exact Hl.
Qed.

Lemma search_len c globs : Wf c ->
  length (filter (value_hit globs) (c_values c)) = length (filter (search_hit globs) (c_objs c)).
Proof. exact (values_filter_length c (value_hit globs)). Qed.

Lemma coll_search_count_iter c globs desc limit : Wf c -> ff_free globs -> 1 <= limit ->
  out_count (search_multi globs no_filter limit true desc (map vkey (search_values c))) =
  N.min limit (N.of_nat (length (filter (search_hit globs) (scan_ids c)))).
Proof.
  intros W Hff Hl. unfold scan_ids, search_values. rewrite <- (search_len c globs W).
  destruct (search_multi_exact globs no_filter limit desc _ (values_vsorted c W) Hff Hl) as [_ H].
  rewrite H, search_sel_nofilter. f_equal. f_equal.
  etransitivity; [exact (dir_length (fun e : ventry => glob_test globs (fst e)) desc _)|].
  rewrite filter_map_comm, map_length. reflexivity.
Qed.

Lemma values_le_objs c : Wf c -> (length (search_values c) <= length (scan_ids c))%nat.
Proof. intros W. rewrite (values_length c W). apply filter_length_le. Qed.

Theorem coll_search_reach c globs desc lim : Wf c -> ff_free globs -> N.of_nat (length (search_values c)) < lim ->
  let reached := coll_search_ids globs desc c lim in
  reached = map o_id (filter (value_hit globs) (dir desc (search_values c))) /\
  (forall id, In id reached <->
     exists o, cget c id = Some o /\ o_spatial o = false /\ glob_test globs (o_str o) = true) /\
  NoDup reached /\
  (forall limit, 1 <= limit -> coll_search_count globs desc c limit =
                 N.min limit (N.of_nat (length (filter (search_hit globs) (scan_ids c))))).
Proof.
  intros W Hff Hlim reached. pose proof (coll_search_ids_exact c globs desc lim W Hff Hlim) as E. fold reached in E.
  destruct (paths_agree c W) as (_ & P2 & _ & _ & _ & ND & _).
  split; [exact E|]. split; [|split].
  - intros id. rewrite E, in_map_iff. split.
    + intros [o [Hid Ho]]. apply filter_In in Ho as [Ho Hh]. apply dir_In in Ho. apply P2 in Ho as [Hg Hs].
      exists o. rewrite Hid in Hg. auto.
    + intros [o [Hg [Hs Ht]]]. pose proof Hg as Hg'. apply (cget_spec c W) in Hg' as [_ Hid]. exists o.
      split; [exact Hid|]. apply filter_In. split; [|exact Ht]. apply dir_In. apply P2. rewrite Hid. auto.
  - rewrite E. apply NoDup_map_filter. rewrite <- dir_map. apply dir_NoDup. exact ND.
  - intros limit Hl. unfold coll_search_count. destruct (glob_everything globs) eqn:Ge.
    + unfold scan_ids. rewrite <- (search_len c globs W).
      rewrite (proj1 (count_shortcut_wf c 0 limit W)), iter_count_spec, N.sub_0_r.
      rewrite filter_all; [reflexivity|]. intros o _. apply everything_test. exact Ge.
    + apply coll_search_count_iter; assumption.
Qed.

Theorem sel_paths_any_history ops globs desc lim : ff_free globs ->
  let c := run ops in
  N.of_nat (length (scan_ids c)) < lim ->
  (forall id, In id (coll_scan_ids globs desc c lim) <-> exists o, cget c id = Some o /\ glob_test globs id = true) /\
  (forall id, In id (coll_search_ids globs desc c lim) <->
     exists o, cget c id = Some o /\ o_spatial o = false /\ glob_test globs (o_str o) = true) /\
  NoDup (coll_scan_ids globs desc c lim) /\ NoDup (coll_search_ids globs desc c lim) /\
  (forall limit, 1 <= limit ->
     coll_scan_count globs desc c limit = N.min limit (N.of_nat (length (coll_scan_ids globs desc c lim)))) /\
  (forall limit, 1 <= limit ->
     coll_search_count globs desc c limit = N.min limit (N.of_nat (length (coll_search_ids globs desc c lim)))).
Proof.
  intros Hff c Hlim. pose proof (wf_run ops) as W. fold c in W.
  assert (Hlim2 : N.of_nat (length (search_values c)) < lim) by (pose proof (values_le_objs c W); lia).
  destruct (coll_scan_reach c globs desc lim W Hff Hlim) as (E1 & I1 & N1 & C1).
  destruct (coll_search_reach c globs desc lim W Hff Hlim2) as (E2 & I2 & N2 & C2).
  repeat split; try (apply I1); try (apply I2); auto.
  - intros limit Hl. rewrite (C1 limit Hl), E1, map_length, dir_length. reflexivity.
  - intros limit Hl. rewrite (C2 limit Hl), E2, map_length, dir_length. unfold scan_ids. rewrite <- (search_len c globs W). reflexivity.
Qed.

(* ASC and DESC reach the same ids, in opposite order *)
Theorem sel_desc_reverses c globs lim : Wf c -> ff_free globs -> N.of_nat (length (scan_ids c)) < lim ->
  coll_scan_ids globs true c lim = rev (coll_scan_ids globs false c lim) /\
  coll_search_ids globs true c lim = rev (coll_search_ids globs false c lim).
Proof.
  intros W Hff Hlim.
  assert (Hlim2 : N.of_nat (length (search_values c)) < lim) by (pose proof (values_le_objs c W); lia).
  rewrite !coll_scan_ids_exact, !coll_search_ids_exact by assumption. cbn [dir].
  rewrite !filter_rev, !map_rev. split; reflexivity.
Qed.
