(* What Bounds guarantees (C19), and the witness of the F12 refutation (Props/C19.v c19_bounds_exact_refuted). *)
From Coq Require Import ZifyN ZifyNat ZifyBool.
From T38 Require Import Base.Bytes Model.Float32 Model.Collection Proofs.CollectionProofs.
Import ListNotations.
Local Open Scope Z_scope.

Definition retr_spatial (c : coll) (o : obj) : Prop :=
  cget c (o_id o) = Some o /\ o_spatial o = true /\ o_empty o = false.

(* a side that bounds_side_ok accepts is the exact coordinate of a retrievable object whose float32
   key is extreme; `before a b` = "a beats b": lt32 for the minima, its converse for the maxima *)
Lemma bounds_side c extreme (before : f32 -> f32 -> bool) sel32 sel64 v : Wf c ->
  (forall sp e, extreme sel32 sp e =
     forallb (fun e' : rect32 * obj => negb (before (sel32 (fst e')) (sel32 (fst e)))) sp) ->
  bounds_side_ok extreme sel32 sel64 (c_spatial c) v = true ->
  exists o, retr_spatial c o /\ f64_same (sel64 (o_rect o)) v = true /\
    forall o', retr_spatial c o' ->
      before (sel32 (rtree_rect (o_rect o'))) (sel32 (rtree_rect (o_rect o))) = false.
Proof.
  intros W Hext H. destruct (paths_agree c W) as (_ & _ & P3 & _).
  unfold bounds_side_ok in H. apply existsb_exists in H. destruct H as [e [He H]].
  apply andb_true_iff in H. destruct H as [Hmin Hsame].
  pose proof (proj1 (wf_spatial c W e) He) as (_ & _ & Hitem).
  exists (snd e). split; [|split; auto].
  - apply P3, in_map, He.
  - intros o' Ho'. apply P3, in_map_iff in Ho' as [e' [<- He']].
    pose proof (proj1 (wf_spatial c W e') He') as (_ & _ & Hitem').
    rewrite Hext, forallb_forall in Hmin. specialize (Hmin _ He').
    rewrite Hitem, Hitem' in Hmin. apply negb_true_iff in Hmin. exact Hmin.
Qed.

(* what Bounds does guarantee: every reported side is the exact coordinate of a retrievable,
   spatial, non-empty object whose float32 index key is extreme among all such objects *)
Definition bounds_spec_partial (c : coll) (b : rect64) : Prop :=
  (exists o, retr_spatial c o /\ f64_same (r64_minx (o_rect o)) (r64_minx b) = true /\
     forall o', retr_spatial c o' -> lt32 (down (r64_minx (o_rect o'))) (down (r64_minx (o_rect o))) = false) /\
  (exists o, retr_spatial c o /\ f64_same (r64_miny (o_rect o)) (r64_miny b) = true /\
     forall o', retr_spatial c o' -> lt32 (down (r64_miny (o_rect o'))) (down (r64_miny (o_rect o))) = false) /\
  (exists o, retr_spatial c o /\ f64_same (r64_maxx (o_rect o)) (r64_maxx b) = true /\
     forall o', retr_spatial c o' -> lt32 (up (r64_maxx (o_rect o))) (up (r64_maxx (o_rect o'))) = false) /\
  (exists o, retr_spatial c o /\ f64_same (r64_maxy (o_rect o)) (r64_maxy b) = true /\
     forall o', retr_spatial c o' -> lt32 (up (r64_maxy (o_rect o))) (up (r64_maxy (o_rect o'))) = false).

Lemma bounds_partial c b : Wf c -> c_spatial c <> [] -> bounds_ok c b = true -> bounds_spec_partial c b.
Proof.
  intros W Hne H. unfold bounds_ok in H.
  destruct (c_spatial c) as [|e0 sp0] eqn:E; [congruence|]. rewrite <- E in H.
  apply andb_true_iff in H. destruct H as [H H4].
  apply andb_true_iff in H. destruct H as [H H3].
  apply andb_true_iff in H. destruct H as [H1 H2].
  repeat split.
  - exact (bounds_side c is_min32 lt32 r32_minx r64_minx _ W (fun _ _ => eq_refl) H1).
  - exact (bounds_side c is_min32 lt32 r32_miny r64_miny _ W (fun _ _ => eq_refl) H2).
  - exact (bounds_side c is_max32 (fun a b => lt32 b a) r32_maxx r64_maxx _ W (fun _ _ => eq_refl) H3).
  - exact (bounds_side c is_max32 (fun a b => lt32 b a) r32_maxy r64_maxy _ W (fun _ _ => eq_refl) H4).
Qed.

(* F12: points at lon 100.000002 (p1) and 100.000001 (p2), lat 1: both longitudes round up to the
   same float32, so the R-tree may return p2 as its right-most entry and BOUNDS then reports
   max lon 100.000001 < 100.000002. *)
Definition f12_p1 : obj := Obj [112; 49]%N true false 1 18 [] 0
  (rect64_of_bits 4636737291495373776 4607182418800017408 4636737291495373776 4607182418800017408).
Definition f12_p2 : obj := Obj [112; 50]%N true false 1 18 [] 0
  (rect64_of_bits 4636737291425005032 4607182418800017408 4636737291425005032 4607182418800017408).
Definition f12_coll : coll := run [OSet f12_p1; OSet f12_p2].
