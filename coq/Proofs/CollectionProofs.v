(* Lemmas about Model/Collection.v (property C19). *)
From Coq Require Import ZifyN ZifyNat ZifyBool Sorting.Sorted.
From T38 Require Import Base.Bytes Base.ListFacts Model.Float32 Model.Collection.
Import ListNotations.
Local Open Scope Z_scope.

Record order {K} (cmp : K -> K -> comparison) : Prop := {
  ord_eq : forall a b, cmp a b = Eq <-> a = b;
  ord_anti : forall a b, cmp b a = CompOpp (cmp a b);
  ord_trans : forall a b c, cmp a b = Lt -> cmp b c = Lt -> cmp a c = Lt }.

Lemma order_bytes : order bytes_cmp.
Proof. split; [exact bytes_cmp_eq | exact bytes_cmp_antisym | exact bytes_cmp_lt_trans]. Qed.

Lemma order_Z : order Z.compare.
Proof.
  split.
  - intros a b. apply Z.compare_eq_iff.
  - intros a b. apply Z.compare_antisym.
  - intros a b c H1 H2. rewrite Z.compare_lt_iff in *. lia.
Qed.

Lemma order_lex {A B} (ca : A -> A -> comparison) (cb : B -> B -> comparison) :
  order ca -> order cb -> order (lex_cmp ca cb).
Proof.
  intros [ea aa ta] [eb ab tb]. split.
  - intros [a1 b1] [a2 b2]. unfold lex_cmp; cbn. rewrite pair_equal_spec, <- ea, <- eb.
    destruct (ca a1 a2); intuition discriminate.
  - intros [a1 b1] [a2 b2]. unfold lex_cmp; cbn. rewrite (aa a1 a2).
    destruct (ca a1 a2); cbn; auto.
  - intros [a1 b1] [a2 b2] [a3 b3]. unfold lex_cmp; cbn.
    destruct (ca a1 a2) eqn:E12; try discriminate.
    + apply ea in E12. subst a2. destruct (ca a1 a3) eqn:E13; try discriminate; auto.
      intros H1 H2. eapply tb; eauto.
    + intros _. destruct (ca a2 a3) eqn:E23; try discriminate.
      * apply ea in E23. subst a3. rewrite E12. reflexivity.
      * intros _. rewrite (ta _ _ _ E12 E23). reflexivity.
Qed.

Lemma order_vcmp : order vcmp.
Proof. apply order_lex; apply order_bytes. Qed.
Lemma order_ecmp : order ecmp.
Proof. apply order_lex; [apply order_Z | apply order_bytes]. Qed.

Section SL.
  Context {A K : Type}.
  Variable key : A -> K.
  Variable cmp : K -> K -> comparison.
  Hypothesis Hord : order cmp.

  Definition klt (a b : A) : Prop := cmp (key a) (key b) = Lt.
  Definition ssorted (l : list A) : Prop := StronglySorted klt l.

  Lemma cmp_refl k : cmp k k = Eq.
  Proof. apply (ord_eq _ Hord). reflexivity. Qed.

  Lemma cmp_gt_lt a b : cmp a b = Gt -> cmp b a = Lt.
  Proof. intros H. rewrite (ord_anti _ Hord a b), H. reflexivity. Qed.

  Lemma ssorted_inv y r : ssorted (y :: r) -> ssorted r /\ forall x, In x r -> klt y x.
  Proof. intros H. inversion H; subst. split; auto. now apply Forall_forall. Qed.

  Lemma ssorted_cons y r : ssorted r -> (forall x, In x r -> klt y x) -> ssorted (y :: r).
  Proof. intros H1 H2. constructor; auto. now apply Forall_forall. Qed.

  Lemma ssorted_nil : ssorted [].
  Proof. constructor. Qed.

  Lemma head_cmp z r k : ssorted (z :: r) ->
    match cmp k (key z) with
    | Eq => key z = k /\ (forall x, In x r -> key x <> k)
    | Lt => key z <> k /\ (forall x, In x r -> key x <> k)
    | Gt => key z <> k
    end.
  Proof.
    intros Hs. apply ssorted_inv in Hs as [_ Hall].
    destruct (cmp k (key z)) eqn:E.
    - apply (ord_eq _ Hord) in E. subst k. split; [reflexivity|].
      intros x Hx Hk. specialize (Hall x Hx). unfold klt in Hall. rewrite Hk, cmp_refl in Hall. discriminate.
    - split; [intros <-; rewrite cmp_refl in E; discriminate|].
      intros x Hx <-. pose proof (ord_trans _ Hord _ _ _ (Hall x Hx) E) as T. rewrite cmp_refl in T. discriminate.
    - intros <-. rewrite cmp_refl in E. discriminate.
  Qed.

  Lemma get_spec l : ssorted l ->
    forall k x, sl_get key cmp k l = Some x <-> (In x l /\ key x = k).
  Proof.
    induction l as [|y r IH]; intros Hs k x; cbn.
    - split; [discriminate | intros [[] _]].
    - pose proof (head_cmp y r k Hs) as H. apply ssorted_inv in Hs as [Hs _].
      destruct (cmp k (key y)).
      + split; [intros [= ->]; tauto | intros [[->|Hx] Hk]; [reflexivity | destruct (proj2 H x Hx Hk)]].
      + split; [discriminate | intros [[->|Hx] Hk]; [destruct (proj1 H Hk) | destruct (proj2 H x Hx Hk)]].
      + rewrite (IH Hs). split; [tauto | intros [[->|Hx] Hk]; [contradiction | auto]].
  Qed.

  Lemma get_none l : ssorted l ->
    forall k, sl_get key cmp k l = None <-> (forall x, In x l -> key x <> k).
  Proof.
    intros Hs k. split.
    - intros Hn x Hin Hk. assert (sl_get key cmp k l = Some x) by (apply get_spec; auto). congruence.
    - intros H. destruct (sl_get key cmp k l) eqn:E; auto.
      apply get_spec in E; auto. destruct E as [Hin Hk]. exfalso. eapply H; eauto.
  Qed.

  Lemma del_In l : ssorted l ->
    forall k y, In y (sl_del key cmp k l) <-> (In y l /\ key y <> k).
  Proof.
    induction l as [|z r IH]; intros Hs k y; cbn.
    - tauto.
    - pose proof (head_cmp z r k Hs) as H. apply ssorted_inv in Hs as [Hs _].
      destruct (cmp k (key z)); cbn [In]; [destruct H as [Hz Hr]..|rewrite (IH Hs)]; split.
      + intros Hy. split; [auto | exact (Hr y Hy)].
      + intros [[->|Hy] N]; [contradiction | exact Hy].
      + intros Hy. split; [exact Hy|]. destruct Hy as [->|Hy]; [exact Hz | exact (Hr y Hy)].
      + tauto.
      + intros [->|[Hy N]]; auto.
      + intros [[->|Hy] N]; auto.
  Qed.

  Lemma del_absent l k : sl_get key cmp k l = None -> sl_del key cmp k l = l.
  Proof.
    induction l as [|z r IH]; cbn; [reflexivity|].
    destruct (cmp k (key z)); [discriminate | reflexivity | intros H; rewrite (IH H); reflexivity].
  Qed.

  (* Insertion is deletion of the key plus the new element, on any list: sl_ins and sl_del take the
     same path.  Whatever is known of sl_del carries over to sl_ins. *)
  Lemma ins_del_In l x y : In y (sl_ins key cmp x l) <-> y = x \/ In y (sl_del key cmp (key x) l).
  Proof.
    induction l as [|z r IH]; cbn; [intuition congruence|].
    destruct (cmp (key x) (key z)); cbn [In]; rewrite ?IH; intuition congruence.
  Qed.

  Lemma ins_In l : ssorted l ->
    forall x y, In y (sl_ins key cmp x l) <-> (y = x \/ (In y l /\ key y <> key x)).
  Proof. intros Hs x y. rewrite ins_del_In, (del_In l Hs). reflexivity. Qed.

  Lemma ins_sorted l : ssorted l -> forall x, ssorted (sl_ins key cmp x l).
  Proof.
    induction l as [|z r IH]; intros Hs x; cbn.
    - apply ssorted_cons; [constructor | intros ? []].
    - pose proof Hs as Hs0. apply ssorted_inv in Hs. destruct Hs as [Hs Hall].
      destruct (cmp (key x) (key z)) eqn:E.
      + apply (ord_eq _ Hord) in E. apply ssorted_cons; auto.
        intros w Hw. specialize (Hall _ Hw). unfold klt in *. rewrite E. exact Hall.
      + apply ssorted_cons; auto. intros w [->|Hw]; [exact E|].
        specialize (Hall _ Hw). unfold klt in *. eapply (ord_trans _ Hord); eauto.
      + apply ssorted_cons; auto. intros w Hw. apply ins_In in Hw; auto.
        destruct Hw as [->|[Hw _]]; auto. unfold klt. now apply cmp_gt_lt.
  Qed.

  Lemma del_sorted l : ssorted l -> forall k, ssorted (sl_del key cmp k l).
  Proof.
    induction l as [|z r IH]; intros Hs k; cbn; auto.
    pose proof Hs as Hs0. apply ssorted_inv in Hs. destruct Hs as [Hs Hall].
    destruct (cmp k (key z)); auto.
    apply ssorted_cons; auto. intros w Hw. apply del_In in Hw; auto. destruct Hw; auto.
  Qed.

  Definition fprev (f : A -> Z) (p : option A) : Z := match p with Some a => f a | None => 0 end.

  Lemma del_sum (f : A -> Z) l k :
    zsum f (sl_del key cmp k l) = zsum f l - fprev f (sl_get key cmp k l).
  Proof.
    unfold zsum. induction l as [|z r IH]; cbn; [reflexivity|].
    destruct (cmp k (key z)); cbn; lia.
  Qed.

  Lemma ins_del_sum (f : A -> Z) l x :
    zsum f (sl_ins key cmp x l) = f x + zsum f (sl_del key cmp (key x) l).
  Proof.
    unfold zsum. induction l as [|z r IH]; cbn; [lia|].
    destruct (cmp (key x) (key z)); cbn; lia.
  Qed.

  Lemma ssorted_NoDup l : ssorted l -> NoDup (map key l).
  Proof. apply SS_NoDup_map. intros x y _ _ H E. unfold klt in H. rewrite E, cmp_refl in H. discriminate. Qed.

  Lemma ssorted_key_inj l : ssorted l -> forall x y, In x l -> In y l -> key x = key y -> x = y.
  Proof. intros Hs x y. apply NoDup_map_inj, ssorted_NoDup, Hs. Qed.

  Lemma del_In_member l : ssorted l -> forall p, In p l ->
    forall y, In y (sl_del key cmp (key p) l) <-> (In y l /\ y <> p).
  Proof.
    intros Hs p Hp y. rewrite (del_In l Hs). split; intros [Hy N]; split; auto.
    - congruence.
    - intros E. apply N. apply (ssorted_key_inj l Hs); auto.
  Qed.
End SL.

Arguments ssorted {A K} key cmp l.

Definition sp_ids (sp : list (rect32 * obj)) : list bytes := map (fun e => o_id (snd e)) sp.

Lemma sp_ids_in sp e : In e sp -> In (o_id (snd e)) (sp_ids sp).
Proof. intros H. unfold sp_ids. apply in_map_iff. exists e. auto. Qed.

Lemma sp_del_filter sp id : NoDup (sp_ids sp) ->
  sp_del id sp = filter (fun e => negb (bytes_eqb (o_id (snd e)) id)) sp.
Proof.
  induction sp as [|a r IH]; cbn; [reflexivity|]. intros Hnd. inversion Hnd as [|? ? Hnot Hnd']; subst.
  destruct (bytes_eqb_spec (o_id (snd a)) id) as [E|_]; cbn; [|f_equal; apply IH, Hnd'].
  symmetry. apply filter_all. intros e He.
  apply negb_true_iff, not_true_is_false. rewrite bytes_eqb_eq, <- E. intros E'. apply Hnot.
  rewrite <- E'. apply sp_ids_in, He.
Qed.

Lemma sp_del_In sp : NoDup (sp_ids sp) ->
  forall id e, In e (sp_del id sp) <-> (In e sp /\ o_id (snd e) <> id).
Proof.
  intros Hnd id e. rewrite (sp_del_filter sp id Hnd), filter_In, negb_true_iff, <- not_true_iff_false, bytes_eqb_eq.
  reflexivity.
Qed.

Lemma sp_del_NoDup sp id : NoDup (sp_ids sp) -> NoDup (sp_ids (sp_del id sp)).
Proof. intros Hnd. rewrite (sp_del_filter sp id Hnd). apply NoDup_map_filter, Hnd. Qed.

Lemma sp_del_notin sp id : ~ In id (sp_ids sp) -> sp_del id sp = sp.
Proof.
  induction sp as [|a r IH]; cbn; auto. intros Hn.
  destruct (bytes_eqb_spec (o_id (snd a)) id) as [E|_].
  - exfalso. auto.
  - f_equal. apply IH. auto.
Qed.

Definition in_values (o : obj) : bool := negb (o_spatial o).
Definition in_spatial (o : obj) : bool := o_spatial o && negb (o_empty o).
Definition in_expires (o : obj) : bool := negb (o_ex o =? 0).

Record Wf (c : coll) : Prop := {
  wf_objs : ssorted o_id id_cmp (c_objs c);
  wf_values_sorted : ssorted vkey vcmp (c_values c);
  wf_values : forall o, In o (c_values c) <-> (In o (c_objs c) /\ in_values o = true);
  wf_spatial_nodup : NoDup (sp_ids (c_spatial c));
  wf_spatial : forall e, In e (c_spatial c) <->
      (In (snd e) (c_objs c) /\ in_spatial (snd e) = true /\ e = rtree_item (snd e));
  wf_expires_sorted : ssorted ekey ecmp (c_expires c);
  wf_expires : forall o, In o (c_expires c) <-> (In o (c_objs c) /\ in_expires o = true);
  wf_objects : c_objects c = zsum (fun o => b2z (o_spatial o)) (c_objs c);
  wf_nobjects : c_nobjects c = zsum (fun o => b2z (negb (o_spatial o))) (c_objs c);
  wf_points : c_points c = zsum o_npoints (c_objs c);
  wf_weight : c_weight c = zsum o_weight (c_objs c) }.

Lemma wf_new : Wf cnew.
Proof.
  split; cbn; try apply ssorted_nil; try reflexivity; try tauto. constructor.
Qed.

Lemma objs_id_inj c : Wf c -> forall x y, In x (c_objs c) -> In y (c_objs c) -> o_id x = o_id y -> x = y.
Proof. intros W. eapply ssorted_key_inj; [exact order_bytes | apply (wf_objs _ W)]. Qed.

Section Steps.
  Variable c : coll.
  Hypothesis W : Wf c.

  Lemma vkey_member_inj x y : In x (c_objs c) -> In y (c_objs c) -> vkey x = vkey y -> x = y.
  Proof. intros Hx Hy E. exact (objs_id_inj c W x y Hx Hy (f_equal snd E)). Qed.
  Lemma ekey_member_inj x y : In x (c_objs c) -> In y (c_objs c) -> ekey x = ekey y -> x = y.
  Proof. intros Hx Hy E. exact (objs_id_inj c W x y Hx Hy (f_equal snd E)). Qed.
End Steps.

Lemma fill_sub_eq c p : fill_sub c p =
  Coll (c_objs c)
    (if in_values p then sl_del vkey vcmp (vkey p) (c_values c) else c_values c)
    (if in_spatial p then sp_del (o_id p) (c_spatial c) else c_spatial c)
    (if in_expires p then sl_del ekey ecmp (ekey p) (c_expires c) else c_expires c)
    (c_objects c - b2z (o_spatial p)) (c_nobjects c - b2z (negb (o_spatial p)))
    (c_points c - o_npoints p) (c_weight c - o_weight p).
Proof.
  destruct c. cbn. unfold in_values, in_spatial, in_expires, index_delete. rewrite !if_negb.
  destruct (o_spatial p); [destruct (o_empty p)|]; cbn; f_equal; lia.
Qed.

Lemma fill_add_eq c o : fill_add c o =
  Coll (c_objs c)
    (if in_values o then sl_ins vkey vcmp o (c_values c) else c_values c)
    (if in_spatial o then rtree_item o :: c_spatial c else c_spatial c)
    (if in_expires o then sl_ins ekey ecmp o (c_expires c) else c_expires c)
    (c_objects c + b2z (o_spatial o)) (c_nobjects c + b2z (negb (o_spatial o)))
    (c_points c + o_npoints o) (c_weight c + o_weight o).
Proof.
  destruct c. cbn. unfold in_values, in_spatial, in_expires, index_insert. rewrite !if_negb.
  destruct (o_spatial o); [destruct (o_empty o)|]; cbn; f_equal; lia.
Qed.

Lemma fill_sub_with_objs c p l : fill_sub (with_objs c l) p = with_objs (fill_sub c p) l.
Proof. destruct c; cbn. destruct (o_spatial p); reflexivity. Qed.

Lemma fill_add_with_objs c o l : fill_add (with_objs c l) o = with_objs (fill_add c o) l.
Proof. destruct c; cbn. destruct (o_spatial o); reflexivity. Qed.

Lemma cdelete_eq c id : cdelete c id =
  match cget c id with
  | Some p => with_objs (fill_sub c p) (sl_del o_id id_cmp id (c_objs c))
  | None => c
  end.
Proof.
  unfold cdelete, cget. destruct (sl_get o_id id_cmp id (c_objs c)) as [p|]; [|reflexivity].
  destruct c. cbn. unfold index_delete. destruct (o_spatial p), (negb (o_empty p)); reflexivity.
Qed.

Lemma cdelete_objs c id : c_objs (cdelete c id) = sl_del o_id id_cmp id (c_objs c).
Proof.
  rewrite cdelete_eq. unfold cget. destruct (sl_get o_id id_cmp id (c_objs c)) as [p|] eqn:G.
  - destruct (fill_sub c p); reflexivity.
  - symmetry. apply del_absent, G.
Qed.

(* Set is Delete of the id, then the second half of setFill; objs receives the object in place. *)
Lemma cset_eq c o : cset c o =
  with_objs (fill_add (cdelete c (o_id o)) o) (sl_ins o_id id_cmp o (c_objs c)).
Proof.
  rewrite cdelete_eq. unfold cset, cget. destruct (sl_get o_id id_cmp (o_id o) (c_objs c));
    rewrite ?fill_sub_with_objs, !fill_add_with_objs; destruct (fill_add _ o); reflexivity.
Qed.

Lemma cset_objs c o : c_objs (cset c o) = sl_ins o_id id_cmp o (c_objs c).
Proof. rewrite cset_eq. destruct (fill_add _ o); reflexivity. Qed.

Lemma sidx_del {K} (key : obj -> K) cmp sel l idx p : order cmp -> ssorted key cmp idx ->
  (forall o, In o idx <-> In o l /\ sel o = true) -> In p l ->
  forall o, In o (if sel p then sl_del key cmp (key p) idx else idx) <-> (In o l /\ o <> p) /\ sel o = true.
Proof.
  intros Hord Hs Hm Hp o. destruct (sel p) eqn:S.
  - rewrite (del_In_member key cmp Hord idx Hs p), Hm by (apply Hm; auto). tauto.
  - rewrite Hm. intuition congruence.
Qed.

Lemma sidx_ins {K} (key : obj -> K) cmp sel l idx o : order cmp -> ssorted key cmp idx ->
  (forall x y, key x = key y -> o_id x = o_id y) ->
  (forall x, In x idx <-> In x l /\ sel x = true) -> (forall x, In x l -> o_id x <> o_id o) ->
  forall y, In y (if sel o then sl_ins key cmp o idx else idx) <-> (y = o \/ In y l) /\ sel y = true.
Proof.
  intros Hord Hs Hkey Hm Hfresh y. destruct (sel o) eqn:S.
  - rewrite (ins_In key cmp Hord idx Hs), Hm. split.
    + intros [->|[[Hy Hv] _]]; auto.
    + intros [[->|Hy] Hv]; auto. right. repeat split; auto. intros E. exact (Hfresh y Hy (Hkey _ _ E)).
  - rewrite Hm. intuition congruence.
Qed.

Lemma cget_spec c : Wf c -> forall id o, cget c id = Some o <-> (In o (c_objs c) /\ o_id o = id).
Proof. intros W id o. unfold cget. apply get_spec; [exact order_bytes | apply (wf_objs c W)]. Qed.

Lemma retrievable_iff c : Wf c -> forall o, cget c (o_id o) = Some o <-> In o (c_objs c).
Proof. intros W o. rewrite (cget_spec c W). tauto. Qed.

(* setFill's first half, with the object gone from objs *)
Lemma cdelete_wf c id : Wf c -> Wf (cdelete c id).
Proof.
  intros W. rewrite cdelete_eq. destruct (cget c id) as [p|] eqn:Hget; [|exact W].
  destruct (proj1 (cget_spec c W id p) Hget) as [Hp <-]. unfold cget in Hget. rewrite fill_sub_eq.
  destruct W as [Lo Lvs Lv Lnd Lsp Les Le Lc1 Lc2 Lc3 Lc4]. set (l := c_objs c) in *.
  pose proof (del_In_member o_id id_cmp order_bytes l Lo p Hp) as DI.
  split; cbn [with_objs c_objs c_values c_spatial c_expires c_objects c_nobjects c_points c_weight].
  - apply del_sorted; auto using order_bytes.
  - destruct (in_values p); auto using del_sorted, order_vcmp.
  - intros o. rewrite DI. apply sidx_del; auto using order_vcmp.
  - destruct (in_spatial p); auto using sp_del_NoDup.
  - intros e. rewrite DI. destruct (in_spatial p) eqn:S.
    + rewrite sp_del_In, Lsp by assumption. split.
      * intros ((Ho & Hs & He) & N). repeat split; auto. intros E. apply N. rewrite E. reflexivity.
      * intros ((Ho & N) & Hs & He). repeat split; auto. intros E. apply N.
        apply (ssorted_key_inj o_id id_cmp order_bytes l); auto.
    + rewrite Lsp. intuition congruence.
  - destruct (in_expires p); auto using del_sorted, order_ecmp.
  - intros o. rewrite DI. apply sidx_del; auto using order_ecmp.
  - rewrite del_sum, Hget, Lc1. reflexivity.
  - rewrite del_sum, Hget, Lc2. reflexivity.
  - rewrite del_sum, Hget, Lc3. reflexivity.
  - rewrite del_sum, Hget, Lc4. reflexivity.
Qed.

(* setFill's second half: d holds l without o's id *)
Lemma add_step d o l : Wf d -> ssorted o_id id_cmp l -> c_objs d = sl_del o_id id_cmp (o_id o) l ->
  Wf (with_objs (fill_add d o) (sl_ins o_id id_cmp o l)).
Proof.
  intros W Hs E. rewrite fill_add_eq. destruct W as [Lo Lvs Lv Lnd Lsp Les Le Lc1 Lc2 Lc3 Lc4].
  set (l' := c_objs d) in *.
  assert (Hfresh : forall y, In y l' -> o_id y <> o_id o).
  { intros y. rewrite E, (del_In o_id id_cmp order_bytes l Hs). tauto. }
  assert (II : forall y, In y (sl_ins o_id id_cmp o l) <-> (y = o \/ In y l')).
  { intros y. rewrite E. apply ins_del_In. }
  split; cbn [with_objs c_objs c_values c_spatial c_expires c_objects c_nobjects c_points c_weight].
  - apply ins_sorted; auto using order_bytes.
  - destruct (in_values o); auto using ins_sorted, order_vcmp.
  - intros y. rewrite II. apply sidx_ins; auto using order_vcmp. intros x x' Ek. exact (f_equal snd Ek).
  - destruct (in_spatial o); [|assumption]. constructor; [|assumption].
    intros Hin. apply in_map_iff in Hin as [e [Hk He]]. apply Lsp in He. exact (Hfresh _ (proj1 He) Hk).
  - intros e. rewrite II. destruct (in_spatial o) eqn:S; cbn [In]; rewrite Lsp.
    + split.
      * intros [<-|H]; [cbn; auto | tauto].
      * intros ([Eo|Ho] & Hsp & He); [left; rewrite He, Eo; reflexivity | auto].
    + intuition congruence.
  - destruct (in_expires o); auto using ins_sorted, order_ecmp.
  - intros y. rewrite II. apply sidx_ins; auto using order_ecmp. intros x x' Ek. exact (f_equal snd Ek).
  - rewrite ins_del_sum, <- E, Lc1. lia.
  - rewrite ins_del_sum, <- E, Lc2. lia.
  - rewrite ins_del_sum, <- E, Lc3. lia.
  - rewrite ins_del_sum, <- E, Lc4. lia.
Qed.

Lemma cset_wf c o : Wf c -> Wf (cset c o).
Proof.
  intros W. rewrite cset_eq.
  apply add_step; [apply cdelete_wf, W | apply (wf_objs c W) | apply cdelete_objs].
Qed.

Lemma wf_run ops : Wf (run ops).
Proof.
  apply (fold_left_inv apply Wf); [|apply wf_new].
  intros c x _ W. destruct x; cbn; [apply cset_wf | apply cdelete_wf]; auto.
Qed.

Lemma zsum_count_len (l : list obj) :
  zsum (fun o => b2z (o_spatial o)) l + zsum (fun o => b2z (negb (o_spatial o))) l = Z.of_nat (length l).
Proof. induction l as [|a l IH]; cbn [zsum fold_right length]; [reflexivity|].
  unfold zsum in IH. destruct (o_spatial a); cbn [negb b2z]; lia. Qed.

Lemma counters_agree c : Wf c ->
  ccount c = Z.of_nat (length (scan_ids c)) /\
  cstring_count c = zsum (fun o => b2z (negb (o_spatial o))) (scan_ids c) /\
  cpoint_count c = zsum o_npoints (scan_ids c) /\
  ctotal_weight c = zsum o_weight (scan_ids c).
Proof.
  intros W. unfold ccount, cstring_count, cpoint_count, ctotal_weight, scan_ids.
  rewrite (wf_objects c W), (wf_nobjects c W), (wf_points c W), (wf_weight c W), zsum_count_len. auto.
Qed.

Lemma paths_agree c : Wf c ->
  (forall o, In o (scan_ids c) <-> cget c (o_id o) = Some o) /\
  (forall o, In o (search_values c) <-> (cget c (o_id o) = Some o /\ o_spatial o = false)) /\
  (forall o, In o (spatial_list c) <-> (cget c (o_id o) = Some o /\ o_spatial o = true /\ o_empty o = false)) /\
  (forall o, In o (scan_expires c) <-> (cget c (o_id o) = Some o /\ o_ex o <> 0)) /\
  NoDup (map o_id (scan_ids c)) /\ NoDup (map o_id (search_values c)) /\
  NoDup (map o_id (spatial_list c)) /\ NoDup (map o_id (scan_expires c)).
Proof.
  intros W. pose proof (retrievable_iff c W) as R.
  assert (ND : forall l, (forall o, In o l -> In o (c_objs c)) -> NoDup l -> NoDup (map o_id l)).
  { intros l Hl. induction 1 as [|a l Ha Hnd IH]; cbn; constructor.
    - intros Hin. apply in_map_iff in Hin as [b [Hk Hb]].
      rewrite (objs_id_inj c W b a) in Hb; auto using in_eq, in_cons.
    - apply IH. auto using in_cons. }
  repeat apply conj.
  - intros o. symmetry. apply R.
  - intros o. unfold search_values. rewrite (wf_values c W), R. unfold in_values.
    destruct (o_spatial o); cbn; intuition congruence.
  - intros o. unfold spatial_list. rewrite in_map_iff, R. split.
    + intros [e [<- Hin]]. apply (wf_spatial c W) in Hin as (Ho & Hs & _).
      apply andb_true_iff in Hs as [Hs1 Hs2]. apply negb_true_iff in Hs2. auto.
    + intros (Ho & Hs & He). exists (rtree_item o). split; [reflexivity|].
      apply (wf_spatial c W). unfold in_spatial. cbn. rewrite Hs, He. auto.
  - intros o. unfold scan_expires. rewrite (wf_expires c W), R. unfold in_expires.
    destruct (Z.eqb_spec (o_ex o) 0); cbn; intuition congruence.
  - apply (ssorted_NoDup o_id id_cmp order_bytes), (wf_objs c W).
  - apply ND; [intros o Ho; apply (wf_values c W) in Ho; tauto|].
    apply (NoDup_map_inv vkey), (ssorted_NoDup vkey vcmp order_vcmp), (wf_values_sorted c W).
  - unfold spatial_list. rewrite map_map. apply (wf_spatial_nodup c W).
  - apply ND; [intros o Ho; apply (wf_expires c W) in Ho; tauto|].
    apply (NoDup_map_inv ekey), (ssorted_NoDup ekey ecmp order_ecmp), (wf_expires_sorted c W).
Qed.

