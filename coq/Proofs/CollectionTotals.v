(* Server totals (SERVER, SERVER EXT, /metrics) equal the recomputation
   from every retrievable object; hook-registry size equals what HOOKS * + CHANS * list (C19). *)
From Coq Require Import ZifyN ZifyNat ZifyBool.
From T38 Require Import Base.Bytes Model.Float32 Model.Collection Proofs.CollectionProofs.
From T38 Require Import Model.Fence Model.HookReg Proofs.FenceRegProofs.
Import ListNotations.
Local Open Scope Z_scope.

Lemma zsum_app {A} (f : A -> Z) l1 l2 : zsum f (l1 ++ l2) = zsum f l1 + zsum f l2.
Proof. unfold zsum. induction l1 as [|a l IH]; cbn; [reflexivity|]. rewrite IH. lia. Qed.

Lemma zsum_cons {A} (f : A -> Z) a l : zsum f (a :: l) = f a + zsum f l.
Proof. reflexivity. Qed.

Lemma zsum_flat {A B} (g : A -> Z) (f : B -> Z) (p : A -> list B) l :
  (forall a, In a l -> g a = zsum f (p a)) -> zsum g l = zsum f (flat_map p l).
Proof.
  induction l as [|a l IH]; intros H; [reflexivity|].
  cbn [flat_map]. rewrite zsum_cons, zsum_app, (H a (or_introl eq_refl)), IH; [reflexivity|].
  intros b Hb. apply H. right. exact Hb.
Qed.

Lemma zsum_ones {A} (l : list A) : zsum (fun _ => 1) l = Z.of_nat (length l).
Proof. induction l as [|a l IH]; [reflexivity|]. rewrite zsum_cons, IH. cbn [length]. lia. Qed.

Lemma server_totals (cs : cols) : Forall (fun kc => Wf (snd kc)) cs ->
  srv_num_objects cs = Z.of_nat (length (all_objs cs)) /\
  srv_num_strings cs = zsum (fun o => b2z (negb (o_spatial o))) (all_objs cs) /\
  srv_num_points cs = zsum o_npoints (all_objs cs) /\
  srv_in_memory_size cs = zsum o_weight (all_objs cs).
Proof.
  intros W. rewrite Forall_forall in W.
  unfold srv_num_objects, srv_num_strings, srv_num_points, srv_in_memory_size, all_objs.
  repeat split.
  - rewrite <- zsum_ones. apply zsum_flat. intros kc Hk.
    destruct (counters_agree (snd kc) (W kc Hk)) as (C1 & _). rewrite C1, zsum_ones. reflexivity.
  - apply zsum_flat. intros kc Hk. apply (counters_agree (snd kc) (W kc Hk)).
  - apply zsum_flat. intros kc Hk. apply (counters_agree (snd kc) (W kc Hk)).
  - apply zsum_flat. intros kc Hk. apply (counters_agree (snd kc) (W kc Hk)).
Qed.

(* hooks: num_hooks = s.hooks.Len(); HOOKS * lists the hooks, CHANS * the channels of the same
   registry; names are unique after any history of SETHOOK/SETCHAN/DEL*/PDEL*/FLUSHDB/expiry *)
Definition num_hooks (r : reg) : nat := length (hooks r).
Definition hooks_listing (r : reg) : list hook := filter (fun h => negb (h_chan h)) (hooks r).
Definition chans_listing (r : reg) : list hook := filter (fun h => h_chan h) (hooks r).

Lemma filter_partition_length {A} (f : A -> bool) l :
  length l = (length (filter (fun x => negb (f x)) l) + length (filter f l))%nat.
Proof. induction l as [|a l IH]; cbn; [reflexivity|]. destruct (f a); cbn; lia. Qed.

Lemma hook_totals ops :
  let r := reg_run ops in
  num_hooks r = (length (hooks_listing r) + length (chans_listing r))%nat /\
  NoDup (map h_name (hooks r)) /\
  (forall h, In h (hookExpires r) -> In h (hooks r)) /\
  (forall h, In h (hookTree r) -> In h (hooks r)) /\
  (forall h, In h (hookCross r) -> In h (hooks r)) /\
  (forall h, In h (hooksOut r) -> In h (hooks r)).
Proof.
  cbv zeta. pose proof (registry_inv ops) as I. destruct I as [I1 I2 I3 I4 I5].
  split; [apply filter_partition_length|]. split; [exact I1|].
  repeat split; intros h Hh.
  - apply I5 in Hh. tauto.
  - apply I3 in Hh. tauto.
  - apply I4 in Hh. tauto.
  - apply I2 in Hh. tauto.
Qed.
