(* Every concurrent execution of lock-protected critical sections equals the sequential execution
   of the writers in acquisition (= log) order; readers only ever observe states after a complete
   prefix of that order, and all observations of one read section are the same state. *)
From Coq Require Import List Arith Bool Lia.
From T38 Require Import Base.ListFacts Model.Conc.
Import ListNotations.

Section ConcProofs.
Variable S : Type.
Variable micro : Type.
Variable apply : S -> micro -> S.
Variable s0 : S.

Notation gstate := (gstate S micro).
Notation seq := (seq_state S micro apply s0).
Notation step := (step S micro apply).
Notation run := (run S micro apply).

Definition pending (g : gstate) : list micro :=
  match writer _ _ g with Some (_, rem) => rem | None => [] end.

(* at EVERY instant, also in the middle of a writer's section: once the pending updates are applied,
   the dataset is the sequential result of the log *)
Record Inv (g : gstate) : Prop := mkInv {
  i_seq : fold_left apply (pending g) (shared _ _ g) = seq (log _ _ g);
  i_excl : writer _ _ g <> None -> readers _ _ g = [];
  i_cur : forall t k seen, In (t, (k, seen)) (readers _ _ g) -> forall x, In x seen -> x = shared _ _ g;
  i_fin : forall seen, In seen (finished _ _ g) ->
            exists k, k <= length (log _ _ g) /\ forall x, In x seen -> x = seq (firstn k (log _ _ g)) }.

Lemma seq_app l ms : seq (l ++ [ms]) = fold_left apply ms (seq l).
Proof. unfold seq_state. rewrite fold_left_app. reflexivity. Qed.

Lemma lookup_in t l k seen : lookup S t l = Some (k, seen) -> In (t, (k, seen)) l.
Proof.
  induction l as [|[t' x] l IH]; cbn; [discriminate|].
  destruct (Nat.eqb_spec t' t) as [->|]; [intros H; inversion H; left; reflexivity | intros H; right; exact (IH H)].
Qed.

Lemma remove_t_in t l u y : In (u, y) (remove_t S t l) -> In (u, y) l.
Proof.
  induction l as [|[t' x] l IH]; cbn; [tauto|].
  destruct (Nat.eqb t' t); [intros H; right; exact (IH H)|].
  intros [H|H]; [left; exact H | right; exact (IH H)].
Qed.

Lemma inv_init prog : Inv (init S micro s0 prog).
Proof. constructor; cbn; [reflexivity | reflexivity | intros t k seen [] | intros seen []]. Qed.

(* a thread that is not the writer inside its section: it goes on reading, or starts a section *)
Definition other_step (g : gstate) (t : nat) : gstate :=
  match lookup S t (readers _ _ g) with
  | Some (k, seen) => reader_step S micro g t k seen
  | None => idle_step S micro g t
  end.

(* while a writer is inside, the other threads wait: none of them is reading, none can enter *)
Lemma other_blocked g t wr : Inv g -> writer _ _ g = Some wr -> other_step g t = g.
Proof.
  intros J Ew. unfold other_step, idle_step. rewrite (i_excl g J), Ew by (rewrite Ew; discriminate). cbn [lookup].
  destruct (todo _ _ g t) as [|[ms|n] rest]; reflexivity.
Qed.

Lemma other_inv g t : Inv g -> writer _ _ g = None -> Inv (other_step g t).
Proof.
  (* no writer is inside: the dataset is the result of the whole log *)
  intros J Ew. pose proof J as [Jseq _ Jcur Jfin]. unfold pending in Jseq. rewrite Ew in Jseq. cbn [fold_left] in Jseq.
  unfold other_step. destruct (lookup S t (readers _ _ g)) as [[k seen]|] eqn:El.
  - apply lookup_in in El.
    assert (Hrest : forall u k0 sn, In (u, (k0, sn)) (remove_t S t (readers _ _ g)) -> forall x, In x sn -> x = shared _ _ g)
      by (intros u k0 sn Hin; exact (Jcur _ _ _ (remove_t_in _ _ _ _ Hin))).
    unfold reader_step. destruct k as [|k']; constructor; unfold pending; cbn [shared log writer readers finished];
      rewrite ?Ew; try assumption; try (intros H; destruct (H eq_refl)).
    + intros sn [<-|Hin]; [|exact (Jfin _ Hin)].
      exists (length (log _ _ g)). split; [apply Nat.le_refl|]. intros x Hx.
      rewrite firstn_all, <- Jseq. exact (Jcur _ _ _ El x Hx).
    + intros u k0 sn [[= <- <- <-]|Hin] x Hx; [|exact (Hrest _ _ _ Hin x Hx)].
      apply in_app_or in Hx as [Hx|[<-|[]]]; [exact (Jcur _ _ _ El x Hx) | reflexivity].
  - unfold idle_step. rewrite Ew. destruct (todo _ _ g t) as [|[ms|n] rest]; [exact J | |].
    + (* a writer enters: the log gets its section, all of it pending *)
      destruct (readers _ _ g) eqn:Er; [|exact J].
      constructor; unfold pending; cbn [shared log writer readers finished].
      * rewrite seq_app, Jseq. reflexivity.
      * reflexivity.
      * intros u k0 sn [].
      * intros sn Hin. destruct (Jfin _ Hin) as [k [Hk Hx]]. exists k. rewrite app_length.
        split; [exact (Nat.le_trans _ _ _ Hk (Nat.le_add_r _ _))|].
        rewrite firstn_le_app by exact Hk. exact Hx.
    + (* a reader enters *)
      constructor; unfold pending; cbn [shared log writer readers finished]; [exact Jseq | intros H; destruct (H eq_refl) | | exact Jfin].
      intros u k0 sn [[= <- <- <-]|Hin]; [intros x [] | exact (Jcur _ _ _ Hin)].
Qed.

Lemma step_inv g t : Inv g -> Inv (step g t).
Proof.
  intros J. pose proof J as [Jseq Jex Jcur Jfin]. unfold Conc.step. fold (other_step g t).
  destruct (writer _ _ g) as [[w rem]|] eqn:Ew; [|exact (other_inv g t J Ew)].
  destruct (Nat.eqb w t); [|rewrite (other_blocked g t _ J Ew); exact J].
  unfold pending in Jseq. rewrite Ew in Jseq. assert (Hr : readers _ _ g = []) by (apply Jex; discriminate).
  destruct rem as [|m r]; constructor; unfold pending; cbn [shared log writer readers finished]; try assumption.
  - (* release *) intros H. destruct (H eq_refl).
  - (* one update applied: one fewer pending *) intros _. exact Hr.
  - rewrite Hr. intros u k0 sn [].
Qed.

Theorem run_inv prog sched : Inv (run (init S micro s0 prog) sched).
Proof.
  unfold Conc.run. apply fold_left_inv; [intros g t _; apply step_inv | apply inv_init].
Qed.

(* whenever no writer is inside its critical section, the dataset is the sequential result of the
   log; every completed read section saw one single state, the result of a complete prefix of the
   log; no read section is open while a writer is inside *)
Theorem linearizable prog sched :
  let g := run (init S micro s0 prog) sched in
  (writer _ _ g = None -> shared _ _ g = seq (log _ _ g)) /\
  (forall seen, In seen (finished _ _ g) ->
     exists k, k <= length (log _ _ g) /\ forall x, In x seen -> x = seq (firstn k (log _ _ g))) /\
  (forall t rem, writer _ _ g = Some (t, rem) -> readers _ _ g = []).
Proof.
  cbn zeta. destruct (run_inv prog sched) as [Jseq Jex _ Jfin].
  split; [|split; [exact Jfin|]].
  - intros Hw. unfold pending in Jseq. rewrite Hw in Jseq. exact Jseq.
  - intros t rem H. apply Jex. rewrite H. discriminate.
Qed.

End ConcProofs.
