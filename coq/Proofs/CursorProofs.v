(* C11 — lemmas about Model/Cursor.v: one page, the client loop, the instances. *)
From Coq Require Import List NArith ZArith Bool Lia ZifyN ZifyNat ZifyBool Sorted.
From T38 Require Import Base.Bytes Base.ListFacts Model.Cursor.
Import ListNotations.
Open Scope N_scope.

Section CursorProofs.
  Context {A : Type}.
  Variable test : A -> bool.
  Variable stop : A -> bool.

  Notation iterate := (iterate test stop).
  Notation page := (page test stop).
  Notation pages_from := (pages_from test stop).
  Notation pages := (pages test stop).
  Notation unlimited := (unlimited test stop).
  Notation until_stop := (until_stop stop).

  Lemma next_step_eq step (w : sw (A := A)) : next_step step w = sw_step w 1.
  Proof. unfold next_step. destruct (yields step); reflexivity. Qed.

  Lemma unlimited_cons o r : unlimited (o :: r) = if stop o then [] else filter test [o] ++ unlimited r.
  Proof.
    unfold Cursor.unlimited. cbn [Cursor.until_stop filter]. destruct (stop o); [reflexivity|].
    cbn [filter]. destruct (test o); reflexivity.
  Qed.

  Lemma until_stop_prefix src : exists post, src = until_stop src ++ post.
  Proof.
    induction src as [|o r [post IH]]; cbn [Cursor.until_stop].
    - exists []. reflexivity.
    - destruct (stop o).
      + exists (o :: r). reflexivity.
      + exists post. cbn [app]. f_equal. exact IH.
  Qed.

  Lemma push_object_spec limit (w : sw (A := A)) o :
    sw_items w < limit ->
    let w1 := fst (push_object test limit w o) in
    let keepon := snd (push_object test limit w o) in
    sw_iters w1 = sw_iters w /\
    sw_filled w1 = sw_filled w ++ filter test [o] /\
    sw_items w1 = sw_items w + N.of_nat (length (filter test [o])) /\
    (if keepon then sw_items w1 < limit /\ sw_hit w1 = sw_hit w else sw_items w1 = limit /\ sw_hit w1 = true).
  Proof.
    intros Hl. unfold push_object. cbn [filter]. destruct (test o).
    - cbn [sw_items sw_iters sw_hit sw_filled length].
      destruct (sw_items w + 1 =? limit) eqn:E; cbn [fst snd sw_items sw_iters sw_hit sw_filled];
        repeat split; lia.
    - cbn [fst snd length]. rewrite app_nil_r. repeat split; lia.
  Qed.

  Lemma iterate_active limit offset : forall rest count w,
    offset <= count -> sw_hit w = false -> sw_items w < limit ->
    let w' := iterate limit offset rest count w in
    (sw_hit w' = false /\ sw_filled w' = sw_filled w ++ unlimited rest /\
     sw_items w + N.of_nat (length (unlimited rest)) < limit)
    \/
    (sw_hit w' = true /\
     exists pre post, rest = pre ++ post /\ unlimited rest = filter test pre ++ unlimited post /\
       sw_iters w' = sw_iters w + N.of_nat (length pre) /\
       sw_filled w' = sw_filled w ++ filter test pre /\
       sw_items w + N.of_nat (length (filter test pre)) = limit).
  Proof.
    induction rest as [|o rest IH]; intros count w Hoff Hhit Hitems; cbn zeta; cbn [Cursor.iterate].
    { left. rewrite app_nil_r, N.add_0_r. auto. }
    replace (count + 1 <=? offset) with false by lia. rewrite next_step_eq, unlimited_cons.
    destruct (stop o).
    { left. rewrite app_nil_r, N.add_0_r. auto. }
    pose proof (push_object_spec limit (sw_step w 1) o Hitems) as P. cbn zeta in P.
    destruct (push_object test limit (sw_step w 1) o) as [w1 keepon].
    cbn [fst snd sw_step sw_iters sw_items sw_filled sw_hit] in P.
    destruct P as (Pi & Pf & Pn & Pk). rewrite Hhit in Pk.
    destruct keepon; destruct Pk as [Pl Ph].
    - (* the walk goes on from w1: put o in front of what the rest of the run yields *)
      destruct (IH (count + 1) w1) as [(Hh & Hf & Hlt) | (Hh & pre & post & -> & Hu & Hi & Hf & Hl)];
        [lia | exact Ph | exact Pl | left | right]; clear IH; (split; [exact Hh|]).
      + rewrite Hf, Pf, <- app_assoc, app_length. split; [reflexivity | lia].
      + exists (o :: pre), post. change (o :: pre) with ([o] ++ pre).
        rewrite filter_app, !app_length, Hi, Hf, Pf, Pi, Hu, <- !app_assoc.
        repeat apply conj; [reflexivity | reflexivity | clear; cbn [length]; lia | reflexivity | clear - Pn Hl; lia].
    - (* the limit is reached at o *)
      right. split; [exact Ph|]. exists [o], rest. rewrite Pi, Pf.
      repeat apply conj; [reflexivity | reflexivity | reflexivity | reflexivity | lia].
  Qed.

  Definition rest_at (src : list A) (c : N) : list A := skipn (N.to_nat c) src.

  Lemma iterate_offset limit offset w : forall src count, count <= offset ->
    iterate limit offset src count w = iterate limit offset (rest_at src (offset - count)) offset w.
  Proof.
    unfold rest_at. induction src as [|o src IH]; intros count H; [now rewrite skipn_nil|].
    destruct (N.eq_dec count offset) as [->|Hne]; [now rewrite N.sub_diag|].
    cbn [Cursor.iterate]. replace (count + 1 <=? offset) with true by lia. rewrite IH by lia.
    replace (N.to_nat (offset - count)) with (S (N.to_nat (offset - (count + 1)))) by lia. reflexivity.
  Qed.

  (* one query, completely described:
     either the reply cursor is 0 and the reply holds everything the unlimited query returns
     from position `c` on, or the limit was hit at the end of a block `pre` of entries following
     position c, the reply is exactly the accepted entries of that block (there are `limit` of
     them), the reply cursor is the position right after the block, and the unlimited query goes on
     behind the block. *)
  Lemma page_spec src c limit :
    1 <= limit ->
    (snd (page src c limit) = 0 /\ fst (page src c limit) = unlimited (rest_at src c) /\
     N.of_nat (length (unlimited (rest_at src c))) < limit)
    \/
    (exists pre post, rest_at src c = pre ++ post /\
       unlimited (rest_at src c) = filter test pre ++ unlimited post /\
       snd (page src c limit) = c + N.of_nat (length pre) /\
       fst (page src c limit) = filter test pre /\
       N.of_nat (length (filter test pre)) = limit).
  Proof.
    intros Hl. unfold Cursor.page. rewrite iterate_offset, N.sub_0_r by lia. cbn [fst snd].
    set (w0 := sw_step (mkSW 0 0 false []) c).
    destruct (iterate_active limit c (rest_at src c) c w0 (N.le_refl c) eq_refl ltac:(cbn; lia))
      as [(Hh & Hf & Hn) | [Hh (pre & post & Hr & Hu & Hi & Hf & Hn)]]; rewrite Hh, Hf; [left | right].
    - auto.
    - exists pre, post. rewrite Hi. cbn in Hn |- *. auto 6.
  Qed.

  (* ... hence the items of one reply are the first `limit` of what the unlimited query returns from c on *)
  Theorem page_firstn src c limit :
    1 <= limit -> fst (page src c limit) = firstn (N.to_nat limit) (unlimited (rest_at src c)).
  Proof.
    intros Hl. destruct (page_spec src c limit Hl) as [(_ & -> & Hn) | (pre & post & _ & -> & _ & -> & Hn)].
    - symmetry. apply firstn_all2. lia.
    - replace (N.to_nat limit) with (length (filter test pre)) by lia. symmetry. apply firstn_app_exact.
  Qed.

  Lemma skipn_plus : forall b (l : list A) a, skipn (a + b) l = skipn a (skipn b l).
  Proof.
    induction b as [|b IH]; intros l a.
    - rewrite Nat.add_0_r. reflexivity.
    - rewrite Nat.add_succ_r. destruct l as [|x l]; [now rewrite !skipn_nil|]. cbn [skipn]. apply IH.
  Qed.

  Lemma rest_at_advance src c pre post :
    rest_at src c = pre ++ post -> rest_at src (c + N.of_nat (length pre)) = post.
  Proof.
    unfold rest_at. intros H.
    replace (N.to_nat (c + N.of_nat (length pre))) with (length pre + N.to_nat c)%nat by lia.
    rewrite skipn_plus. rewrite H. apply skipn_app_exact.
  Qed.

  (* a 0 cursor only when nothing remains: the reply with cursor 0 holds everything that the
     unlimited query returns from the position the query started at *)
  Theorem zero_cursor src c limit :
    1 <= limit -> snd (page src c limit) = 0 ->
    fst (page src c limit) = unlimited (rest_at src c).
  Proof.
    intros Hl Hz. destruct (page_spec src c limit Hl) as [(_ & Hi & _) | (pre & post & _ & _ & Hc & _ & Hn)].
    - exact Hi.
    - pose proof (filter_length_le test pre). lia.
  Qed.

  (* a LIMIT above what the unlimited query returns from c on: one reply holds all of it *)
  Theorem page_above_limit src c limit :
    N.of_nat (length (unlimited (rest_at src c))) < limit -> page src c limit = (unlimited (rest_at src c), 0).
  Proof.
    intros H. destruct (page_spec src c limit ltac:(lia)) as [(Hz & Hi & _) | (pre & post & _ & Hu & _ & _ & Hn)].
    - rewrite (surjective_pairing (page src c limit)), Hz, Hi. reflexivity.
    - exfalso. rewrite Hu, app_length in H. lia.
  Qed.

  (* a non-zero cursor: exactly `limit` items were returned, they are the accepted entries of the
     block [c, c'), what follows the block is what remains, and c < c' <= number of index entries *)
  Theorem nonzero_cursor src c limit :
    1 <= limit -> snd (page src c limit) <> 0 ->
    let c' := snd (page src c limit) in
    c < c' /\ c' <= N.of_nat (length src) /\
    N.of_nat (length (fst (page src c limit))) = limit /\
    fst (page src c limit) = filter test (firstn (N.to_nat (c' - c)) (rest_at src c)) /\
    unlimited (rest_at src c) = fst (page src c limit) ++ unlimited (rest_at src c').
  Proof.
    intros Hl Hz. cbn zeta.
    destruct (page_spec src c limit Hl) as [(Hz' & _) | (pre & post & Hr & Hu & Hc & Hi & Hn)]; [congruence|].
    pose proof (filter_length_le test pre) as Hlp.
    assert (Hlen : (length pre <= length src - N.to_nat c)%nat).
    { unfold rest_at in Hr. apply (f_equal (@length A)) in Hr. rewrite skipn_length, app_length in Hr. lia. }
    rewrite Hc, Hi. repeat split; try lia.
    - rewrite Hr. replace (N.to_nat (c + N.of_nat (length pre) - c)) with (length pre) by lia.
      now rewrite firstn_app_exact.
    - rewrite (rest_at_advance _ _ _ _ Hr). exact Hu.
  Qed.

  (* the client loop: a non-zero cursor moves on by at least one entry and hands over exactly what remains *)
  Lemma pages_from_spec limit src : 1 <= limit -> forall fuel c,
    (length src - N.to_nat c < fuel)%nat ->
    exists ps, pages_from fuel src limit c = Pages ps /\ concat ps = unlimited (rest_at src c).
  Proof.
    intros Hl. induction fuel as [|fuel IH]; intros c Hf; [lia|].
    cbn [Cursor.pages_from].
    pose proof (zero_cursor src c limit Hl) as Hz. pose proof (nonzero_cursor src c limit Hl) as Hnz. cbn zeta in Hnz.
    destruct (page src c limit) as [items c']. cbn [fst snd] in *.
    destruct (N.eqb_spec c' 0) as [E|E].
    - exists [items]. split; [reflexivity|]. cbn [concat]. rewrite app_nil_r. exact (Hz E).
    - destruct (Hnz E) as (Hlt & Hle & _ & _ & Hu). destruct (IH c') as (ps & -> & Hcat); [lia|].
      exists (items :: ps). split; [reflexivity|]. cbn [concat]. now rewrite Hcat.
  Qed.

  Theorem pages_complete src limit :
    1 <= limit ->
    exists ps, pages src limit = Pages ps /\ concat ps = unlimited src.
  Proof. intros Hl. apply (pages_from_spec limit src Hl (S (length src)) 0). cbn. lia. Qed.

  Corollary pages_concat src limit ps : 1 <= limit -> pages src limit = Pages ps -> concat ps = unlimited src.
  Proof. intros Hl Hp. destruct (pages_complete src limit Hl) as (ps' & H1 & H2). congruence. Qed.

  Corollary pages_when src limit u :
    1 <= limit -> unlimited src = u -> exists ps, pages src limit = Pages ps /\ concat ps = u.
  Proof. intros Hl <-. exact (pages_complete src limit Hl). Qed.

  Lemma unlimited_nodup src : NoDup src -> NoDup (unlimited src).
  Proof.
    intros Hnd. apply NoDup_filter. destruct (until_stop_prefix src) as [post E]. rewrite E in Hnd.
    exact (NoDup_app_l _ _ Hnd).
  Qed.

  Lemma count_iterate_spec limit offset : forall src count n, n < limit ->
    count_iterate test stop limit offset src count n =
    N.min limit (n + N.of_nat (length (unlimited (rest_at src (offset - count))))).
  Proof.
    unfold rest_at. induction src as [|o rest IH]; intros count n Hn; cbn [Cursor.count_iterate].
    { rewrite skipn_nil. cbn. lia. }
    destruct (N.leb_spec (count + 1) offset) as [E|E].
    - rewrite IH by exact Hn. replace (N.to_nat (offset - count)) with (S (N.to_nat (offset - (count + 1)))) by lia.
      reflexivity.
    - replace (offset - count) with 0 by lia. cbn [N.to_nat skipn]. rewrite unlimited_cons.
      destruct (stop o); [cbn; lia|]. specialize (IH (count + 1)).
      replace (offset - (count + 1)) with 0 in IH by lia. cbn [N.to_nat skipn] in IH.
      cbn [filter]. destruct (test o); [|exact (IH n Hn)]. cbn [length app].
      destruct (N.ltb_spec (n + 1) limit) as [F|F]; [rewrite IH by exact F|]; lia.
  Qed.

  Theorem count_query_spec src c limit :
    1 <= limit -> count_query test stop src c limit = N.min limit (N.of_nat (length (unlimited (rest_at src c)))).
  Proof. intros Hl. unfold count_query. rewrite count_iterate_spec by lia. now rewrite N.sub_0_r. Qed.

  (* COUNT with the same cursor and LIMIT = the number of items the item outputs return *)
  Theorem count_eq_items src c limit :
    1 <= limit -> count_query test stop src c limit = N.of_nat (length (fst (page src c limit))).
  Proof. intros Hl. rewrite count_query_spec, page_firstn, firstn_length by exact Hl. lia. Qed.

End CursorProofs.

Lemma until_stop_none {A} (stop : A -> bool) (l : list A) :
  (forall x, In x l -> stop x = false) -> until_stop stop l = l.
Proof.
  induction l as [|x r IH]; intros H; cbn [until_stop]; [reflexivity|].
  rewrite (H x (or_introl eq_refl)), IH; [reflexivity | auto using in_cons].
Qed.

Lemma until_stop_false {A} (l : list A) : until_stop (fun _ => false) l = l.
Proof. apply until_stop_none. reflexivity. Qed.

Lemma unlimited_no_stop {A} (test : A -> bool) l : unlimited test (fun _ => false) l = filter test l.
Proof. unfold unlimited. now rewrite until_stop_false. Qed.

Lemma until_stop_monotone {A} (R : A -> A -> Prop) (stop : A -> bool) l :
  StronglySorted R l -> (forall x y, R x y -> stop x = true -> stop y = true) ->
  until_stop stop l = filter (fun x => negb (stop x)) l.
Proof.
  intros Hs Hm. induction Hs as [|x r Hs IH Hx]; cbn [until_stop filter]; [reflexivity|].
  destruct (stop x) eqn:E; cbn [negb].
  - symmetry. apply filter_none. intros y Hy. rewrite Forall_forall in Hx.
    now rewrite (Hm x y (Hx y Hy) E).
  - now rewrite IH.
Qed.

Lemma filter_drop_while {A} (P f : A -> bool) (l : list A) :
  (forall x, P x = true -> f x = false) -> filter P (drop_while f l) = filter P l.
Proof.
  intros HP. induction l as [|x r IH]; cbn [drop_while filter]; [reflexivity|].
  destruct (f x) eqn:Ef; [|reflexivity].
  rewrite IH. destruct (P x) eqn:Px; [|reflexivity].
  apply HP in Px. congruence.
Qed.

Lemma drop_while_sorted {A} (R : A -> A -> Prop) (f : A -> bool) (l : list A) :
  StronglySorted R l -> StronglySorted R (drop_while f l).
Proof.
  induction 1 as [|x r Hs IH Hx]; cbn [drop_while]; [constructor|].
  destruct (f x); [exact IH | constructor; assumption].
Qed.

(* a range walk over a sorted index — skip to the start, stop at the end of the range — under a filter that
   accepts nothing outside the range: the range changes nothing *)
Theorem range_walk_filter {A} (R : A -> A -> Prop) (P skip stop : A -> bool) (l : list A) :
  StronglySorted R l ->
  (forall a b, R a b -> stop a = true -> stop b = true) ->
  (forall x, P x = true -> skip x = false /\ stop x = false) ->
  filter P (until_stop stop (drop_while skip l)) = filter P l.
Proof.
  intros Hs Hmono HP. rewrite (until_stop_monotone R), filter_filter by auto using drop_while_sorted.
  rewrite <- (filter_drop_while P skip l) by (intros x Hx; apply HP, Hx).
  apply filter_ext. intros x. destruct (P x) eqn:Px; [rewrite (proj2 (HP x Px)) | rewrite andb_false_r]; reflexivity.
Qed.

Definition asc_sorted (ids : list bytes) : Prop := StronglySorted (fun a b => bytes_ltb a b = true) ids.

Lemma ascend_from_sorted start ids :
  asc_sorted ids -> ascend_from start ids = filter (fun x => bytes_leb start x) ids.
Proof.
  induction 1 as [|x r Hs IH Hx]; cbn [ascend_from filter]; [reflexivity|].
  destruct (bytes_leb start x) eqn:E; [|exact IH].
  f_equal. symmetry. apply filter_all. intros y Hy. rewrite Forall_forall in Hx.
  eapply bytes_leb_trans; [exact E | apply bytes_ltb_leb, (Hx y Hy)].
Qed.

(* the ids a range-limited scan is meant to deliver *)
Definition in_range (desc : bool) (start end_ : bytes) (x : bytes) : bool :=
  if desc then bytes_leb x start && bytes_ltb end_ x
  else bytes_leb start x && bytes_ltb x end_.

Theorem scan_range_pages test desc start end_ ids limit :
  asc_sorted ids -> 1 <= limit ->
  exists ps, pages test (scan_range_stop desc end_) (scan_range_src desc start ids) limit = Pages ps /\
             concat ps = filter test (scan_src desc (filter (in_range desc start end_) ids)).
Proof.
  intros Hs Hl. apply pages_when; [exact Hl|]. unfold unlimited. f_equal.
  destruct desc; cbn [scan_range_src scan_src].
  - unfold descend_from.
    rewrite (until_stop_monotone (fun a b => bytes_ltb b a = true)).
    + rewrite filter_rev, filter_filter. f_equal. apply filter_ext. intros x.
      unfold in_range, scan_range_stop. now rewrite bytes_ltb_negb_leb.
    + apply SS_rev. apply SS_filter. exact Hs.
    + unfold scan_range_stop. intros x y Hxy Hx.
      eapply bytes_leb_trans; [apply bytes_ltb_leb; exact Hxy | exact Hx].
  - rewrite (ascend_from_sorted _ _ Hs).
    rewrite (until_stop_monotone (fun a b => bytes_ltb a b = true)).
    + rewrite filter_filter. apply filter_ext. intros x.
      unfold in_range, scan_range_stop. now rewrite bytes_ltb_negb_leb.
    + apply SS_filter. exact Hs.
    + unfold scan_range_stop. intros x y Hxy Hx.
      eapply bytes_leb_trans; [exact Hx | apply bytes_ltb_leb; exact Hxy].
Qed.

(* the COUNT shortcut (no filter, no early exit): index size minus cursor, capped by LIMIT *)
Theorem count_shortcut_exact {A} (src : list A) cursor limit :
  1 <= limit ->
  count_shortcut src cursor limit = count_query (fun _ => true) (fun _ => false) src cursor limit.
Proof.
  intros Hl. rewrite count_query_spec by exact Hl. unfold count_shortcut, unlimited, rest_at.
  rewrite until_stop_false, filter_all, skipn_length by reflexivity. cbn zeta.
  destruct (N.leb_spec (N.of_nat (length src)) cursor);
    match goal with |- context [?a <? ?b] => destruct (N.ltb_spec a b) end; lia.
Qed.

Lemma page_big_limit {A} (test stop : A -> bool) (src : list A) limit :
  N.of_nat (length src) < limit -> page test stop src 0 limit = (unlimited test stop src, 0).
Proof.
  intros H. apply (page_above_limit test stop src 0). unfold rest_at, unlimited. cbn [N.to_nat skipn].
  destruct (until_stop_prefix stop src) as [post E]. apply (f_equal (@length A)) in E. rewrite app_length in E.
  pose proof (filter_length_le test (until_stop stop src)). lia.
Qed.
