(* The expiry index is exactly the set of objects with a deadline, sorted; hence the sweeper, with
   its early stop, removes exactly the objects whose deadline has passed, never one whose deadline
   is in the future or absent, and an overwritten / persisted / deleted object leaves no stale entry. *)
From Coq Require Import ZArith List Bool Lia Sorted.
From T38 Require Import Base.Bytes Base.ListFacts Model.Expire.
Import ListNotations.
Local Open Scope Z_scope.

Lemma entry_eqb_spec a b : reflect (a = b) (entry_eqb a b).
Proof.
  destruct a as [e1 i1], b as [e2 i2]. unfold entry_eqb; cbn. apply iff_reflect.
  rewrite andb_true_iff, Z.eqb_eq, bytes_eqb_eq. split; [intros [= -> ->]; auto | intros [-> ->]; reflexivity].
Qed.

Definition plt (a b : entry) : Prop := ple a b = true /\ a <> b.

(* byExpires is the lexicographic order on (deadline, id) *)
Lemma ple_spec a b :
  ple a b = true <-> fst a < fst b \/ fst a = fst b /\ bytes_leb (snd a) (snd b) = true.
Proof.
  unfold ple. destruct (Z.ltb_spec (fst a) (fst b)), (Z.eqb_spec (fst a) (fst b)); split; auto; lia.
Qed.

Lemma ple_refl a : ple a a = true.
Proof. apply ple_spec. right. split; [reflexivity | apply bytes_leb_refl]. Qed.

Lemma ple_total a b : ple a b = false -> ple b a = true.
Proof.
  intros H. apply ple_spec. apply not_true_iff_false in H. rewrite ple_spec in H.
  destruct (Z.lt_trichotomy (fst a) (fst b)) as [L|[E|L]]; [tauto | | auto].
  right. split; [auto|]. destruct (bytes_leb_total (snd a) (snd b)); [tauto | assumption].
Qed.

Lemma ple_trans a b c : ple a b = true -> ple b c = true -> ple a c = true.
Proof.
  rewrite !ple_spec. intros [L1|[E1 B1]] [L2|[E2 B2]].
  - left. eapply Z.lt_trans; eauto.
  - left. rewrite <- E2. exact L1.
  - left. rewrite E1. exact L2.
  - right. split; [congruence | eapply bytes_leb_trans; eauto].
Qed.

Lemma ple_antisym a b : ple a b = true -> ple b a = true -> a = b.
Proof.
  rewrite !ple_spec. intros [L1|[E1 B1]] [L2|[E2 B2]].
  - destruct (Z.lt_asymm _ _ L1 L2).
  - rewrite E2 in L1. destruct (Z.lt_irrefl _ L1).
  - rewrite E1 in L2. destruct (Z.lt_irrefl _ L2).
  - destruct a, b; cbn [fst snd] in *. f_equal; [assumption | apply bytes_leb_antisym; assumption].
Qed.

Lemma plt_trans a b c : plt a b -> plt b c -> plt a c.
Proof.
  intros [H1 N1] [H2 N2]. split; [eapply ple_trans; eauto|].
  intros ->. apply N1. apply ple_antisym; assumption.
Qed.

Lemma ple_fst a b : ple a b = true -> fst a <= fst b.
Proof. rewrite ple_spec. lia. Qed.

Definition sorted (l : list entry) : Prop := StronglySorted plt l.

Lemma In_insert x l e : In e (insert x l) <-> e = x \/ In e l.
Proof.
  induction l as [|y r IH]; cbn [insert In]; [split; intros [->|[]]; auto|].
  destruct (entry_eqb_spec x y) as [->|_].
  - cbn [In]. split; [auto|]. intros [->|H]; auto.
  - destruct (ple x y); cbn [In]; [split; intros [->|H]; auto|].
    rewrite IH. split; intros [H|[H|H]]; auto.
Qed.

Lemma insert_sorted x l : sorted l -> sorted (insert x l).
Proof.
  intros Hs. induction l as [|y r IH]; cbn; [repeat constructor|].
  inversion Hs as [|? ? Hr Hall]; subst.
  destruct (entry_eqb_spec x y) as [_|Hne]; [exact Hs|].
  destruct (ple x y) eqn:P.
  - constructor; [exact Hs|]. constructor; [split; assumption|].
    rewrite Forall_forall in *. intros z Hz. eapply plt_trans; [split; [exact P | exact Hne] | apply Hall; exact Hz].
  - constructor; [apply IH; exact Hr|].
    rewrite Forall_forall in *. intros z Hz. apply In_insert in Hz as [->|Hz]; [|apply Hall; exact Hz].
    split; [apply ple_total; exact P | congruence].
Qed.

Lemma insert_present x l : In x l -> sorted l -> insert x l = l.
Proof.
  intros Hin Hs. induction l as [|y r IH]; [destruct Hin|]. cbn.
  destruct (entry_eqb_spec x y) as [_|Hne]; [reflexivity|].
  destruct Hin as [->|Hin]; [congruence|].
  inversion Hs as [|? ? Hr Hall]; subst. rewrite Forall_forall in Hall.
  destruct (Hall x Hin) as [Hyx Hn].
  destruct (ple x y) eqn:P.
  - exfalso. apply Hne. apply ple_antisym; assumption.
  - rewrite (IH Hin Hr). reflexivity.
Qed.

Lemma sorted_NoDup l : sorted l -> NoDup l.
Proof. apply SS_NoDup. intros x [_ N]. exact (N eq_refl). Qed.

(* a sorted index holds an entry at most once: taking out its first occurrence takes out all *)
Lemma remove_filter x l : sorted l -> remove x l = filter (fun y => negb (entry_eqb x y)) l.
Proof.
  induction 1 as [|y r _ IH Hall]; cbn; [reflexivity|].
  destruct (entry_eqb_spec x y) as [->|_]; cbn; [|rewrite IH; reflexivity].
  symmetry. apply filter_all. rewrite Forall_forall in Hall. intros z Hz.
  destruct (entry_eqb_spec y z) as [->|_]; [destruct (Hall z Hz) as [_ N]; destruct N |]; reflexivity.
Qed.

Lemma In_remove x l e : sorted l -> (In e (remove x l) <-> In e l /\ e <> x).
Proof.
  intros Hs. rewrite (remove_filter x l Hs), filter_In.
  destruct (entry_eqb_spec x e) as [->|N]; cbn; split; intros [H1 H2]; (split; [exact H1|]); congruence.
Qed.

Lemma remove_sorted x l : sorted l -> sorted (remove x l).
Proof. intros Hs. rewrite (remove_filter x l Hs). apply SS_filter, Hs. Qed.

Lemma lookup_del id id' l : lookup id' (del_id id l) = if bytes_eqb id id' then None else lookup id' l.
Proof.
  induction l as [|[i o] r IH]; cbn [del_id lookup]; [destruct (bytes_eqb id id'); reflexivity|].
  destruct (bytes_eqb_spec i id) as [->|Hne]; cbn [lookup]; rewrite IH.
  - destruct (bytes_eqb id id'); reflexivity.
  - destruct (bytes_eqb_spec i id') as [->|_]; [|reflexivity].
    destruct (bytes_eqb_spec id id') as [E|_]; [destruct Hne; symmetry; exact E | reflexivity].
Qed.

Definition Wf (c : coll) : Prop :=
  sorted (expires c) /\
  forall e, In e (expires c) <-> exists o, lookup (snd e) (objs c) = Some o /\ o_ex o = fst e /\ fst e <> 0.

Lemma wf_new : Wf cnew.
Proof. split; [constructor|]. intros e; cbn. split; [tauto | intros [o [H _]]; discriminate]. Qed.

(* the index entries of a stored id are exactly its own deadline, whatever deadlines the id had
   before: re-declaring it MOVES the deadline, declaring it without one leaves it no entry.
   (Hooks and channels: id = name, payload = definition.) *)
Theorem own_entry_only c id o : Wf c -> lookup id (objs c) = Some o ->
  forall e, snd e = id -> (In e (expires c) <-> o_ex o <> 0 /\ e = (o_ex o, id)).
Proof.
  intros [_ Hw] Hl e Hid. rewrite Hw, Hid, Hl. split.
  - intros [o' [Ho [Hex Hnz]]]. injection Ho as <-. split; [congruence|]. destruct e; cbn in *; subst; reflexivity.
  - intros [Hnz ->]. exists o. cbn. auto.
Qed.

Lemma del_id_absent id l : lookup id l = None -> del_id id l = l.
Proof.
  induction l as [|[i o] l IH]; cbn; [reflexivity|]. destruct (bytes_eqb i id); [discriminate|]. intros H. rewrite (IH H). reflexivity.
Qed.

Lemma cdel_objs c id : objs (cdel c id) = del_id id (objs c).
Proof. unfold cdel. destruct (lookup id (objs c)) eqn:E; cbn [objs]; [reflexivity | symmetry; apply del_id_absent; exact E]. Qed.

Lemma cdel_lookup c id id' :
  lookup id' (objs (cdel c id)) = if bytes_eqb id id' then None else lookup id' (objs c).
Proof. rewrite cdel_objs. apply lookup_del. Qed.

Lemma cset_lookup c id o id' :
  lookup id' (objs (cset c id o)) = if bytes_eqb id id' then Some o else lookup id' (objs c).
Proof. cbn [cset objs lookup]. rewrite lookup_del. destruct (bytes_eqb id id'); reflexivity. Qed.

Lemma wf_cdel c id : Wf c -> Wf (cdel c id).
Proof.
  intros Hwf. pose proof Hwf as [Hs Hw]. unfold cdel. destruct (lookup id (objs c)) as [p|] eqn:El; [|exact Hwf].
  split; cbn [expires objs].
  - destruct (o_ex p =? 0); [exact Hs | apply remove_sorted; exact Hs].
  - intros e. rewrite lookup_del.
    assert (L : In e (if o_ex p =? 0 then expires c else remove (o_ex p, id) (expires c)) <-> In e (expires c) /\ snd e <> id).
    { destruct (Z.eqb_spec (o_ex p) 0) as [Hz|Hz].
      - split; [|tauto]. intros H. split; [exact H|]. intros Hid. apply (own_entry_only c id p Hwf El e Hid) in H as [Hnz _]. contradiction.
      - rewrite (In_remove _ _ _ Hs). split; intros [H N]; (split; [exact H|]).
        + intros Hid. apply N, (own_entry_only c id p Hwf El e Hid), H.
        + intros ->. apply N. reflexivity. }
    rewrite L, Hw. destruct (bytes_eqb_spec id (snd e)) as [E|E].
    + split; [intros [_ H]; congruence | intros [o [H _]]; discriminate].
    + split; [intros [H _]; exact H | intros H; split; [exact H | congruence]].
Qed.

(* setFill: what its `prev != nil` half does to the indexes is what Delete does; the rest files the new object *)
Lemma cset_cdel c id o :
  cset c id o = mkColl ((id, o) :: objs (cdel c id))
                       (if o_ex o =? 0 then expires (cdel c id) else insert (o_ex o, id) (expires (cdel c id))).
Proof.
  unfold cset, cdel. destruct (lookup id (objs c)) eqn:El; [reflexivity|]. rewrite (del_id_absent _ _ El). reflexivity.
Qed.

Lemma wf_add c id o : Wf c -> lookup id (objs c) = None ->
  Wf (mkColl ((id, o) :: objs c) (if o_ex o =? 0 then expires c else insert (o_ex o, id) (expires c))).
Proof.
  intros [Hs Hw] Hn. split; cbn [expires objs lookup].
  - destruct (o_ex o =? 0); [exact Hs | apply insert_sorted; exact Hs].
  - intros e.
    assert (L : In e (if o_ex o =? 0 then expires c else insert (o_ex o, id) (expires c)) <->
                e = (o_ex o, id) /\ o_ex o <> 0 \/ In e (expires c)).
    { destruct (Z.eqb_spec (o_ex o) 0) as [Hz|Hz]; [|rewrite In_insert]; tauto. }
    rewrite L, Hw. destruct (bytes_eqb_spec id (snd e)) as [->|E].
    + rewrite Hn. split.
      * intros [[-> Hnz]|[o' [Ho' _]]]; [exists o; auto | discriminate].
      * intros (o' & Ho & Hex & Hnz). injection Ho as <-. left. destruct e; cbn in *; subst; auto.
    + split; [|auto]. intros [[-> _]|H]; [destruct E; reflexivity | exact H].
Qed.

Lemma wf_cset c id o : Wf c -> Wf (cset c id o).
Proof.
  intros H. rewrite cset_cdel. apply wf_add; [apply wf_cdel; exact H|]. rewrite cdel_lookup, bytes_eqb_refl. reflexivity.
Qed.

Lemma wf_apply c o : Wf c -> Wf (apply c o).
Proof.
  intros H. destruct o as [id v ex|id ex|id|id]; cbn.
  - apply wf_cset; exact H.
  - destruct (lookup id (objs c)); [apply wf_cset; exact H | exact H].
  - destruct (lookup id (objs c)); [apply wf_cset; exact H | exact H].
  - apply wf_cdel; exact H.
Qed.

Theorem wf_reachable ops : Wf (fold_left apply ops cnew).
Proof. apply (fold_left_inv apply Wf); [intros c o _; apply wf_apply | exact wf_new]. Qed.

(* the early stop loses nothing: on a sorted index the leading entries up to `now` are all of them *)
Lemma victims_filter now l : sorted l -> victims now l = filter (fun e => fst e <=? now) l.
Proof.
  induction 1 as [|y r _ IH Hall]; cbn; [reflexivity|].
  destruct (Z.ltb_spec now (fst y)) as [Hlt|Hge].
  - rewrite (proj2 (Z.leb_gt _ _) Hlt), filter_none; [reflexivity|]. rewrite Forall_forall in Hall.
    intros e He. destruct (Hall e He) as [Hp _]. apply ple_fst in Hp. apply Z.leb_gt. lia.
  - rewrite (proj2 (Z.leb_le _ _) Hge), IH. reflexivity.
Qed.

Lemma victims_spec now l e : sorted l -> (In e (victims now l) <-> In e l /\ fst e <= now).
Proof. intros Hs. rewrite (victims_filter now l Hs), filter_In, Z.leb_le. reflexivity. Qed.

Lemma victim_ids_nodup now l : sorted l ->
  (forall a b, In a l -> In b l -> snd a = snd b -> fst a = fst b) -> NoDup (map snd (victims now l)).
Proof.
  intros Hs Hone. rewrite (victims_filter now l Hs). apply NoDup_map_filter, (SS_NoDup_map plt); [|exact Hs].
  intros a b Ha Hb [_ N] E. apply N, injective_projections; [apply Hone; assumption | exact E].
Qed.

Lemma fold_cdel_lookup (vs : list entry) id o : forall c,
  lookup id (objs (fold_left (fun c (e : entry) => cdel c (snd e)) vs c)) = Some o <->
  lookup id (objs c) = Some o /\ ~ In id (map snd vs).
Proof.
  induction vs as [|e vs IH]; intros c; cbn; [tauto|].
  rewrite IH, cdel_lookup. destruct (bytes_eqb_spec (snd e) id) as [E|E]; [|tauto].
  split; [intros [H _]; discriminate | tauto].
Qed.

Lemma victim_ids now c id : Wf c ->
  (In id (map snd (victims now (expires c))) <-> exists o, lookup id (objs c) = Some o /\ o_ex o <> 0 /\ o_ex o <= now).
Proof.
  intros [Hs Hw]. rewrite in_map_iff. split.
  - intros [e [<- He]]. apply (victims_spec now _ e Hs) in He as [Hin Hle].
    apply Hw in Hin as [o [Ho [Hex Hnz]]]. exists o. repeat split; [exact Ho | lia | lia].
  - intros [o [Ho [Hnz Hle]]]. exists (o_ex o, id). split; [reflexivity|].
    apply (victims_spec now _ _ Hs). split; [|exact Hle]. apply Hw. exists o. cbn. auto.
Qed.

(* what a sweep at `now` leaves under an id is what was there, unless its deadline has passed: never
   early, and complete despite the early stop of the scan *)
Theorem sweep_lookup now c id o : Wf c ->
  (lookup id (objs (fst (sweep now c))) = Some o <-> lookup id (objs c) = Some o /\ (o_ex o = 0 \/ now < o_ex o)).
Proof.
  intros Hwf. unfold sweep; cbn [fst]. rewrite fold_cdel_lookup, (victim_ids now c id Hwf).
  split; intros [Ho H]; (split; [exact Ho|]).
  - destruct (Z.eq_dec (o_ex o) 0) as [Hz|Hnz]; [left; exact Hz | right].
    apply Z.nle_gt. intros Hle. apply H. exists o. auto.
  - intros [o' [Ho' [Hnz Hle]]]. rewrite Ho in Ho'. injection Ho' as <-. lia.
Qed.

(* each victim yields exactly one `del` record: the records are the ids of exactly the objects whose
   deadline has passed, without repetition *)
Theorem sweep_logged now c : Wf c ->
  NoDup (snd (sweep now c)) /\
  forall id, In id (snd (sweep now c)) <-> exists o, lookup id (objs c) = Some o /\ o_ex o <> 0 /\ o_ex o <= now.
Proof.
  intros Hwf. split; [|intros id; apply victim_ids, Hwf]. destruct Hwf as [Hs Hw].
  (* two entries with the same id are entries of one object: their deadlines agree *)
  apply victim_ids_nodup; [exact Hs|]. intros a b Ha Hb Hid.
  apply Hw in Ha as [o [Ho [Hex _]]]. apply Hw in Hb as [o' [Ho' [Hex' _]]]. rewrite Hid, Ho' in Ho. congruence.
Qed.
