(* Proofs/FenceProofs.v — C05.  fenceMatch never runs out of fuel and its messages have the closed form
   [inner_msgs]: a move is reported as the kinds of a chain "event, then the state it leads to", of
   which DETECT selects ([kinds]).  fallback_chain shows that the fallback loop and the trailers
   produce that, doc_all_chain that the documented rule is the same list: the table
   fence_match = doc_msgs, the guards and the message order are read off the closed form. *)
From Coq Require Import List Bool Arith Lia.
From T38 Require Import Model.Fence.
Import ListNotations.

Definition is_move (c : cmd) : bool := match c with CSet | CFset | COther => true | _ => false end.

(* a SET / FSET (or another object-carrying command) that passes the guards: the object exists,
   its id matches the fence's MATCH globs, it is spatial, FSET is not on a NOFIELDS fence, the
   fence's output is not COUNT.  FSET never carries a previous object. *)
Definition move_case (c : cmd) (old : option otest) (new : otest) (cross : bool) : fcase :=
  {| c_cmd := c; c_obj := Some new; c_old := if is_fset c then None else old;
     c_glob := true; c_spatial := true; c_nofields := false; c_cross := cross; c_written := true |}.

(* the guards and short-cuts, in the order fenceMatch tests them *)
Definition guard_fails (x : fcase) : bool :=
  match c_cmd x with
  | CDrop => false
  | c => match c_obj x with None => true | Some _ => false end
         || negb (c_glob x) || negb (c_spatial x) || (is_fset c && c_nofields x)
         || (negb (match c with CDel => true | _ => false end) && negb (c_written x))
  end.

(* an event of kind k is reported as k and then as the state it leads to *)
Definition chain (k : dkind) : list dkind :=
  match k with
  | DEnter => [DEnter; DInside]
  | DExit => [DExit; DOutside]
  | DCross => [DCross; DOutside]
  | k => [k]
  end.

(* what a move is reported as, before DETECT selects *)
Definition kinds (c : cmd) (old : option otest) (new : otest) (cross : bool) : list dkind :=
  match classify c old new cross with Some k => chain k | None => [] end.

Definition inner_msgs (D : dset) (x : fcase) : list fmsg :=
  if guard_fails x then [] else
  match c_cmd x, c_obj x with
  | CDrop, _ => [FDrop]
  | CDel, _ => [FDel]
  | c, Some new => map FM (filter (detects D) (kinds c (c_old x) new (c_cross x)))
  | _, None => []
  end.

(* the test of the fallback loop *)
Lemma undetected D k : negb (d_nil D) && negb (dmap D k) = negb (detects D k).
Proof. unfold detects. destruct (d_nil D), (dmap D k); reflexivity. Qed.

(* the fallback loop (two steps at most: enter -> inside, exit / cross -> outside), the COUNT test w and
   the trailer together report the detected kinds of the chain *)
Lemma fallback_chain D k0 (w : bool) :
  match fallback 3 D k0 with
  | FbFuel => FFuel
  | FbNil => FOk []
  | FbKind k =>
      if negb w then FOk [] else
      FOk ((if detects D k then [FM k] else []) ++
           match k with
           | DEnter => if detects D DInside then [FM DInside] else []
           | DExit | DCross => if detects D DOutside then [FM DOutside] else []
           | _ => []
           end)
  end = FOk (if w then map FM (filter (detects D) (chain k0)) else []).
Proof.
  destruct k0; cbn [fallback chain filter map]; rewrite ?undetected.
  (* first the tests of the loop, outermost first: what they decide occurs again behind them *)
  all: repeat match goal with |- context [if negb (detects ?D ?k) then _ else _] =>
         let E := fresh in destruct (detects D k) eqn:E; cbn [negb]; rewrite ?E end.
  all: repeat match goal with |- context [detects ?D ?k] => destruct (detects D k) end; destruct w; reflexivity.
Qed.

Lemma fence_match_msgs acc D x : fence_match acc D x = FOk (if acc then inner_msgs D x else []).
Proof.
  assert (H : fence_match_inner D x = FOk (inner_msgs D x)).
  { destruct x as [c obj old g s n cr w]. unfold fence_match_inner, inner_msgs, guard_fails, kinds.
    cbn [c_cmd c_obj c_old c_glob c_spatial c_nofields c_cross c_written].
    (* one guard at a time, in the order of the code (NOFIELDS counts for FSET only); the code looks at
       c_written last, after the fallback loop, guard_fails first *)
    destruct c; try reflexivity;
      (destruct obj as [new|]; [|reflexivity]); (destruct g; [|reflexivity]); (destruct s; [|reflexivity]);
      cbn [negb andb orb is_fset]; try reflexivity; try (destruct n; [reflexivity|]; cbn [negb andb orb]);
      (destruct (classify _ _ _ _) as [k0|]; [rewrite fallback_chain|]; destruct w; reflexivity). }
  unfold fence_match. rewrite H. destruct acc; reflexivity.
Qed.

(* the documented rule is the chain of the kind the match1 / match2 block settles on *)
Lemma doc_all_chain c old new cross : doc_all c old new cross = kinds c (if is_fset c then None else old) new cross.
Proof. destruct new as [[] []], old as [[[] []]|], cross, c; reflexivity. Qed.

Theorem fence_guards : forall D x acc,
  fence_match acc D x <> FFuel /\
  (guard_fails x = true \/ acc = false -> fence_match acc D x = FOk []) /\
  (acc = true -> c_cmd x = CDrop -> fence_match acc D x = FOk [FDrop]) /\
  (acc = true -> c_cmd x = CDel -> guard_fails x = false -> fence_match acc D x = FOk [FDel]).
Proof.
  intros D x acc. rewrite fence_match_msgs. split; [discriminate|]. unfold inner_msgs. repeat split.
  - intros [-> | ->]; [destruct acc|]; reflexivity.
  - intros -> Ec. unfold guard_fails. rewrite Ec. reflexivity.
  - intros -> -> ->. reflexivity.
Qed.

(* the weights of one fence's messages for one write are strictly increasing, so the stable
   sort by (weight, hook name) of sortMsgs keeps each fence's messages in the order fenceMatch
   produced them *)
Fixpoint increasing (l : list nat) : bool :=
  match l with
  | a :: ((b :: _) as t) => (a <? b) && increasing t
  | _ => true
  end.

Lemma kinds_increasing D c old new cross :
  increasing (map weight (map FM (filter (detects D) (kinds c old new cross)))) = true.
Proof.
  unfold kinds. destruct (classify c old new cross) as [[]|]; cbn [chain filter];
    repeat match goal with |- context [if ?b then _ else _] => destruct b end; reflexivity.
Qed.

Theorem fence_weights_increasing : forall D x acc l,
  fence_match acc D x = FOk l -> increasing (map weight l) = true.
Proof.
  intros D x acc l E. rewrite fence_match_msgs in E. injection E as <-.
  destruct acc; [|reflexivity]. unfold inner_msgs.
  destruct (guard_fails x), (c_cmd x), (c_obj x); try reflexivity; apply kinds_increasing.
Qed.
