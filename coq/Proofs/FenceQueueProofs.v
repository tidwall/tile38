(* Proofs/FenceQueueProofs.v — C05, the webhook path end to end: what the endpoint of a webhook
   accepts, through the hook queue and Hook.proc (C10's queue model) and for every endpoint failure
   pattern within retention, is what a channel and a live connection with the same fence definition
   receive. *)
From Coq Require Import List Bool NArith ZArith Lia.
From T38 Require Import Base.Bytes Base.ListFacts Base.InsSort Model.Fence Model.HookReg Model.Queues Model.FenceQueue
  Proofs.FenceProofs Proofs.FenceRegProofs Proofs.FenceSinkProofs Proofs.QueuesHookProofs.
Import ListNotations.

Lemma decode_code m : msg_decode (msg_code m) = m.
Proof. destruct m as [[]| |]; reflexivity. Qed.

Lemma flat_map_ext_In {A B} (f g : A -> list B) l : (forall x, In x l -> f x = g x) -> flat_map f l = flat_map g l.
Proof. intro H. rewrite !flat_map_concat_map. f_equal. now apply map_ext_in. Qed.

(* no candidate of any write of the history shares the queue identity of hook n without being n
   (holds for every injective nm) *)
Definition no_collision (nm : bytes -> hookid) (evs : list sev) (n : bytes) : Prop :=
  forall w x, In w (writes_of evs) -> In x (w_cl w) -> nm (h_name x) = nm n -> h_name x = n.

Lemma injective_no_collision nm evs n : (forall a b, nm a = nm b -> a = b) -> no_collision nm evs n.
Proof. intros Hinj w x _ _ H. exact (Hinj _ _ H). Qed.

Lemma enq_msgs_write nm w n :
  (forall x, In x (w_cl w) -> nm (h_name x) = nm n -> h_name x = n) ->
  map msg_decode (enq_msgs (nm n) [enq_of nm w]) = webhook_delivery (w_cl w) (w_cf w) (w_af w) n.
Proof.
  intro Hnc. cbn [enq_msgs enq_of]. rewrite app_nil_r, filter_map_comm. cbn [fst]. unfold webhook_delivery, tagged_for.
  rewrite (filter_ext_in _ (fun t : tagged => bytes_eqb (fst t) n)).
  - rewrite !map_map. apply map_ext. intros t. apply decode_code.
  - intros t Ht. apply sort_msgs_In, flat_tags in Ht as (x & Hx & ->). apply filter_In in Hx as [Hx _].
    destruct (bytes_eqb_spec (h_name x) n) as [->|E].
    + apply N.eqb_refl.
    + apply N.eqb_neq. intro Hc. exact (E (Hnc x Hx Hc)).
Qed.

Lemma enq_msgs_writes nm h evs :
  enq_msgs h (hist nm evs) = flat_map (fun w => enq_msgs h [enq_of nm w]) (writes_of evs).
Proof.
  induction evs as [|[w|m now outs] evs IH]; [reflexivity| |exact IH].
  cbn [hist map qev_of enq_of enq_msgs writes_of flat_map app]. rewrite app_nil_r. f_equal. exact IH.
Qed.

Lemma enq_msgs_hist nm n evs :
  no_collision nm evs n ->
  map msg_decode (enq_msgs (nm n) (hist nm evs)) = webhook_stream evs n.
Proof.
  intro Hnc. rewrite enq_msgs_writes. unfold webhook_stream. rewrite !flat_map_concat_map, concat_map, map_map.
  f_equal. apply map_ext_in. intros w Hw. apply enq_msgs_write. intros x. apply (Hnc w x Hw).
Qed.

(* a write history contains no process restart *)
Lemma quiet_hist nm evs : forall q, quiet q (hist nm evs).
Proof.
  induction evs as [|e evs IH]; intro q; cbn [hist map quiet]; [exact I|].
  split; [destruct e; exact I|apply IH].
Qed.

Lemma hist_app nm a b : hist nm (a ++ b) = hist nm a ++ hist nm b.
Proof. apply map_app. Qed.

(* inside the retention period (every event time in [0, 30 s)), whatever the endpoint did: accepted ++ owed = what the writes queued for n *)
Theorem webhook_queue_prefix nm evs n :
  in_retention (hist nm evs) -> no_collision nm evs n ->
  webhook_stream evs n = webhook_accepted nm evs n ++ webhook_owed nm evs n.
Proof.
  intros Ht Hnc. rewrite <- (enq_msgs_hist nm n evs Hnc), (hook_order _ (nm n) Ht (quiet_hist nm evs hq_init)).
  rewrite map_app, !map_map. reflexivity.
Qed.

Definition recovered (n : bytes) (t1 t2 t3 : Z) : list sev := [SProc n t1 []; SProc n t2 []; SProc n t3 []].

(* once the endpoint answers again, the manager's next rounds hand over everything, in order, once *)
Theorem webhook_queue_eventually nm evs n t1 t2 t3 :
  in_retention (hist nm (evs ++ recovered n t1 t2 t3)) -> no_collision nm evs n ->
  webhook_accepted nm (evs ++ recovered n t1 t2 t3) n = webhook_stream evs n /\
  webhook_owed nm (evs ++ recovered n t1 t2 t3) n = [].
Proof.
  intros Ht Hnc. rewrite hist_app in Ht. unfold recovered in *. cbn [hist map qev_of] in Ht.
  pose proof (hook_eventually_all (hist nm evs) (nm n) t1 t2 t3 Ht (quiet_hist nm evs hq_init)) as He.
  cbv zeta in He. destruct He as (Hd & Hdb & Htk).
  unfold webhook_accepted, webhook_owed, bodies. rewrite hist_app. cbn [hist map qev_of].
  split.
  - rewrite <- (enq_msgs_hist nm n evs Hnc), <- Hd, map_map. reflexivity.
  - unfold pending. rewrite Hdb, Htk. reflexivity.
Qed.

(* the hypotheses of same_for_all_sinks for one write of a history: a SET / FSET (or other
   object-carrying write) on key k, a registry in which webhook hw and channel hc carry the same
   fence definition (key k, DETECT D, area a, hence the same abstract case and COMMANDS verdict),
   w_cl an enumeration of getQueueCandidates' result, and the three oracle hypotheses *)
Definition same_def (hw hc : hook) (k : bytes) (D : dset) (a : rect) (w : fwrite) : Prop :=
  w_key w = k /\
  exists r old_r new_r,
    reg_inv r /\ NoDup (map h_name (w_cl w)) /\ (forall h, In h (w_cl w) <-> In h (candidates r k old_r new_r)) /\
    In hw (hooks r) /\ In hc (hooks r) /\ h_chan hw = false /\ h_chan hc = true /\
    h_key hw = k /\ h_key hc = k /\ h_detect hw = D /\ h_detect hc = D /\
    h_area hw = Some a /\ h_area hc = Some a /\
    w_cf w hc = w_cf w hw /\ w_af w hc = w_af w hw /\
    is_move (c_cmd (w_cf w hw)) = true /\
    (sp_of (c_obj (w_cf w hw)) = true -> exists r2, new_r = Some r2 /\ overlaps a r2 = true) /\
    (sp_of (c_old (w_cf w hw)) = true -> exists r1, old_r = Some r1 /\ overlaps a r1 = true) /\
    (c_cross (w_cf w hw) = true -> is_some (c_old (w_cf w hw)) = true -> is_some (c_obj (w_cf w hw)) = true ->
       exists r1 r2, old_r = Some r1 /\ new_r = Some r2 /\ overlaps a (hull r1 r2) = true).

Lemma same_def_one hw hc k D a w :
  same_def hw hc k D a w ->
  webhook_delivery (w_cl w) (w_cf w) (w_af w) (h_name hw) = channel_delivery (w_cl w) (w_cf w) (w_af w) (h_name hc) /\
  channel_delivery (w_cl w) (w_cf w) (w_af w) (h_name hc) = live_delivery k (w_key w) (w_af w hw) D (w_cf w hw).
Proof.
  intros (Hk & r & old_r & new_r & Hi & Hnd & Hcl & Hw & Hc & Cw & Cc & Kw & Kc & Dw & Dc & Aw & Ac & Xc & Fc & Hm & Hn & Ho & Hx).
  destruct (same_for_all_sinks r (w_cl w) (w_cf w) (w_af w) hw hc k D a (w_cf w hw) (w_af w hw) old_r new_r
              Hi Hnd Hcl Hw Hc Cw Cc Kw Kc Dw Dc Aw Ac eq_refl Xc eq_refl Fc Hm Hn Ho Hx) as (-> & -> & H3).
  now rewrite Hk, H3.
Qed.

(* ... hence, write by write, the three streams of a history are one *)
Lemma same_def_streams hw hc k D a evs :
  Forall (same_def hw hc k D a) (writes_of evs) ->
  webhook_stream evs (h_name hw) = channel_stream evs (h_name hc) /\
  channel_stream evs (h_name hc) = live_stream k D hw evs.
Proof.
  rewrite Forall_forall. intro Hall.
  split; apply flat_map_ext_In; intros w Hw; apply (same_def_one _ _ _ _ _ _ (Hall w Hw)).
Qed.

(* without a twin: what the endpoint of webhook h finally accepts is h's own FenceMatch result of
   every write for which it was a candidate, in write order (c05_sink_delivery through the queue) *)
Definition own_reg (h : hook) (w : fwrite) : Prop :=
  exists r, reg_inv r /\ NoDup (map h_name (w_cl w)) /\ (forall x, In x (w_cl w) -> In x (hooks r)) /\ In h (hooks r).

Theorem webhook_queue_own nm evs h t1 t2 t3 :
  h_chan h = false ->
  in_retention (hist nm (evs ++ recovered (h_name h) t1 t2 t3)) ->
  no_collision nm evs (h_name h) ->
  Forall (own_reg h) (writes_of evs) ->
  webhook_accepted nm (evs ++ recovered (h_name h) t1 t2 t3) (h_name h) =
  flat_map (fun w => if existsb (fun x => bytes_eqb (h_name x) (h_name h)) (w_cl w)
                     then msgs_of (fence_match (w_af w h) (h_detect h) (w_cf w h)) else []) (writes_of evs).
Proof.
  intros Hc Ht Hnc Hall. destruct (webhook_queue_eventually nm evs (h_name h) t1 t2 t3 Ht Hnc) as (Ha & _).
  rewrite Ha. unfold webhook_stream. apply flat_map_ext_In. intros w Hw.
  rewrite Forall_forall in Hall. destruct (Hall w Hw) as (r & Hi & Hnd & Hsub & Hin).
  pose proof (sink_delivery r (w_cl w) (w_cf w) (w_af w) h Hi Hnd Hsub Hin) as H. rewrite Hc in H. exact H.
Qed.
