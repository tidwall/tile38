(* Proofs/FenceRegProofs.v — registry invariant and candidate selection (C05). *)
From Coq Require Import List Bool ZArith Lia.
From Coq Require Import ZifyBool.
From T38 Require Import Base.Bytes Base.ListFacts Model.Fence Model.HookReg Model.HookRegOps Proofs.FenceProofs.
Import ListNotations.

Lemma named_true n h : named n h = true <-> h_name h = n.
Proof. unfold named. apply bytes_eqb_eq. Qed.

Lemma named_false n h : named n h = false <-> h_name h <> n.
Proof. now rewrite <- not_true_iff_false, named_true. Qed.

Lemma In_del_name n l x : In x (del_name n l) <-> In x l /\ h_name x <> n.
Proof.
  unfold del_name. rewrite filter_In. rewrite negb_true_iff, named_false. tauto.
Qed.

Lemma get_name_Some n l p : get_name n l = Some p -> In p l /\ h_name p = n.
Proof. unfold get_name. intro H. apply find_some in H. rewrite named_true in H. exact H. Qed.

Lemma get_name_None n l : get_name n l = None -> forall x, In x l -> h_name x <> n.
Proof.
  unfold get_name. intros H x Hx. apply named_false. exact (find_none _ _ H x Hx).
Qed.

Lemma NoDup_names_del n l : NoDup (map h_name l) -> NoDup (map h_name (del_name n l)).
Proof. apply NoDup_map_filter. Qed.

Lemma NoDup_names_set h l : NoDup (map h_name l) -> NoDup (map h_name (set_name h l)).
Proof.
  intro H. unfold set_name. cbn. constructor; [|now apply NoDup_names_del].
  intro Hin. apply in_map_iff in Hin. destruct Hin as (y & Hy & Hin). apply In_del_name in Hin. tauto.
Qed.

Lemma In_set_name h l x : In x (set_name h l) <-> x = h \/ (In x l /\ h_name x <> h_name h).
Proof. unfold set_name. cbn. rewrite In_del_name. split; intros [H|H]; auto. Qed.

Record reg_inv (r : reg) : Prop := {
  ri_names : NoDup (map h_name (hooks r));
  ri_out : forall h, In h (hooksOut r) <-> In h (hooks r) /\ detects (h_detect h) DOutside = true;
  ri_tree : forall h, In h (hookTree r) <-> In h (hooks r) /\ has_area h = true;
  ri_cross : forall h, In h (hookCross r) <->
                       In h (hooks r) /\ (has_area h && dmap (h_detect h) DCross) = true;
  ri_exp : forall h, In h (hookExpires r) <-> In h (hooks r) /\ h_expires h = true
}.

Lemma del_name_absent n L : (forall x, In x L -> h_name x <> n) -> del_name n L = L.
Proof. intros H. apply filter_all. intros x Hx. apply negb_true_iff, named_false, H, Hx. Qed.

(* The registry is a function of its list of hooks: each derived container is that list filtered by the
   container's condition, in the same order (every insertion is at the head, every removal a filter).
   So a name occurs at most once in each of them too, which is what lets removal by name stand for the
   removal of one item from an R-tree. *)
Definition reg_of (l : list hook) : reg :=
  {| hooks := l;
     hooksOut := filter (fun h => detects (h_detect h) DOutside) l;
     hookTree := filter has_area l;
     hookCross := filter (fun h => has_area h && dmap (h_detect h) DCross) l;
     hookExpires := filter h_expires l |}.

(* the four indexes are views of `hooks`, as lists: same order, each hook at most once. This, not the
   set-level reg_inv, is what makes removal by name from hookTree / hookCross the removal of one hook. *)
Definition views (r : reg) : Prop := exists l, NoDup (map h_name l) /\ r = reg_of l.

Lemma views_inv r : views r -> reg_inv r.
Proof. intros (l & Hnd & ->). constructor; [exact Hnd | intro h; apply filter_In ..]. Qed.

Lemma del_filter n (P : hook -> bool) l : del_name n (filter P l) = filter P (del_name n l).
Proof. unfold del_name. rewrite !filter_filter. apply filter_ext. intro x. apply andb_comm. Qed.

(* cmdDELHOOKop on the container of condition P: the removal is guarded by P of the deleted hook h;
   where the guard fails, the container holds no hook of that name, h being the only one in l *)
Lemma del_view (P : hook -> bool) l n h :
  NoDup (map h_name l) -> get_name n l = Some h ->
  (if P h then del_name n (filter P l) else filter P l) = filter P (del_name n l).
Proof.
  intros Hnd E. apply get_name_Some in E as [Hh Hn]. rewrite <- del_filter.
  destruct (P h) eqn:Ph; [reflexivity|]. symmetry. apply del_name_absent.
  intros x Hx En. apply filter_In in Hx as [Hx Px].
  assert (x = h) by (apply (NoDup_map_inj h_name l); congruence). congruence.
Qed.

Lemma delhook_views r n c : views r -> views (reg_delhook r n c).
Proof.
  intros (l & Hnd & ->). unfold reg_delhook. cbn [hooks reg_of].
  destruct (get_name n l) as [h|] eqn:E; [|now exists l].
  destruct (negb (Bool.eqb (h_chan h) c)); [now exists l|].
  exists (del_name n l). split; [now apply NoDup_names_del|].
  unfold reg_of. cbn [hooksOut hookTree hookCross hookExpires].
  f_equal; [apply del_filter | exact (del_view _ l n h Hnd E) ..].
Qed.

(* the insertions of cmdSetHook *)
Definition reg_ins (h : hook) (r : reg) : reg :=
  {| hooks := set_name h (hooks r);
     hooksOut := if detects (h_detect h) DOutside then set_name h (hooksOut r) else hooksOut r;
     hookTree := if has_area h then h :: hookTree r else hookTree r;
     hookCross := if has_area h && dmap (h_detect h) DCross then h :: hookCross r else hookCross r;
     hookExpires := if h_expires h then set_name h (hookExpires r) else hookExpires r |}.

(* past its early returns, cmdSetHook removes the previous hook of the name as cmdDELHOOKop would, and inserts *)
Lemma sethook_del_ins r h e :
  reg_sethook r h e = if sethook_stops r h e then r else reg_ins h (reg_delhook r (h_name h) (h_chan h)).
Proof.
  unfold reg_sethook, sethook_stops, reg_delhook.
  destruct (get_name (h_name h) (hooks r)) as [p|] eqn:E; [|reflexivity].
  rewrite (proj2 (get_name_Some _ _ _ E)). destruct (negb (Bool.eqb (h_chan p) (h_chan h))), e; reflexivity.
Qed.

Lemma sethook_del_fresh r h e x :
  sethook_stops r h e = false -> In x (hooks (reg_delhook r (h_name h) (h_chan h))) -> h_name x <> h_name h.
Proof.
  unfold sethook_stops, reg_delhook. destruct (get_name (h_name h) (hooks r)) as [p|] eqn:E.
  - destruct (negb (Bool.eqb (h_chan p) (h_chan h))); [discriminate|]. intros _ Hx. apply In_del_name in Hx. tauto.
  - intros _. apply (get_name_None _ _ E).
Qed.

(* where no hook has h's name, btree Set is rtree Insert *)
Lemma set_name_fresh h L : (forall x, In x L -> h_name x <> h_name h) -> set_name h L = h :: L.
Proof. intro H. unfold set_name. f_equal. now apply del_name_absent. Qed.

Lemma ins_of h l : (forall x, In x l -> h_name x <> h_name h) -> reg_ins h (reg_of l) = reg_of (h :: l).
Proof.
  intro Hf. unfold reg_ins. cbn [reg_of hooks hooksOut hookTree hookCross hookExpires filter].
  rewrite !set_name_fresh by (intros x Hx; apply Hf; first [exact Hx | apply filter_In in Hx; apply Hx]).
  reflexivity.
Qed.

Lemma sethook_views r h e : views r -> views (reg_sethook r h e).
Proof.
  intro V. rewrite sethook_del_ins. destruct (sethook_stops r h e) eqn:Es; [exact V|].
  pose proof (fun x => sethook_del_fresh r h e x Es) as Hf.
  destruct (delhook_views r (h_name h) (h_chan h) V) as (l & Hnd & E). rewrite E in *.
  exists (h :: l). split; [|apply ins_of, Hf].
  cbn [map]. constructor; [|exact Hnd]. rewrite in_map_iff. intros (x & En & Hx). exact (Hf x Hx En).
Qed.

Lemma empty_views : views reg_empty.
Proof. exists []. split; [constructor | reflexivity]. Qed.

Lemma step_views r o : views r -> views (reg_step r o).
Proof.
  destruct o as [h e|n c|p c|]; cbn [reg_step]; intro V.
  - now apply sethook_views.
  - now apply delhook_views.
  - revert V. unfold reg_pdelhook. apply fold_left_inv. intros a n _. apply delhook_views.
  - exact empty_views.
Qed.

Theorem registry_views ops : views (reg_run ops).
Proof. unfold reg_run. apply fold_left_inv; [intros r o _; apply step_views | exact empty_views]. Qed.

Theorem registry_inv : forall ops, reg_inv (reg_run ops).
Proof. intro ops. apply views_inv, registry_views. Qed.

(* whether hook h is a candidate for a write, as a function of h and the write alone *)
Definition cand_cond (h : hook) (old new : option rect) : bool :=
  detects (h_detect h) DOutside ||
  match h_area h with
  | None => false
  | Some a =>
      (dmap (h_detect h) DCross &&
       match old, new with Some r1, Some r2 => overlaps a (hull r1 r2) | _, _ => false end)
      || match old with Some r1 => overlaps a r1 | None => false end
      || match new with Some r2 => overlaps a r2 | None => false end
  end.

Lemma keyed_true k h : keyed k h = true <-> h_key h = k.
Proof. unfold keyed. apply bytes_eqb_eq. Qed.

(* the rtree test of getQueueCandidates, on a rectangle that may be absent *)
Definition area_hits (h : hook) (q : option rect) : bool :=
  match h_area h, q with Some a, Some q => overlaps a q | _, _ => false end.
Definition hull_opt (old new : option rect) : option rect :=
  match old, new with Some r1, Some r2 => Some (hull r1 r2) | _, _ => None end.

Lemma area_hits_has h q : has_area h && area_hits h q = area_hits h q.
Proof. unfold area_hits, has_area. destruct (h_area h); reflexivity. Qed.

(* getQueueCandidates reads a container T of the registered hooks l that satisfy P: all of it, or by a search *)
Lemma In_keyed (P : hook -> bool) l T k h :
  (forall x, In x T <-> In x l /\ P x = true) ->
  (In h (filter (keyed k) T) <-> (In h l /\ h_key h = k) /\ P h = true).
Proof. intro HT. rewrite filter_In, keyed_true, HT. tauto. Qed.

Lemma In_keyed_search (P : hook -> bool) l T k q h :
  (forall x, In x T <-> In x l /\ P x = true) ->
  (In h (match q with Some q => filter (keyed k) (search T q) | None => [] end) <->
   (In h l /\ h_key h = k) /\ P h && area_hits h q = true).
Proof.
  intro HT. unfold area_hits. destruct q as [q|].
  - apply (In_keyed (fun x => P x && match h_area x with Some a => overlaps a q | None => false end)).
    intro x. unfold search. rewrite filter_In, HT, andb_true_iff. tauto.
  - destruct (h_area h); rewrite andb_false_r; (split; [intros [] | intros [_ H]; discriminate H]).
Qed.

Lemma and_orb (A : Prop) b c : A /\ b = true \/ A /\ c = true <-> A /\ b || c = true.
Proof. rewrite orb_true_iff. tauto. Qed.

Lemma cand_cond_eq h old new :
  cand_cond h old new =
  detects (h_detect h) DOutside || dmap (h_detect h) DCross && area_hits h (hull_opt old new)
  || area_hits h old || area_hits h new.
Proof.
  unfold cand_cond, area_hits, hull_opt.
  destruct (h_area h), old, new; cbv beta iota; rewrite ?andb_false_r, ?orb_false_l, ?orb_false_r, ?orb_assoc; reflexivity.
Qed.

Theorem candidates_local r k old new h :
  reg_inv r ->
  (In h (candidates r k old new) <-> In h (hooks r) /\ h_key h = k /\ cand_cond h old new = true).
Proof.
  intros [Hnd Hout Htree Hcross Hexp]. unfold candidates.
  pose proof (In_keyed_search _ _ _ k (hull_opt old new) h Hcross) as Hc.
  (* the guard on an empty hookCross only saves a search that would find nothing *)
  replace (match hull_opt old new with Some q => _ | None => [] end)
    with (match old, new with
          | Some r1, Some r2 => if nonempty_hooks (hookCross r) then filter (keyed k) (search (hookCross r) (hull r1 r2)) else []
          | _, _ => [] end) in Hc
    by (destruct old, new, (hookCross r); reflexivity).
  (* the candidates are the registered hooks of the key that pass one of the four tests *)
  rewrite !in_app_iff, Hc, !(In_keyed_search _ _ _ k _ h Htree), (In_keyed _ _ _ k h Hout), !and_orb, <- and_assoc.
  now rewrite (andb_comm (has_area h)), <- andb_assoc, !area_hits_has, cand_cond_eq, !orb_assoc.
Qed.

Definition sp_of (o : option otest) : bool := match o with Some t => o_sp t | None => false end.
Definition is_some {A} (o : option A) : bool := match o with Some _ => true | None => false end.

(* what each kind the move is reported as says of the two objects: the chain ends in "outside" unless an
   object is inside *)
Lemma kinds_why c old new cross :
  forallb (fun k => match k with
                    | DInside | DEnter => o_sp new
                    | DExit => sp_of old
                    | DCross => cross && is_some old
                    | DOutside => true
                    end) (kinds c old new cross) = true.
Proof. destruct new as [[] []], old as [[[] []]|]; unfold kinds, classify; cbn; destruct (is_fset c), cross; reflexivity. Qed.

Lemma detected_why D c old new cross :
  map FM (filter (detects D) (kinds c old new cross)) <> [] ->
  detects D DOutside || o_sp new || sp_of old || (dmap D DCross && cross && is_some old) = true.
Proof.
  intros Hk. destruct (filter _ _) as [|k t] eqn:F; [destruct (Hk eq_refl)|].
  assert (Hin : In k (k :: t)) by (left; reflexivity). rewrite <- F in Hin. apply filter_In in Hin as [Hin Dk].
  apply (proj1 (forallb_forall _ _) (kinds_why c old new cross)) in Hin.
  (* without a DETECT clause "outside" is detected; with one, k is a kind it names (Dk), and what k says
     of the objects (Hin) is one of the disjuncts *)
  unfold detects in *. destruct (d_nil D); [reflexivity|]. cbn [orb] in *.
  destruct k; rewrite ?Dk, ?Hin, ?orb_true_r; try reflexivity.
  rewrite <- andb_assoc, Hin. apply orb_true_r.
Qed.

(* a SET / FSET / other move produces a message only if the fence detects "outside", or one of
   the two objects is spatially inside the area, or the fence detects "cross" and the path crosses *)
Lemma why D x acc l :
  is_move (c_cmd x) = true -> fence_match acc D x = FOk l -> l <> [] ->
  detects D DOutside || sp_of (c_obj x) || sp_of (c_old x) ||
  (dmap D DCross && c_cross x && is_some (c_old x) && is_some (c_obj x)) = true.
Proof.
  intros Hm E Hl. rewrite fence_match_msgs in E. injection E as <-.
  destruct acc; [|congruence]. unfold inner_msgs in Hl. destruct (guard_fails x); [congruence|].
  destruct (c_cmd x); try discriminate; (destruct (c_obj x) as [new|]; [|congruence]);
    cbn [sp_of is_some]; rewrite andb_true_r; exact (detected_why _ _ _ _ _ Hl).
Qed.

Theorem candidates_complete r k h a x acc l old_r new_r :
  reg_inv r -> In h (hooks r) -> h_key h = k -> h_area h = Some a ->
  is_move (c_cmd x) = true ->
  (* oracle: a spatial hit implies overlapping bounding rectangles; the write's rectangles are
     present exactly when its objects are *)
  (sp_of (c_obj x) = true -> exists r2, new_r = Some r2 /\ overlaps a r2 = true) ->
  (sp_of (c_old x) = true -> exists r1, old_r = Some r1 /\ overlaps a r1 = true) ->
  (c_cross x = true -> is_some (c_old x) = true -> is_some (c_obj x) = true ->
     exists r1 r2, old_r = Some r1 /\ new_r = Some r2 /\ overlaps a (hull r1 r2) = true) ->
  fence_match acc (h_detect h) x = FOk l -> l <> [] ->
  In h (candidates r k old_r new_r).
Proof.
  intros Hi Hin Hk Ha Hm Hnew Hold Hcr Hres Hne.
  apply (candidates_local r k old_r new_r h Hi). split; [assumption|]. split; [assumption|].
  pose proof (why (h_detect h) x acc l Hm Hres Hne) as Hw.
  rewrite !orb_true_iff, !andb_true_iff in Hw.
  rewrite cand_cond_eq. unfold area_hits. rewrite Ha.
  destruct Hw as [[[Hw|Hw]|Hw]|[[[H1 H2] H3] H4]].
  - now rewrite Hw.
  - destruct (Hnew Hw) as (r2 & -> & ->). apply orb_true_r.
  - destruct (Hold Hw) as (r1 & -> & ->). now rewrite orb_true_r.
  - destruct (Hcr H2 H3 H4) as (r1 & r2 & -> & -> & Ho). cbn [hull_opt]. now rewrite H1, Ho, orb_true_r.
Qed.

(* the rectangle of the old-centre -> new-centre line lies inside the hull of the two object
   rectangles when each centre lies inside its own object's rectangle; overlap is monotone *)
Definition within (c q : rect) : Prop :=
  (minx q <= minx c /\ maxx c <= maxx q /\ miny q <= miny c /\ maxy c <= maxy q)%Z.

Lemma overlaps_mono a q q' : overlaps a q = true -> within q q' -> overlaps a q' = true.
Proof. unfold overlaps, within. intros. lia. Qed.

Lemma hull_within c1 c2 r1 r2 : within c1 r1 -> within c2 r2 -> within (hull c1 c2) (hull r1 r2).
Proof.
  unfold within, hull; cbn [minx miny maxx maxy]. intros (? & ? & ? & ?) (? & ? & ? & ?).
  auto using Z.min_le_compat, Z.max_le_compat.
Qed.

Theorem del_candidate r k h a robj :
  reg_inv r -> In h (hooks r) -> h_key h = k -> h_area h = Some a -> overlaps a robj = true ->
  In h (candidates r k None (Some robj)).
Proof.
  intros Hi Hin Hk Ha Ho. apply (candidates_local r k None (Some robj) h Hi).
  split; [assumption|]. split; [assumption|]. unfold cand_cond. rewrite Ha, Ho.
  rewrite andb_false_r. cbn. apply orb_true_r.
Qed.

Theorem drop_candidates r k h :
  reg_inv r ->
  (In h (candidates r k None None) <-> In h (hooks r) /\ h_key h = k /\ detects (h_detect h) DOutside = true).
Proof.
  intro Hi. rewrite (candidates_local r k None None h Hi). unfold cand_cond.
  destruct (h_area h); cbn; rewrite ?andb_false_r, ?orb_false_r; tauto.
Qed.
