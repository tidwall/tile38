(* Proofs/FenceSinkProofs.v — the three delivery paths hand the same message list to a webhook, a
   channel and a live connection with the same fence definition (C05). *)
From Coq Require Import List Bool Arith Lia Sorting.Sorted.
From Coq Require Import ZifyBool.
From T38 Require Import Base.Bytes Base.ListFacts Base.InsSort Model.Fence Model.HookReg Proofs.FenceProofs Proofs.FenceRegProofs.
Import ListNotations.
Local Open Scope nat_scope.

(* a may stand before b *)
Definition tle (a b : tagged) : Prop := tless b a = false.

Lemma tle_spec a b :
  tle a b <-> weight (snd a) < weight (snd b) \/
              (weight (snd a) = weight (snd b) /\ bytes_leb (fst a) (fst b) = true).
Proof. unfold tle, tless. rewrite bytes_ltb_negb_leb. destruct (bytes_leb (fst a) (fst b)); lia. Qed.

Lemma tle_trans a b c : tle a b -> tle b c -> tle a c.
Proof.
  rewrite !tle_spec. intros [H1|[H1 L1]] [H2|[H2 L2]]; try (left; lia).
  right. split; [lia|]. eapply bytes_leb_trans; eauto.
Qed.

Lemma tless_tle a b : if tless a b then tle a b else tle b a.
Proof.
  destruct (tless a b) eqn:E; [|exact E]. revert E. unfold tless. rewrite tle_spec.
  pose proof (bytes_ltb_leb (fst a) (fst b)) as L.
  destruct (bytes_ltb (fst a) (fst b)); [rewrite L by reflexivity|]; lia.
Qed.

Lemma sort_msgs_sorted l : StronglySorted tle (sort_msgs l).
Proof. exact (isort_sorted tless tle tless_tle tle_trans l). Qed.

Lemma filter_sort_msgs p l : filter p (sort_msgs l) = sort_msgs (filter p l).
Proof. exact (filter_isort tless tle tless_tle tle_trans (fun _ _ H => H) p l). Qed.

Lemma sort_msgs_id l : Sorted tle l -> sort_msgs l = l.
Proof. exact (isort_id tless tle (fun _ _ H => H) l). Qed.

Lemma increasing_sorted n l :
  increasing (map weight l) = true -> Sorted tle (map (fun m => (n, m)) l).
Proof.
  induction l as [|a l IH]; intro H; [constructor|].
  destruct l as [|b t].
  - repeat constructor.
  - cbn [map increasing] in H. apply andb_true_iff in H. destruct H as [Hab Hrest].
    constructor; [apply IH; exact Hrest|].
    constructor. apply tle_spec. cbn [snd fst]. left. now apply Nat.ltb_lt.
Qed.

Lemma hook_msgs_sorted cf af h : Sorted tle (hook_msgs cf af h).
Proof.
  unfold hook_msgs. destruct (fence_match (af h) (h_detect h) (cf h)) as [l|] eqn:E; [|constructor].
  apply increasing_sorted. exact (fence_weights_increasing _ _ _ _ E).
Qed.

Lemma hook_msgs_tags cf af h t : In t (hook_msgs cf af h) -> fst t = h_name h.
Proof.
  unfold hook_msgs. destruct (fence_match (af h) (h_detect h) (cf h)); [|intros []].
  intro H. apply in_map_iff in H. destruct H as (m & <- & _). reflexivity.
Qed.

Lemma flat_tags cf af l t : In t (flat_map (hook_msgs cf af) l) -> exists x, In x l /\ fst t = h_name x.
Proof. rewrite in_flat_map. intros (x & Hx & Ht). exists x. split; [exact Hx | exact (hook_msgs_tags cf af x t Ht)]. Qed.

Lemma sort_msgs_In t l : In t (sort_msgs l) <-> In t l.
Proof. exact (isort_In tless l t). Qed.

(* one half of queueHooks holds nothing for a name none of its hooks has *)
Lemma delivery_none (sel : hook -> bool) cl cf af n :
  (forall x, In x cl -> sel x = true -> h_name x <> n) ->
  tagged_for n (sort_msgs (flat_map (hook_msgs cf af) (filter sel cl))) = [].
Proof.
  intros Hno. unfold tagged_for. rewrite filter_none; [reflexivity|].
  intros t Ht. apply sort_msgs_In, flat_tags in Ht as (x & Hx & ->). apply filter_In in Hx. apply (named_false n x), Hno; tauto.
Qed.

Lemma filter_tag_own cf af cl h :
  NoDup (map h_name cl) -> In h cl ->
  filter (fun t => bytes_eqb (fst t) (h_name h)) (flat_map (hook_msgs cf af) cl) = hook_msgs cf af h.
Proof.
  intros Hnd Hin. apply in_split in Hin as (l1 & l2 & ->). rewrite map_app in Hnd. apply NoDup_remove_2 in Hnd.
  assert (Hno : forall l, incl l (l1 ++ l2) ->
            filter (fun t : tagged => bytes_eqb (fst t) (h_name h)) (flat_map (hook_msgs cf af) l) = []).
  { intros l Hl. apply filter_none. intros t Ht. apply flat_tags in Ht as (x & Hx & ->). apply (named_false (h_name h) x).
    intros E. apply Hnd. rewrite <- map_app, <- E. apply in_map, Hl, Hx. }
  rewrite flat_map_app. cbn [flat_map]. rewrite !filter_app, !Hno, filter_all;
    [apply app_nil_r | | apply incl_appr, incl_refl | apply incl_appl, incl_refl].
  intros t Ht. rewrite (hook_msgs_tags _ _ _ _ Ht). apply bytes_eqb_refl.
Qed.

(* "h is among the candidates", in the form the delivery theorems use *)
Lemma existsb_named_intro cl h : In h cl -> existsb (fun x => bytes_eqb (h_name x) (h_name h)) cl = true.
Proof. intro H. apply existsb_exists. exists h. split; [exact H|apply bytes_eqb_refl]. Qed.

Lemma existsb_named_elim cl h :
  (forall x, In x cl -> h_name x = h_name h -> x = h) ->
  existsb (fun x => bytes_eqb (h_name x) (h_name h)) cl = true -> In h cl.
Proof. intros Huniq Ex. apply existsb_exists in Ex as (x & Hx & Hn). apply bytes_eqb_eq in Hn. now rewrite <- (Huniq x Hx Hn). Qed.

Definition msgs_of (r : fres) : list fmsg := match r with FOk l => l | FFuel => [] end.

Lemma hook_msgs_snd cf af h : map snd (hook_msgs cf af h) = msgs_of (fence_match (af h) (h_detect h) (cf h)).
Proof.
  unfold hook_msgs, msgs_of. destruct (fence_match (af h) (h_detect h) (cf h)); [|reflexivity].
  rewrite map_map. apply map_id.
Qed.

(* one half of queueHooks (sel picks the channels, or the webhooks), read by the sink named after h, when
   h is the only candidate of its name: h's own FenceMatch result if it is a candidate, nothing
   otherwise - whatever the other candidates produce and in whatever order the candidate map
   is iterated *)
Lemma tagged_for_queue (sel : hook -> bool) cl cf af h :
  NoDup (map h_name cl) -> (forall x, In x cl -> h_name x = h_name h -> x = h) -> sel h = true ->
  tagged_for (h_name h) (sort_msgs (flat_map (hook_msgs cf af) (filter sel cl))) =
  if existsb (fun x => bytes_eqb (h_name x) (h_name h)) cl
  then msgs_of (fence_match (af h) (h_detect h) (cf h)) else [].
Proof.
  intros Hnd Huniq Hsel. destruct (existsb (fun x => bytes_eqb (h_name x) (h_name h)) cl) eqn:Ex.
  - apply (existsb_named_elim cl h Huniq) in Ex. apply (NoDup_map_filter h_name sel) in Hnd. unfold tagged_for.
    rewrite filter_sort_msgs, (filter_tag_own _ _ _ h Hnd) by now apply filter_In.
    rewrite (sort_msgs_id _ (hook_msgs_sorted cf af h)). apply hook_msgs_snd.
  - apply delivery_none. intros x Hx _ Hn. rewrite (Huniq x Hx Hn) in Hx. apply existsb_named_intro in Hx. congruence.
Qed.

Theorem sink_delivery r cl cf af h :
  reg_inv r -> NoDup (map h_name cl) -> (forall x, In x cl -> In x (hooks r)) -> In h (hooks r) ->
  (if h_chan h then channel_delivery cl cf af (h_name h) else webhook_delivery cl cf af (h_name h)) =
  if existsb (fun x => bytes_eqb (h_name x) (h_name h)) cl
  then msgs_of (fence_match (af h) (h_detect h) (cf h)) else [].
Proof.
  intros Hi Hnd Hsub Hin.
  assert (Huniq : forall x, In x cl -> h_name x = h_name h -> x = h).
  { intros x Hx Hn. apply (NoDup_map_inj h_name (hooks r)); auto. apply Hi. }
  unfold channel_delivery, webhook_delivery, queue_hooks. cbn [fst snd].
  destruct (h_chan h) eqn:Ec; apply tagged_for_queue; auto. now rewrite Ec.
Qed.

(* the candidate map of a write, enumerated in any order, holds registered hooks *)
Lemma candidates_listed r cl k old new :
  reg_inv r -> (forall x, In x cl <-> In x (candidates r k old new)) -> forall x, In x cl -> In x (hooks r).
Proof. intros Hi Hcl x Hx. apply Hcl, (candidates_local r k old new x Hi) in Hx. apply Hx. Qed.

(* A hook of either kind whose fence has an area, for a SET / FSET (or other object-carrying write) on its
   key: what reaches its sink is its own FenceMatch result.  Were it not among the candidates (cl is any
   duplicate-free enumeration of getQueueCandidates' result), FenceMatch would have produced nothing
   anyway (candidates_complete, under its three oracle hypotheses). *)
Lemma hook_delivery r cl cf af h a old_r new_r :
  reg_inv r -> NoDup (map h_name cl) -> (forall y, In y cl <-> In y (candidates r (h_key h) old_r new_r)) ->
  In h (hooks r) -> h_area h = Some a ->
  is_move (c_cmd (cf h)) = true ->
  (sp_of (c_obj (cf h)) = true -> exists r2, new_r = Some r2 /\ overlaps a r2 = true) ->
  (sp_of (c_old (cf h)) = true -> exists r1, old_r = Some r1 /\ overlaps a r1 = true) ->
  (c_cross (cf h) = true -> is_some (c_old (cf h)) = true -> is_some (c_obj (cf h)) = true ->
     exists r1 r2, old_r = Some r1 /\ new_r = Some r2 /\ overlaps a (hull r1 r2) = true) ->
  (if h_chan h then channel_delivery cl cf af (h_name h) else webhook_delivery cl cf af (h_name h)) =
  msgs_of (fence_match (af h) (h_detect h) (cf h)).
Proof.
  intros Hi Hnd Hcl Hh Ah Hm Hnew Hold Hcr.
  rewrite (sink_delivery r cl cf af h Hi Hnd (candidates_listed r cl _ _ _ Hi Hcl) Hh).
  destruct (existsb (fun y => bytes_eqb (h_name y) (h_name h)) cl) eqn:Ex; [reflexivity|].
  destruct (fence_match (af h) (h_detect h) (cf h)) as [[|m l]|] eqn:Ef; try reflexivity. exfalso.
  assert (Hcand : In h cl) by (apply Hcl; now apply (candidates_complete r (h_key h) h a (cf h) (af h) (m :: l))).
  apply existsb_named_intro in Hcand. congruence.
Qed.

(* a webhook hw, a channel hc and a live connection with the same fence definition (key k, DETECT
   D, area a), for one SET / FSET (or other object-carrying write) on that key whose abstract case
   for that definition is x with COMMANDS verdict acc: all three receive msgs_of (fence_match acc D x). *)
Theorem same_for_all_sinks r cl cf af hw hc k D a x acc old_r new_r :
  reg_inv r ->
  NoDup (map h_name cl) -> (forall h, In h cl <-> In h (candidates r k old_r new_r)) ->
  In hw (hooks r) -> In hc (hooks r) -> h_chan hw = false -> h_chan hc = true ->
  h_key hw = k -> h_key hc = k -> h_detect hw = D -> h_detect hc = D ->
  h_area hw = Some a -> h_area hc = Some a ->
  cf hw = x -> cf hc = x -> af hw = acc -> af hc = acc ->
  is_move (c_cmd x) = true ->
  (sp_of (c_obj x) = true -> exists r2, new_r = Some r2 /\ overlaps a r2 = true) ->
  (sp_of (c_old x) = true -> exists r1, old_r = Some r1 /\ overlaps a r1 = true) ->
  (c_cross x = true -> is_some (c_old x) = true -> is_some (c_obj x) = true ->
     exists r1 r2, old_r = Some r1 /\ new_r = Some r2 /\ overlaps a (hull r1 r2) = true) ->
  webhook_delivery cl cf af (h_name hw) = msgs_of (fence_match acc D x) /\
  channel_delivery cl cf af (h_name hc) = msgs_of (fence_match acc D x) /\
  live_delivery k k acc D x = msgs_of (fence_match acc D x).
Proof.
  intros Hi Hnd Hcl Hw Hc Cw Cc Kw Kc Dw Dc Aw Ac Xw Xc Fw Fc Hm Hnew Hold Hcr.
  pose proof (hook_delivery r cl cf af hw a old_r new_r Hi Hnd) as Dhw.
  pose proof (hook_delivery r cl cf af hc a old_r new_r Hi Hnd) as Dhc.
  rewrite Cw, Kw, Dw, Xw, Fw in Dhw. rewrite Cc, Kc, Dc, Xc, Fc in Dhc.
  split; [|split]; [now apply Dhw|now apply Dhc|].
  unfold live_delivery. rewrite bytes_eqb_refl. reflexivity.
Qed.

(* the documented difference: for a delete, hooks are gated by candidate selection, a live
   connection is not - a default-less fence (DETECT without "outside") whose area the deleted object
   was not in gets no del as a hook, but does as a live connection *)
Theorem del_gate_difference r cl cf af h k x robj :
  reg_inv r -> NoDup (map h_name cl) -> (forall y, In y cl <-> In y (candidates r k None (Some robj))) ->
  In h (hooks r) -> h_key h = k -> cf h = x -> af h = true ->
  c_cmd x = CDel -> guard_fails x = false ->
  cand_cond h None (Some robj) = false ->
  (if h_chan h then channel_delivery cl cf af (h_name h) else webhook_delivery cl cf af (h_name h)) = [] /\
  live_delivery k k true (h_detect h) x = [FDel].
Proof.
  intros Hi Hnd Hcl Hin _ _ _ Hc Hg Hcond.
  pose proof (candidates_listed r cl _ _ _ Hi Hcl) as Hsub. split.
  - rewrite (sink_delivery r cl cf af h Hi Hnd Hsub Hin).
    destruct (existsb (fun y => bytes_eqb (h_name y) (h_name h)) cl) eqn:Ex; [|reflexivity].
    exfalso. apply existsb_named_elim in Ex; [|intros y Hy Hn; apply (NoDup_map_inj h_name (hooks r)); auto; apply Hi].
    apply Hcl, (candidates_local r k None (Some robj) h Hi) in Ex. destruct Ex as (_ & _ & Hy). congruence.
  - unfold live_delivery. rewrite bytes_eqb_refl.
    rewrite (proj2 (proj2 (proj2 (fence_guards (h_detect h) x true))) eq_refl Hc Hg). reflexivity.
Qed.
