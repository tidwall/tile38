(* The packed layout of field.List (Model/FieldBin.v): the size header reads back for every body
   size when the reader's window is at least as long as the longest header the writers emit, it
   does not when the window is shorter; the entry loop inverts the entry encoding; List.Set /
   Get / Scan / Len on the packed bytes are Model.Field's fl_set / fl_get / fl_scan / length
   through the codec. *)
From Coq Require Import ZifyN ZifyNat ZifyBool.
From T38 Require Import Base.Bytes Base.SMap Model.Field Model.Object Model.FieldBin Proofs.KsObject Proofs.KsField.

Lemma lenN_length b : lenN b = N.of_nat (length b).
Proof. induction b as [|x b IH]; cbn [lenN length]; [reflexivity | rewrite IH; lia]. Qed.

Lemma lenN_app a b : lenN (a ++ b) = lenN a + lenN b.
Proof. rewrite !lenN_length, app_length. lia. Qed.

Lemma lenN_nil_inv b : lenN b = 0 -> b = [].
Proof. destruct b; cbn [lenN]; [reflexivity | lia]. Qed.

Lemma takeN_firstn n b : takeN n b = firstn (N.to_nat n) b.
Proof.
  revert n; induction b as [|x b IH]; intros n; cbn [takeN].
  - rewrite firstn_nil. reflexivity.
  - destruct (n =? 0) eqn:E.
    + apply N.eqb_eq in E. subst. reflexivity.
    + apply N.eqb_neq in E. rewrite IH.
      replace (N.to_nat n) with (S (N.to_nat (N.pred n))) by lia. reflexivity.
Qed.

Lemma dropN_skipn n b : dropN n b = skipn (N.to_nat n) b.
Proof.
  revert n; induction b as [|x b IH]; intros n; cbn [dropN].
  - rewrite skipn_nil. reflexivity.
  - destruct (n =? 0) eqn:E.
    + apply N.eqb_eq in E. subst. reflexivity.
    + apply N.eqb_neq in E. rewrite IH.
      replace (N.to_nat n) with (S (N.to_nat (N.pred n))) by lia. reflexivity.
Qed.

Lemma takeN_0 b : takeN 0 b = [].
Proof. destruct b; reflexivity. Qed.

Lemma dropN_0 b : dropN 0 b = b.
Proof. destruct b; reflexivity. Qed.

Lemma takeN_all a n : lenN a <= n -> takeN n a = a.
Proof. intros H. rewrite takeN_firstn. apply firstn_all2. rewrite lenN_length in H. lia. Qed.

Lemma takeN_app_ge a b n : lenN a <= n -> takeN n (a ++ b) = a ++ takeN (n - lenN a) b.
Proof.
  intros H. rewrite !takeN_firstn, firstn_app. rewrite lenN_length in *.
  rewrite firstn_all2 by lia. f_equal. f_equal. lia.
Qed.

Lemma takeN_app_le a b n : n <= lenN a -> takeN n (a ++ b) = takeN n a.
Proof.
  intros H. rewrite !takeN_firstn, firstn_app. rewrite lenN_length in *.
  replace (N.to_nat n - length a)%nat with 0%nat by lia. rewrite firstn_O, app_nil_r. reflexivity.
Qed.

Lemma takeN_app_exact a b : takeN (lenN a) (a ++ b) = a.
Proof. rewrite takeN_app_le, takeN_all; [reflexivity | apply N.le_refl..]. Qed.

Lemma dropN_app_plus a b k : dropN (lenN a + k) (a ++ b) = dropN k b.
Proof.
  rewrite !dropN_skipn, lenN_length, skipn_app.
  rewrite skipn_all2 by lia. cbn [app]. f_equal. lia.
Qed.

Lemma dropN_app_exact a b : dropN (lenN a) (a ++ b) = b.
Proof. rewrite <- (N.add_0_r (lenN a)), dropN_app_plus. apply dropN_0. Qed.

Lemma dropN_all a n : lenN a <= n -> dropN n a = [].
Proof. intros H. rewrite dropN_skipn. apply skipn_all2. rewrite lenN_length in H. lia. Qed.

Lemma fit_exact l : fit (lenN l) l = l.
Proof.
  unfold fit. rewrite N.sub_diag. cbn [N.to_nat zerosN]. rewrite app_nil_r. apply takeN_all. lia.
Qed.

Lemma put_uvarint_nonempty f x : put_uvarint (S f) x <> [].
Proof. cbn [put_uvarint]. destruct (x <? 128); discriminate. Qed.

Lemma pow128_succ (k : nat) : 128 ^ N.of_nat (S k) = 128 * 128 ^ N.of_nat k.
Proof. rewrite Nat2N.inj_succ, N.pow_succ_r'. reflexivity. Qed.

Lemma pow128_ge k : 128 <= 128 ^ N.of_nat (S k).
Proof. rewrite pow128_succ. pose proof (N.pow_nonzero 128 (N.of_nat k)). lia. Qed.

Lemma div128_lt x p : x / 128 < p <-> x < 128 * p.
Proof.
  split; [|apply N.div_lt_upper_bound; discriminate].
  intros H. apply N.lt_nge. intros Hle. apply N.div_le_lower_bound in Hle; [lia | discriminate].
Qed.

Lemma put_uvarint_len_iff : forall fuel x, x < 128 ^ N.of_nat fuel -> (0 < fuel)%nat ->
  put_uvarint fuel x <> [] /\
  forall k, (length (put_uvarint fuel x) <= S k)%nat <-> x < 128 ^ N.of_nat (S k).
Proof.
  apply (put_uvarint_ind (fun x l => l <> [] /\ forall k, (length l <= S k)%nat <-> x < 128 ^ N.of_nat (S k))).
  - intros x Ex. split; [discriminate|]. intros k. pose proof (pow128_ge k). cbn [length]. split; intros; lia.
  - intros x l Ex [Hne IH]. split; [discriminate|]. intros [|k]; cbn [length].
    + (* one byte is not enough: two or more are written, and x >= 128 *)
      change (128 ^ N.of_nat 1) with 128. destruct l; [congruence|]. cbn [length]. split; intros; lia.
    + rewrite pow128_succ, <- div128_lt, <- IH. split; lia.
Qed.

Lemma mod64_lt_pow x : x mod two64 < 128 ^ N.of_nat 10.
Proof. pose proof pow_128_10. pose proof (N.mod_lt x two64 ltac:(unfold two64; lia)). lia. Qed.

Lemma put_uv_len_iff x (k : nat) : (1 <= k)%nat ->
  (lenN (put_uv x) <= N.of_nat k <-> x mod two64 < 128 ^ N.of_nat k).
Proof.
  intros Hk. destruct k as [|k]; [inversion Hk|]. unfold put_uv. rewrite lenN_length.
  rewrite <- (proj2 (put_uvarint_len_iff 10 (x mod two64) (mod64_lt_pow x) ltac:(lia))). lia.
Qed.

Lemma put_uv_nonempty x : put_uv x <> [].
Proof. unfold put_uv. apply put_uvarint_nonempty. Qed.

Lemma put_uv_len_bounds x : 1 <= lenN (put_uv x) <= 10.
Proof.
  split; [|exact (proj2 (put_uv_len_iff x 10 ltac:(lia)) (mod64_lt_pow x))].
  pose proof (put_uv_nonempty x). destruct (put_uv x); [congruence | cbn [lenN]; lia].
Qed.

Lemma uvarint_put_uv x rest : x < two64 -> uvarint (put_uv x ++ rest) = (x, lenN (put_uv x)).
Proof.
  intros Hx. unfold put_uv. rewrite (N.mod_small x two64 Hx), lenN_length. apply uvarint_put_uvarint, Hx.
Qed.

Lemma put_uvarint_shape : forall fuel x, x < 128 ^ N.of_nat fuel -> (0 < fuel)%nat ->
  exists pre last, put_uvarint fuel x = pre ++ [last] /\ Forall (fun b => 128 <= b) pre /\ last < 128.
Proof.
  apply (put_uvarint_ind (fun x l => exists pre last, l = pre ++ [last] /\ Forall (fun b => 128 <= b) pre /\ last < 128)).
  - intros x Ex. exists [], x. repeat split; [constructor | exact Ex].
  - intros x l _ (pre & last & -> & Hall & Hl). exists ((x mod 128 + 128) :: pre), last.
    repeat split; [constructor; [lia | exact Hall] | exact Hl].
Qed.

Lemma uvarint_loop_all_high l : forall i acc, Forall (fun b => 128 <= b) l -> uvarint_loop l i acc = (0, 0).
Proof.
  induction l as [|b l IH]; intros i acc H; cbn [uvarint_loop]; [reflexivity|].
  inversion H as [|? ? Hb Hl]; subst.
  assert (E : (b <? 128) = false) by (apply N.ltb_ge; exact Hb). rewrite E. apply IH. exact Hl.
Qed.

Lemma Forall_takeN {P : N -> Prop} n l : Forall P l -> Forall P (takeN n l).
Proof.
  intros H. rewrite <- (firstn_skipn (N.to_nat n) l) in H. rewrite takeN_firstn. exact (proj1 (proj1 (Forall_app _ _ _) H)).
Qed.

(* a window shorter than the header sees only continuation bytes *)
Lemma uvarint_short_window x peek rest : peek < lenN (put_uv x) ->
  uvarint (takeN peek (put_uv x ++ rest)) = (0, 0).
Proof.
  intros Hp. unfold put_uv in *.
  destruct (put_uvarint_shape 10 (x mod two64) (mod64_lt_pow x) ltac:(lia)) as [pre [last [Hs [Hall _]]]].
  rewrite Hs in *. rewrite lenN_app in Hp. cbn [lenN] in Hp.
  rewrite <- app_assoc. rewrite takeN_app_le by lia.
  unfold uvarint. apply uvarint_loop_all_high. apply Forall_takeN. exact Hall.
Qed.

Definition buf_of (body : bytes) : bytes := put_uv (lenN body) ++ body.

Lemma uvarint_window peek body : header_len (lenN body) <= peek -> lenN body < two64 ->
  uvarint (takeN peek (buf_of body)) = (lenN body, header_len (lenN body)).
Proof. intros Hp Hb. unfold buf_of. rewrite takeN_app_ge by exact Hp. apply uvarint_put_uv, Hb. Qed.

(* The window need only cover the header that was written, so with ptob_short_peek the threshold is
   exact: a 3-byte window reads back every body below 2^21 bytes and none from there on. *)
Theorem ptob_window peek body :
  header_len (lenN body) <= peek -> lenN body < two63 ->
  ptob peek (Some (buf_of body)) = Val body.
Proof.
  intros Hp Hb. unfold two63 in Hb. unfold ptob. rewrite uvarint_window by (assumption || (unfold two64; lia)).
  pose proof (put_uv_len_bounds (lenN body)) as Hl. unfold header_len. set (n := lenN (put_uv (lenN body))) in *.
  destruct (N.eqb_spec n 0) as [E|_]; [lia|]. cbn [andb].
  destruct (N.leb_spec two63 (lenN body)) as [E|_]; [unfold two63 in E; lia|].
  unfold buf_of. rewrite lenN_app. fold n. rewrite N.ltb_irrefl, takeN_all by (rewrite lenN_app; fold n; lia).
  unfold n. rewrite dropN_app_exact. reflexivity.
Qed.

Theorem weight_window peek body :
  header_len (lenN body) <= peek -> lenN body < two64 ->
  weight peek (Some (buf_of body)) = Val (lenN (buf_of body)).
Proof.
  intros Hp Hb. unfold weight. rewrite uvarint_window by assumption.
  pose proof (put_uv_len_bounds (lenN body)) as Hl. unfold header_len.
  destruct (N.eqb_spec (lenN (put_uv (lenN body))) 0) as [E|_]; [lia|]. cbn [andb].
  unfold buf_of. rewrite lenN_app, N.add_comm. reflexivity.
Qed.

Lemma window_max peek x : max_header_len <= peek -> header_len x <= peek.
Proof. exact (N.le_trans _ _ _ (proj2 (put_uv_len_bounds x))). Qed.

Theorem ptob_roundtrip peek body :
  max_header_len <= peek -> lenN body < two63 ->
  ptob peek (Some (buf_of body)) = Val body.
Proof. intros Hp. apply ptob_window, window_max, Hp. Qed.

Theorem weight_roundtrip peek body :
  max_header_len <= peek -> lenN body < two64 ->
  weight peek (Some (buf_of body)) = Val (lenN (buf_of body)).
Proof. intros Hp. apply weight_window, window_max, Hp. Qed.

(* a reader whose window is shorter than the header the writer emitted sees an EMPTY list *)
Theorem ptob_short_peek peek body :
  peek < header_len (lenN body) ->
  ptob peek (Some (buf_of body)) = Val [] /\ weight peek (Some (buf_of body)) = Val 0.
Proof.
  unfold header_len. intros Hp. unfold ptob, weight, buf_of.
  rewrite uvarint_short_window by exact Hp.
  assert (E : (lenN (put_uv (lenN body) ++ body) <? peek) = false).
  { apply N.ltb_ge. rewrite lenN_app. lia. }
  rewrite E. cbn [N.eqb andb]. split; [|reflexivity].
  change (two63 <=? 0) with false. cbn iota. change (0 + 0) with 0.
  assert (E2 : (lenN (put_uv (lenN body) ++ body) <? 0) = false) by (apply N.ltb_ge; lia).
  rewrite E2. rewrite takeN_0, dropN_0. reflexivity.
Qed.

(* the shared-name table knows the name: Load(Store(name)) = name, and the number fits a uint64 *)
Definition name_ok (sn : snames) (f : field) : Prop :=
  sn_load sn (sn_store sn (fst f)) = Some (fst f) /\ sn_store sn (fst f) < two64.

Definition kind_ok (v : value) : Prop := v_kind v <= 5.

(* what is stored of a value: the data only for the kinds Number, String, JSON *)
Definition sdata (v : value) : bytes := if datakind (v_kind v) then v_data v else [].

Definition f_ok (sn : snames) (f : field) : Prop := kind_ok (snd f) /\ lenN (sdata (snd f)) < two64 /\ name_ok sn f.
Definition fl_ok (sn : snames) (l : flist) : Prop := Forall (f_ok sn) l.

Lemma kind_cases v : kind_ok v ->
  v_kind v = 0 \/ v_kind v = 1 \/ v_kind v = 2 \/ v_kind v = 3 \/ v_kind v = 4 \/ v_kind v = 5.
Proof. unfold kind_ok. lia. Qed.

Lemma bfield_stored v : kind_ok v -> bfield (mkValue (v_kind v) (sdata v)) = bfield v.
Proof.
  intros H. destruct v as [k d]. unfold sdata. cbn [v_kind v_data] in *.
  destruct (kind_cases _ H) as [E|[E|[E|[E|[E|E]]]]]; cbn [v_kind] in E; subst k; reflexivity.
Qed.

Lemma kind_mod v : kind_ok v -> v_kind v mod 256 = v_kind v.
Proof. unfold kind_ok. intros H. apply N.mod_small. lia. Qed.

Lemma enc_entry_eq sn f :
  enc_entry sn f = put_uv (sn_store sn (fst f)) ++ [v_kind (snd f)] ++
    (if datakind (v_kind (snd f)) then put_uv (lenN (sdata (snd f))) ++ sdata (snd f) else []).
Proof. unfold enc_entry, sdata. destruct (datakind (v_kind (snd f))); reflexivity. Qed.

Lemma enc_entry_nonempty sn f : enc_entry sn f <> [].
Proof.
  unfold enc_entry. pose proof (put_uv_nonempty (sn_store sn (fst f))).
  destruct (put_uv (sn_store sn (fst f))); [congruence | discriminate].
Qed.

Lemma enc_body_cons sn f l : enc_body sn (f :: l) = enc_entry sn f ++ enc_body sn l.
Proof. reflexivity. Qed.

Lemma enc_body_app sn a b : enc_body sn (a ++ b) = enc_body sn a ++ enc_body sn b.
Proof. unfold enc_body. rewrite map_app, concat_app. reflexivity. Qed.

Lemma read_entry_nil : read_entry [] = Val None.
Proof. reflexivity. Qed.

Lemma read_entry_enc sn f rest : f_ok sn f ->
  read_entry (enc_entry sn f ++ rest) =
    Val (Some (sn_store sn (fst f), v_kind (snd f), sdata (snd f), lenN (enc_entry sn f))).
Proof.
  intros [Hk [Hd [Hload Hrange]]]. rewrite enc_entry_eq. unfold read_entry.
  rewrite <- !app_assoc. rewrite uvarint_put_uv by exact Hrange.
  set (hn := put_uv (sn_store sn (fst f))).
  pose proof (put_uv_len_bounds (sn_store sn (fst f))) as Hb. fold hn in Hb.
  assert (E : (lenN hn =? 0) = false) by (apply N.eqb_neq; lia). rewrite E.
  rewrite dropN_app_exact. cbn [app].
  destruct (datakind (v_kind (snd f))) eqn:Edk.
  - rewrite <- !app_assoc. rewrite uvarint_put_uv by exact Hd.
    set (hd := put_uv (lenN (sdata (snd f)))).
    rewrite !lenN_app. fold hd.
    assert (E2 : (lenN hd + (lenN (sdata (snd f)) + lenN rest) <? lenN hd + lenN (sdata (snd f))) = false)
      by (apply N.ltb_ge; lia).
    rewrite E2. rewrite dropN_app_exact, takeN_app_exact.
    cbn [lenN]. do 3 f_equal. rewrite lenN_app. lia.
  - unfold sdata. rewrite Edk. cbn [app lenN]. rewrite lenN_app. cbn [lenN]. do 3 f_equal.
Qed.

Definition entry_ok (sn : snames) (f : field) : Prop := kind_ok (snd f) /\ name_ok sn f.
Definition kinds_ok (sn : snames) (l : flist) : Prop := Forall (entry_ok sn) l.

(* the list fits a Go slice: its packed entries take fewer than 2^63 bytes *)
Definition fits (sn : snames) (l : flist) : Prop := lenN (enc_body sn l) < two63.

Lemma enc_entry_data_le sn f : lenN (sdata (snd f)) <= lenN (enc_entry sn f).
Proof.
  rewrite enc_entry_eq. rewrite !lenN_app. unfold sdata.
  destruct (datakind (v_kind (snd f))); rewrite ?lenN_app; cbn [lenN]; lia.
Qed.

Lemma fits_fl_ok sn l : kinds_ok sn l -> fits sn l -> fl_ok sn l.
Proof.
  unfold fits, two63. induction l as [|f l IH]; intros Hk Hb; [constructor|].
  inversion Hk as [|? ? [Hkf Hnf] Hkl]; subst. rewrite enc_body_cons, lenN_app in Hb.
  pose proof (enc_entry_data_le sn f).
  constructor; [split; [exact Hkf | split; [unfold two64; lia | exact Hnf]] | apply IH; [exact Hkl | lia]].
Qed.

(* the entry loops run on fuel, one unit for each entry and one for the end of the body; the
   callers give one more than the body has bytes, and no entry is empty *)
Lemma packed_ind sn (P : nat -> flist -> Prop) :
  (forall fuel, P (S fuel) []) ->
  (forall fuel f l, f_ok sn f -> P fuel l -> P (S fuel) (f :: l)) ->
  forall l, fl_ok sn l -> forall fuel, (length (enc_body sn l) < fuel)%nat -> P fuel l.
Proof.
  intros Hnil Hcons l Hok.
  induction Hok as [|f l Hf _ IH]; intros [|fuel] Hlt; try lia; [apply Hnil|].
  apply Hcons, IH; [exact Hf|]. rewrite enc_body_cons, app_length in Hlt.
  pose proof (enc_entry_nonempty sn f). destruct (enc_entry sn f); [congruence | cbn [length] in Hlt; lia].
Qed.

Lemma fl_ok_app sn a b : fl_ok sn (a ++ b) <-> fl_ok sn a /\ fl_ok sn b.
Proof. unfold fl_ok. apply Forall_app. Qed.

Lemma scan_enc sn : forall l, fl_ok sn l -> forall fuel, (length (enc_body sn l) < fuel)%nat ->
  scan_loop fuel sn (enc_body sn l) = Val (fl_scan l).
Proof.
  apply packed_ind; [reflexivity | intros fuel f l Hf1 IH].
  rewrite enc_body_cons. cbn [scan_loop].
  rewrite (read_entry_enc sn f _ Hf1).
  destruct Hf1 as [Hk [_ [Hload _]]]. rewrite Hload, dropN_app_exact, IH, (bfield_stored _ Hk).
  destruct f as [n v]. reflexivity.
Qed.

Lemma len_enc sn : forall l, fl_ok sn l -> forall fuel, (length (enc_body sn l) < fuel)%nat ->
  len_loop fuel (enc_body sn l) = Val (N.of_nat (length l)).
Proof.
  apply packed_ind; [reflexivity | intros fuel f l Hf1 IH].
  rewrite enc_body_cons. cbn [len_loop].
  rewrite (read_entry_enc sn f _ Hf1), dropN_app_exact, IH. f_equal. cbn [length]. lia.
Qed.

Lemma get_enc sn G : forall isj jname jpath name l, fl_ok sn l -> forall fuel, (length (enc_body sn l) < fuel)%nat ->
  get_loop fuel sn G isj jname jpath name (enc_body sn l) = Val (fl_get_loop G isj jname jpath name l).
Proof.
  intros isj jname jpath name. apply packed_ind; [reflexivity | intros fuel f l Hf1 IH].
  rewrite enc_body_cons. cbn [get_loop].
  rewrite (read_entry_enc sn f _ Hf1).
  destruct Hf1 as [Hk [_ [Hload _]]]. rewrite Hload.
  destruct f as [fname v]. cbn [fst snd fl_get_loop] in *.
  assert (Hj : (if (v_kind v =? KJSON) && isj && bytes_eqb fname jname then fo_gjson G (sdata v) jpath else None) =
               (if (v_kind v =? KJSON) && isj && bytes_eqb fname jname then fo_gjson G (v_data v) jpath else None)).
  { destruct (v_kind v =? KJSON) eqn:Ek; [|reflexivity]. apply N.eqb_eq in Ek.
    unfold sdata. rewrite Ek. reflexivity. }
  rewrite Hj. rewrite (bfield_stored _ Hk).
  destruct (if (v_kind v =? KJSON) && isj && bytes_eqb fname jname then fo_gjson G (v_data v) jpath else None); [reflexivity|].
  destruct (bytes_ltb name fname); [reflexivity|].
  destruct (bytes_eqb fname name); [reflexivity|].
  rewrite dropN_app_exact. exact IH.
Qed.

Lemma enc_buf_nonempty body : body <> [] -> enc_buf body = Some (buf_of body).
Proof. destruct body; [congruence | reflexivity]. Qed.

Lemma splice_cut A M P :
  (lenN (A ++ M ++ P) <? lenN A + lenN M) || (lenN (A ++ M ++ P) <? lenN A) = false /\
  takeN (lenN A) (A ++ M ++ P) = A /\ dropN (lenN A + lenN M) (A ++ M ++ P) = P /\
  lenN (A ++ M ++ P) - (lenN A + lenN M) = lenN P.
Proof.
  rewrite takeN_app_exact, dropN_app_plus, dropN_app_exact, !lenN_app. repeat split; [|lia].
  apply orb_false_iff. split; apply N.ltb_ge; lia.
Qed.

Lemma fit_header body n : n = lenN body -> body <> [] ->
  Some (fit (lenN (put_uv n) + n) (put_uv n ++ body)) = enc_buf body.
Proof.
  intros -> Hne. rewrite (enc_buf_nonempty _ Hne). unfold buf_of. rewrite <- lenN_app, fit_exact. reflexivity.
Qed.

Lemma putfield_splice sn A M P f : kind_ok (snd f) ->
  putfield sn (A ++ M ++ P) f (lenN A) (lenN A + lenN M) = Val (enc_buf (A ++ enc_entry sn f ++ P)).
Proof.
  intros Hk. unfold putfield. destruct (splice_cut A M P) as (-> & -> & -> & ->).
  rewrite (kind_mod _ Hk). cbv zeta. f_equal.
  (* what is copied after the header is A, the entry, P; totallen is its length *)
  replace (put_uv (sn_store sn (fst f)) ++ [v_kind (snd f)] ++ _) with (enc_entry sn f ++ P)
    by (unfold enc_entry; destruct (datakind (v_kind (snd f))); rewrite <- ?app_assoc; reflexivity).
  apply fit_header.
  - rewrite !lenN_app. unfold enc_entry. destruct (datakind (v_kind (snd f))); rewrite !lenN_app; cbn [lenN]; lia.
  - pose proof (enc_entry_nonempty sn f). destruct A; [|discriminate]. destruct (enc_entry sn f); [congruence | discriminate].
Qed.

Lemma putfield_insert sn A P f : kind_ok (snd f) ->
  putfield sn (A ++ P) f (lenN A) (lenN A) = Val (enc_buf (A ++ enc_entry sn f ++ P)).
Proof. intros Hk. rewrite <- (putfield_splice sn A [] P f Hk). cbn [app lenN]. rewrite N.add_0_r. reflexivity. Qed.

Lemma delfield_splice A M P :
  delfield (A ++ M ++ P) (lenN A) (lenN A + lenN M) = Val (enc_buf (A ++ P)).
Proof.
  unfold delfield. destruct (splice_cut A M P) as (-> & -> & -> & ->). rewrite <- lenN_app. cbv zeta.
  destruct (N.eqb_spec (lenN (A ++ P)) 0) as [E|E]; [rewrite (lenN_nil_inv _ E); reflexivity|].
  f_equal. apply fit_header; [reflexivity | intros H; rewrite H in E; exact (E eq_refl)].
Qed.

(* A is what the loop has passed: any bytes, the entries before l in the use below *)
Lemma set_enc sn f : kind_ok (snd f) ->
  forall l, fl_ok sn l -> forall fuel, (length (enc_body sn l) < fuel)%nat -> forall A,
  set_loop fuel sn (enc_buf (A ++ enc_body sn l)) (A ++ enc_body sn l) (lenN A) f =
    Val (enc_buf (A ++ enc_body sn (fl_set l f))).
Proof.
  intros Hkf. refine (packed_ind sn _ _ _); [intros fuel A | intros fuel [name v] l Hf1 IH A];
    cbn [set_loop fl_set]; rewrite dropN_app_exact.
  - cbn [enc_body map concat]. rewrite read_entry_nil. destruct (is_zero (snd f)); [reflexivity|].
    exact (putfield_insert sn A [] f Hkf).
  - rewrite enc_body_cons, (read_entry_enc sn (name, v) _ Hf1). cbn [fst snd].
    destruct Hf1 as [Hk [_ [Hload _]]]. cbn [fst snd] in Hk, Hload. rewrite Hload, (bfield_stored _ Hk).
    destruct (bytes_ltb (fst f) name).
    + destruct (is_zero (snd f)); [rewrite enc_body_cons; reflexivity|].
      rewrite !enc_body_cons. apply putfield_insert, Hkf.
    + destruct (bytes_eqb name (fst f)).
      * destruct (is_zero (snd f)); [apply delfield_splice|].
        destruct (value_same (bfield v) (snd f)); rewrite enc_body_cons; [reflexivity | apply putfield_splice, Hkf].
      * (* the entry joins what has been passed *)
        rewrite enc_body_cons, !app_assoc, <- lenN_app. apply IH.
Qed.

Lemma ptob_enc_buf peek body : max_header_len <= peek -> lenN body < two63 ->
  ptob peek (enc_buf body) = Val body.
Proof.
  intros Hp Hb. destruct body as [|x body']; [reflexivity|].
  rewrite enc_buf_nonempty by discriminate.
  apply ptob_roundtrip; assumption.
Qed.

Theorem bl_get_enc peek sn G l name : max_header_len <= peek -> kinds_ok sn l -> fits sn l ->
  bl_get peek sn G (enc sn l) name = Val (fl_get G l name).
Proof.
  intros Hp Hk Hb. unfold bl_get, enc, fl_get. rewrite (ptob_enc_buf peek _ Hp Hb).
  destruct (split_dot name) as [[j q]|]; apply get_enc; auto using fits_fl_ok.
Qed.

Theorem bl_set_enc peek sn l f : max_header_len <= peek -> kinds_ok sn l -> fits sn l -> kind_ok (snd f) ->
  bl_set peek sn (enc sn l) f = Val (enc sn (fl_set l f)).
Proof.
  intros Hp Hk Hb Hkf. unfold bl_set. unfold enc at 1. rewrite (ptob_enc_buf peek _ Hp Hb).
  exact (set_enc sn f Hkf l (fits_fl_ok sn l Hk Hb) _ (Nat.lt_succ_diag_r _) []).
Qed.

Theorem bl_weight_enc peek sn l : max_header_len <= peek -> fits sn l ->
  weight peek (enc sn l) = Val (match enc sn l with None => 0 | Some buf => lenN buf end).
Proof.
  intros Hp Hb. unfold enc, fits in *. destruct (enc_body sn l) as [|x body']; [reflexivity|].
  rewrite enc_buf_nonempty by discriminate.
  apply weight_roundtrip; [exact Hp | unfold two63 in Hb; unfold two64; lia].
Qed.

(* a reader with a window shorter than the header: the whole list reads as empty *)
Theorem bl_short_peek peek sn G l name : peek < header_len (lenN (enc_body sn l)) ->
  bl_scan peek sn (enc sn l) = Val [] /\ bl_get peek sn G (enc sn l) name = Val zero_field /\
  bl_len peek (enc sn l) = Val 0 /\ weight peek (enc sn l) = Val 0.
Proof.
  unfold bl_scan, bl_get, bl_len, enc. destruct (enc_body sn l) as [|b body]; intros Hp.
  - cbn. destruct (split_dot name) as [[j q]|]; auto.
  - rewrite enc_buf_nonempty by discriminate.
    destruct (ptob_short_peek peek (b :: body) Hp) as [H1 H2]. rewrite H1, H2.
    repeat split; try reflexivity. destruct (split_dot name) as [[j q]|]; reflexivity.
Qed.

Theorem packed_readback peek sn G l n v :
  max_header_len <= peek -> kinds_ok sn l -> fits sn l -> entry_ok sn (n, v) -> fits sn (fl_set l (n, v)) ->
  msorted l -> is_zero v = false -> shadowed G l n = false ->
  exists p', bl_set peek sn (enc sn l) (n, v) = Val p' /\ bl_get peek sn G p' n = Val (n, bfield v).
Proof.
  intros Hp Hk Hb Hkv Hb' Hs Hz Hsh.
  exists (enc sn (fl_set l (n, v))). split.
  - apply bl_set_enc; try assumption; exact (proj1 Hkv).
  - rewrite bl_get_enc; try assumption.
    + f_equal. apply field_readback; assumption.
    + apply Forall_fl_set; auto.
Qed.

Lemma header_le x (k : nat) : x < two64 -> (1 <= k)%nat -> (header_len x <= N.of_nat k <-> x < 2 ^ (7 * N.of_nat k)).
Proof.
  intros Hx Hk. unfold header_len. rewrite N.pow_mul_r, (put_uv_len_iff x k Hk), (N.mod_small x two64 Hx). reflexivity.
Qed.

Theorem header_len_boundaries x : x < two64 ->
  (header_len x = 1 <-> x < 2 ^ 7) /\
  (header_len x = 2 <-> 2 ^ 7 <= x < 2 ^ 14) /\
  (header_len x = 3 <-> 2 ^ 14 <= x < 2 ^ 21) /\
  (header_len x = 4 <-> 2 ^ 21 <= x < 2 ^ 28) /\
  (header_len x = 5 <-> 2 ^ 28 <= x < 2 ^ 35) /\
  1 <= header_len x <= max_header_len.
Proof.
  intros Hx. pose proof (put_uv_len_bounds x) as Hb. fold (header_len x) in Hb.
  assert (H1 : header_len x <= 1 <-> x < 2 ^ 7) by exact (header_le x 1 Hx ltac:(lia)).
  assert (H2 : header_len x <= 2 <-> x < 2 ^ 14) by exact (header_le x 2 Hx ltac:(lia)).
  assert (H3 : header_len x <= 3 <-> x < 2 ^ 21) by exact (header_le x 3 Hx ltac:(lia)).
  assert (H4 : header_len x <= 4 <-> x < 2 ^ 28) by exact (header_le x 4 Hx ltac:(lia)).
  assert (H5 : header_len x <= 5 <-> x < 2 ^ 35) by exact (header_le x 5 Hx ltac:(lia)).
  unfold max_header_len. lia.
Qed.

(* used at n = 2^21: the witness is never computed (no unary number) *)
Lemma body_of_size (n : N) : exists body : bytes, lenN body = n.
Proof. exists (repeat 65 (N.to_nat n)). rewrite lenN_length, repeat_length. apply N2Nat.id. Qed.

Lemma window_short x (k : nat) peek : x < two64 -> (1 <= k)%nat ->
  peek <= N.of_nat k -> 2 ^ (7 * N.of_nat k) <= x -> peek < header_len x.
Proof. intros Hx Hk Hp Hlo. pose proof (header_le x k Hx Hk) as H. lia. Qed.

Lemma lenN_pos_nonempty (b : bytes) : 0 < lenN b -> b <> [].
Proof. intros H E. rewrite E in H. discriminate H. Qed.

(* the reader of a 3-byte window (binary.MaxVarintLen16) against the writers as they are:
   from 2^21 bytes on, the body reads as EMPTY although the 10-byte window reads it back *)
Theorem short_window_refuted :
  (exists body : bytes, lenN body = 2 ^ 21) /\
  forall peek body, peek <= 3 -> 2 ^ 21 <= lenN body < two63 ->
    ptob max_header_len (Some (buf_of body)) = Val body /\ body <> [] /\
    ptob peek (Some (buf_of body)) = Val [] /\ weight peek (Some (buf_of body)) = Val 0.
Proof.
  split; [apply body_of_size|]. intros peek body Hp [Hlo Hhi].
  assert (Hx : lenN body < two64) by (unfold two63 in Hhi; unfold two64; lia).
  split; [apply ptob_roundtrip; [lia | exact Hhi]|].
  split; [apply lenN_pos_nonempty; lia|].
  apply ptob_short_peek, (window_short _ 3); [exact Hx | lia | exact Hp | exact Hlo].
Qed.

(* non-vacuity: a name table, a two-entry list, its packed form *)
Definition toy_sn : snames :=
  mkSNames (fun n => match n with [97] => 0 | [98] => 1 | _ => 2 end)
           (fun k => if k =? 0 then Some [97] else if k =? 1 then Some [98] else None).
Definition toy_list : flist := [([97], mkValue KNumber [55]); ([98], mkValue KTrue str_true)].

Lemma toy_hyps : kinds_ok toy_sn toy_list /\ fits toy_sn toy_list /\ msorted toy_list /\
  entry_ok toy_sn ([98], mkValue KString [120]) /\ fits toy_sn (fl_set toy_list ([98], mkValue KString [120])).
Proof.
  (* closed comparisons in N: [a < b] is [(a ?= b) = Lt], [a <= b] is [(a ?= b) <> Gt] *)
  split; [|split; [|split; [|split]]].
  - repeat constructor; discriminate.
  - reflexivity.
  - unfold msorted, sorted_keys. cbn. repeat constructor.
  - repeat constructor; discriminate.
  - reflexivity.
Qed.
