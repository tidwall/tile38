(* Proofs/Float32Enclosure.v — "outward rounding" in the literal sense, where it does hold:
   for every finite double x with 2^-126 <= |x| < 2^128 (from the smallest normal float32 up to the
   float32 overflow threshold; in particular whenever float32(x) does not overflow),
   rtreeValueDown x <= x <= rtreeValueUp x.  (Outside that range it is false: Props/C02.c02_enclosure_refuted.) *)
From Coq Require Import ZArith Reals Psatz Bool.
From Flocq Require Import Core BinarySingleNaN.
From T38 Require Import Model.Float32 Proofs.Float32Proofs.
Local Open Scope R_scope.

Local Instance fexp32_valid : Valid_exp fexp32.
Proof. apply FLT_exp_valid. exact Hprec32. Qed.
Local Instance fexp64_valid : Valid_exp fexp64.
Proof. apply FLT_exp_valid. exact Hprec64. Qed.

Lemma bpow_m23 : bpow radix2 (-23) = / 8388608.
Proof. change (bpow radix2 (-23)) with (/ IZR (Z.pow_pos 2 23)). change (Z.pow_pos 2 23) with 8388608%Z. reflexivity. Qed.

Lemma normal_nz (r : R) : bpow radix2 (-126) <= Rabs r -> r <> 0.
Proof. intros Hr Z. rewrite Z, Rabs_R0 in Hr. pose proof (bpow_gt_0 radix2 (-126)). lra. Qed.

Lemma ulp32_le (r : R) : bpow radix2 (-126) <= Rabs r -> ulp radix2 fexp32 r <= Rabs r * / 8388608.
Proof.
  intros Hr.
  pose proof (normal_nz r Hr) as Hnz.
  rewrite ulp_neq_0 by exact Hnz. unfold cexp.
  assert ((-125 <= mag radix2 r)%Z) as Hm by (apply mag_ge_bpow; exact Hr).
  unfold fexp32, FLT_exp. rewrite Z.max_l by lia.
  replace (mag radix2 r - 24)%Z with ((mag radix2 r - 1) + (-23))%Z by lia.
  rewrite bpow_plus, bpow_m23.
  apply Rmult_le_compat_r; [lra|]. apply bpow_mag_le. exact Hnz.
Qed.

Lemma gen32_64 r : generic_format radix2 fexp32 r -> generic_format radix2 fexp64 r.
Proof.
  apply generic_inclusion_mag. intros _. unfold fexp32, fexp64, FLT_exp. lia.
Qed.

Lemma gen32_M32 : generic_format radix2 fexp32 M32.
Proof. apply (gen_bpow (prec := 24) (emax := 128)). lia. Qed.

Lemma round32_near rd {V : Valid_rnd rd} (r : R) : bpow radix2 (-126) <= Rabs r -> - M32 <= r <= M32 ->
  let b := round radix2 fexp32 rd r in
  generic_format radix2 fexp32 b /\ - M32 <= b <= M32 /\ Rabs (b - r) < Rabs r * / 8388608.
Proof.
  intros Hr [L H]. repeat split.
  - apply generic_format_round; auto with typeclass_instances.
  - apply round_ge_generic; auto with typeclass_instances. apply generic_format_opp, gen32_M32.
  - apply round_le_generic; auto with typeclass_instances. apply gen32_M32.
  - apply Rlt_le_trans with (2 := ulp32_le r Hr). apply error_lt_ulp; auto with typeclass_instances. apply normal_nz, Hr.
Qed.

Lemma to64_exact (f : f32) : is_finite f = true -> is_finite (to64 f) = true /\ B2R (to64 f) = B2R f.
Proof.
  destruct f as [s|s| |s m e H]; try discriminate; intros _; [split; reflexivity|].
  apply (normalize_exact (prec := 53) (emax := 1024)).
  - apply gen32_64. apply (generic_format_B2R 24 128 (B754_finite s m e H)).
  - apply Rlt_le_trans with (1 := abs_B2R_lt_emax 24 128 (B754_finite s m e H)). apply bpow_le. lia.
Qed.

(* Go's comparison of float64(f) with a double strictly inside the float32 range compares f itself:
   the conversion is exact on a finite f, and an infinity lies beyond x at either width *)
Lemma to64_cmp (f : f32) (x : f64) : nonnan f -> is_finite x = true -> - M32 < B2R x < M32 ->
  Bcompare (to64 f) x = Some (Rcompare (ext32 f) (B2R x)).
Proof.
  pose proof M32_pos as G. pose proof M32_le_M64 as GL.
  intros N Fx R.
  assert (nonnan (to64 f) /\ Rcompare (ext64 (to64 f)) (B2R x) = Rcompare (ext32 f) (B2R x)) as [N' <-].
  { destruct f as [s|s| |s m e H]; try discriminate.
    - split; reflexivity.
    - split; [reflexivity|]. cbn [to64 ext]. destruct s; [rewrite !Rcompare_Lt | rewrite !Rcompare_Gt]; lra || reflexivity.
    - destruct (to64_exact (B754_finite s m e H) eq_refl) as [F E].
      split; [exact (finite_nonnan _ _ _ F)|]. rewrite (ext_finite _ _ _ F), E. reflexivity. }
  rewrite <- (ext_finite _ _ x Fx). apply Bcompare_ext; [exact N' | exact (finite_nonnan _ _ x Fx)].
Qed.

Lemma to32_finite_range (x : f64) : is_finite x = true -> is_finite (to32 x) = true -> - M32 < B2R x < M32.
Proof.
  intros Fx F. destruct (to32_spec x (finite_nonnan _ _ x Fx)) as [_ E].
  pose proof (abs_B2R_lt_emax 24 128 (to32 x)) as A. apply Rabs_lt_inv in A.
  rewrite (ext_finite _ _ _ F), (ext_finite _ _ _ Fx) in E. rewrite E in A.
  split; apply Rnot_le_lt; intros L.
  - pose proof (rnd_below (B2R x) (- M32) (generic_format_opp _ _ _ gen32_M32) (Rle_refl _) L). lra.
  - pose proof (rnd_above (B2R x) M32 gen32_M32 (Rle_refl _) L). lra.
Qed.

Section Enclosure.
  Variable x : f64.
  Hypothesis Fx : is_finite x = true.
  Hypothesis Hlo : bpow radix2 (-126) <= Rabs (B2R x).
  Hypothesis Hhi : - M32 < B2R x < M32.

  (* the nudge product lies below the float32 below x, which both roundings respect;
     without nudge the comparison float64(f) > d was exact *)
  Lemma down_le_self : nonnan (down x) /\ ext32 (down x) <= B2R x.
  Proof.
    pose proof (finite_nonnan _ _ x Fx) as Nx. pose proof M32_le_M64 as GL.
    unfold down. cbv zeta. destruct (gt64 (to64 (to32 x)) x) eqn:G.
    - destruct (mul_down_spec x Fx) as [N ->]. split; [exact N|].
      destruct (round32_near Zfloor (B2R x) Hlo ltac:(lra)) as (Gb & Bb & Cb). apply Rabs_def2 in Cb.
      destruct (round_DN_pt radix2 fexp32 (B2R x)) as (_ & Le & _).
      apply Rle_trans with (2 := Le). apply rnd_below; [exact Gb | lra |]. apply rnd_below; [exact (gen32_64 _ Gb) | lra | lra].
    - destruct (to32_spec x Nx) as [N _]. split; [exact N|].
      unfold gt64 in G. rewrite (to64_cmp _ x N Fx Hhi) in G.
      destruct (Rcompare_spec (ext32 (to32 x)) (B2R x)); try discriminate; lra.
  Qed.

  Lemma self_le_up : nonnan (up x) /\ B2R x <= ext32 (up x).
  Proof.
    pose proof (finite_nonnan _ _ x Fx) as Nx. pose proof M32_le_M64 as GL.
    unfold up. cbv zeta. destruct (lt64 (to64 (to32 x)) x) eqn:G.
    - destruct (mul_up_spec x Fx) as [N ->]. split; [exact N|].
      destruct (round32_near Zceil (B2R x) Hlo ltac:(lra)) as (Gb & Bb & Cb). apply Rabs_def2 in Cb.
      destruct (round_UP_pt radix2 fexp32 (B2R x)) as (_ & Ge & _).
      apply Rle_trans with (1 := Ge). apply rnd_above; [exact Gb | lra |]. apply rnd_above; [exact (gen32_64 _ Gb) | lra | lra].
    - destruct (to32_spec x Nx) as [N _]. split; [exact N|].
      unfold lt64 in G. rewrite (to64_cmp _ x N Fx Hhi) in G.
      destruct (Rcompare_spec (ext32 (to32 x)) (B2R x)); try discriminate; lra.
  Qed.

  (* ... and with the comparisons the Go code itself would evaluate *)
  Lemma enclosure_bool : le64 (to64 (down x)) x = true /\ le64 x (to64 (up x)) = true.
  Proof.
    destruct down_le_self as [D1 D2], self_le_up as [U1 U2]. unfold le64.
    rewrite (Bcompare_swap _ _ (to64 (up x)) x), (to64_cmp _ x D1 Fx Hhi), (to64_cmp _ x U1 Fx Hhi).
    destruct (Rcompare_spec (ext32 (down x)) (B2R x)), (Rcompare_spec (ext32 (up x)) (B2R x)); cbn; auto; lra.
  Qed.
End Enclosure.
