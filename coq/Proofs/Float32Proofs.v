(* Proofs/Float32Proofs.v — rtreeValueDown / rtreeValueUp (Model/Float32.v) never invert the order of
   two float64 values: x <= y -> down x <= up y, for all non-NaN doubles including subnormals, values
   beyond the float32 range and infinities (property C02: the index never loses a candidate). *)
From Coq Require Import ZArith Reals Psatz Bool.
From Flocq Require Import Core BinarySingleNaN.
From T38 Require Import Model.Float32.
Local Open Scope R_scope.

(* extended-real value of a non-NaN float: +-infinity are sent to +-2^emax *)
Section Ext.
  Variable prec emax : Z.
  Context (Hp : Prec_gt_0 prec) (Hm : Prec_lt_emax prec emax).

  Definition ext (x : binary_float prec emax) : R :=
    match x with
    | B754_infinity s => if s then - bpow radix2 emax else bpow radix2 emax
    | _ => B2R x
    end.

  Definition nonnan (x : binary_float prec emax) : Prop := is_nan x = false.

  Lemma ext_bounds x : - bpow radix2 emax <= ext x <= bpow radix2 emax.
  Proof.
    pose proof (bpow_gt_0 radix2 emax) as G.
    destruct x as [s|s| |s m e H]; cbn [ext].
    - cbn. lra.
    - destruct s; lra.
    - cbn. lra.
    - pose proof (abs_B2R_lt_emax prec emax (B754_finite s m e H)) as A.
      apply Rabs_lt_inv in A. lra.
  Qed.

  Lemma ext_finite x : is_finite x = true -> ext x = B2R x.
  Proof. destruct x; cbn; try reflexivity; discriminate. Qed.

  Lemma finite_nonnan x : is_finite x = true -> nonnan x.
  Proof. unfold nonnan. destruct x; cbn; try reflexivity; discriminate. Qed.

  Lemma Bcompare_ext a b : nonnan a -> nonnan b ->
    Bcompare a b = Some (Rcompare (ext a) (ext b)).
  Proof.
    pose proof (bpow_gt_0 radix2 emax) as G.
    pose proof (abs_B2R_lt_emax prec emax a) as A. pose proof (abs_B2R_lt_emax prec emax b) as B.
    apply Rabs_lt_inv in A, B.
    destruct a as [sa|sa| |sa ma ea Ha], b as [sb|sb| |sb mb eb Hb]; try discriminate; intros _ _;
      try (apply (Bcompare_correct prec emax); reflexivity);
      (* an infinity is involved: Bcompare computes, and a finite value lies strictly inside *)
      cbn [ext Bcompare B2SF SpecFloat.SFcompare] in *; destruct sa, sb; f_equal; symmetry;
      solve [apply Rcompare_Eq; lra | apply Rcompare_Gt; lra | apply Rcompare_Lt; lra].
  Qed.

  (* Go's a <= b (false on NaN), at either format *)
  Lemma Bcompare_le a b : nonnan a -> nonnan b ->
    (match Bcompare a b with Some Lt | Some Eq => true | _ => false end = true <-> ext a <= ext b).
  Proof.
    intros Ha Hb. rewrite (Bcompare_ext a b Ha Hb).
    destruct (Rcompare_spec (ext a) (ext b)); split; intros; try lra; try discriminate; auto.
  Qed.
End Ext.

Arguments ext {prec emax} x.
Arguments nonnan {prec emax} x.

Notation ext64 := (@ext 53 1024).
Notation ext32 := (@ext 24 128).

Definition clamp (M r : R) : R := Rmax (- M) (Rmin r M).

Lemma clamp_mono M a b : a <= b -> clamp M a <= clamp M b.
Proof. intros H. unfold clamp. apply Rle_max_compat_l. apply Rle_min_compat_r. exact H. Qed.

Lemma clamp_id M r : - M <= r <= M -> clamp M r = r.
Proof. intros [H1 H2]. unfold clamp. rewrite Rmin_left by lra. rewrite Rmax_right by lra. reflexivity. Qed.

Lemma clamp_hi M r : 0 <= M -> M <= r -> clamp M r = M.
Proof. intros H0 H. unfold clamp. rewrite Rmin_right by lra. rewrite Rmax_right by lra. reflexivity. Qed.

Lemma clamp_lo M r : 0 <= M -> r <= - M -> clamp M r = - M.
Proof. intros H0 H. unfold clamp. rewrite Rmin_left by lra. rewrite Rmax_left by lra. reflexivity. Qed.

Lemma clamp_below M r b : - M <= b -> r <= b -> clamp M r <= b.
Proof. intros H1 H2. unfold clamp. apply Rmax_lub; [exact H1|]. apply Rle_trans with (2 := H2), Rmin_l. Qed.

Lemma clamp_above M r b : b <= M -> b <= r -> b <= clamp M r.
Proof. intros H1 H2. unfold clamp. apply Rle_trans with (2 := Rmax_r _ _). apply Rmin_glb; assumption. Qed.

(* round to nearest even in the format of binary_float prec emax, and the shape
   "extended value of the result = clamp (round (exact value))" that every operation used here has *)
Section Round.
  Context {prec emax : Z} {Hp : Prec_gt_0 prec} {Hm : Prec_lt_emax prec emax}.
  Existing Instance fexp_correct.
  Notation fexp := (SpecFloat.fexp prec emax).
  Notation M := (bpow radix2 emax).

  Definition rnd (r : R) : R := round radix2 fexp ZnearestE r.

  Lemma rnd_mono a b : a <= b -> rnd a <= rnd b.
  Proof. apply round_le; auto with typeclass_instances. Qed.

  Lemma rnd_0 : rnd 0 = 0.
  Proof. apply round_0. auto with typeclass_instances. Qed.

  Lemma rnd_gen r : generic_format radix2 fexp r -> rnd r = r.
  Proof. apply round_generic. auto with typeclass_instances. Qed.

  (* the format has no largest exponent: the overflow threshold and everything above it is a value *)
  Lemma gen_bpow e : (emax <= e)%Z -> generic_format radix2 fexp (bpow radix2 e).
  Proof.
    intros He. apply generic_format_bpow. unfold SpecFloat.fexp, SpecFloat.emin.
    unfold Prec_gt_0, Prec_lt_emax in *. lia.
  Qed.

  Lemma rnd_below v b : generic_format radix2 fexp b -> - M <= b -> v <= b -> clamp M (rnd v) <= b.
  Proof.
    intros G Hb H. apply clamp_below; [exact Hb|]. apply round_le_generic; auto with typeclass_instances.
  Qed.

  Lemma rnd_above v b : generic_format radix2 fexp b -> b <= M -> b <= v -> b <= clamp M (rnd v).
  Proof.
    intros G Hb H. apply clamp_above; [exact Hb|]. apply round_ge_generic; auto with typeclass_instances.
  Qed.

  (* Flocq states binary_normalize_correct and Bmult_correct in this form: below the threshold the
     result is the rounding (P is what they say of its sign), otherwise it is binary_overflow with
     the sign s of the exact value, which in mode_NE is the infinity of that sign *)
  Lemma rounded_ext (z : binary_float prec emax) (v : R) (s : bool) (P : Prop) :
    (if Rlt_bool (Rabs (rnd v)) M then B2R z = rnd v /\ is_finite z = true /\ P
     else B2SF z = binary_overflow prec emax mode_NE s) ->
    (if s then v <= 0 else 0 <= v) ->
    nonnan z /\ ext z = clamp M (rnd v).
  Proof.
    pose proof (bpow_gt_0 radix2 emax) as G. intros C S.
    destruct (Rlt_bool_spec (Rabs (rnd v)) M) as [L|L].
    - destruct C as (C1 & C2 & _). split; [exact (finite_nonnan _ _ z C2)|].
      rewrite (ext_finite _ _ z C2), C1. apply Rabs_lt_inv in L. symmetry. apply clamp_id. lra.
    - destruct z as [s'|s'| |s' m' e' H']; try discriminate C.
      injection C as ->. split; [reflexivity|]. cbn [ext]. destruct s.
      + assert (rnd v <= 0) as N by (rewrite <- rnd_0; apply rnd_mono, S).
        rewrite Rabs_left1 in L by exact N. rewrite clamp_lo; lra.
      + assert (0 <= rnd v) as N by (rewrite <- rnd_0; apply rnd_mono, S).
        rewrite Rabs_pos_eq in L by exact N. rewrite clamp_hi; lra.
  Qed.

  Lemma normalize_exact mx ex sz : let v := F2R (Float radix2 mx ex) in
    generic_format radix2 fexp v -> Rabs v < M ->
    let z := binary_normalize prec emax Hp Hm mode_NE mx ex sz in is_finite z = true /\ B2R z = v.
  Proof.
    intros v G L z.
    pose proof (binary_normalize_correct prec emax Hp Hm mode_NE mx ex sz) as C. cbv zeta in C. fold v z in C.
    rewrite round_generic, Rlt_bool_true in C by auto with typeclass_instances. tauto.
  Qed.

  Lemma Bsign_B2R (x : binary_float prec emax) : if Bsign x then B2R x <= 0 else 0 <= B2R x.
  Proof.
    destruct x as [s|s| |s m e H]; cbn [Bsign B2R]; try (destruct s; lra); [lra|].
    destruct s; [apply F2R_le_0 | apply F2R_ge_0]; cbn [Fnum cond_Zopp]; lia.
  Qed.
End Round.

Notation rnd32 := (@rnd 24 128).
Notation rnd64 := (@rnd 53 1024).
Notation M32 := (bpow radix2 128).
Notation M64 := (bpow radix2 1024).
Definition fexp32 := FLT_exp (3 - 128 - 24) 24.
Definition fexp64 := FLT_exp (3 - 1024 - 53) 53.

Lemma M32_pos : 0 < M32. Proof. apply bpow_gt_0. Qed.
Lemma M32_le_M64 : M32 <= M64. Proof. apply bpow_le. lia. Qed.

(* float32(d): value = clamp (round32 value) *)
Lemma to32_spec (x : f64) : nonnan x ->
  nonnan (to32 x) /\ ext32 (to32 x) = clamp M32 (rnd32 (ext64 x)).
Proof.
  pose proof M32_pos as G32. pose proof M32_le_M64 as GL.
  intros Hn. destruct x as [s|s| |s m e H]; [| |discriminate|].
  - split; [reflexivity|]. cbn [to32 ext B2R]. rewrite rnd_0, clamp_id; [reflexivity | lra].
  - split; [reflexivity|]. cbn [to32 ext].
    pose proof (gen_bpow (prec := 24) (emax := 128) 1024 ltac:(lia)) as GM.
    destruct s; rewrite rnd_gen by auto using generic_format_opp; [rewrite clamp_lo | rewrite clamp_hi]; lra.
  - pose proof (binary_normalize_correct 24 128 Hprec32 Hmax32 mode_NE (cond_Zopp s (Zpos m)) e s) as C.
    cbv zeta in C. apply (rounded_ext _ _ _ _ C). case Rlt_bool_spec; lra.
Qed.

Lemma to32_mono (x y : f64) : nonnan x -> nonnan y -> ext64 x <= ext64 y ->
  ext32 (to32 x) <= ext32 (to32 y).
Proof.
  intros Hx Hy H. rewrite (proj2 (to32_spec x Hx)), (proj2 (to32_spec y Hy)).
  apply clamp_mono. apply rnd_mono. exact H.
Qed.

(* m * 2^-23 for a positive m below 2^24 is a float64 *)
Lemma const23_spec (m : Z) : (0 < m < 2 ^ 24)%Z ->
  let c := binary_normalize 53 1024 Hprec64 Hmax64 mode_NE m (-23) false in
  is_finite c = true /\ B2R c = IZR m * / 8388608.
Proof.
  intros Hm. change (IZR m * / 8388608) with (F2R (Float radix2 m (-23))). apply normalize_exact.
  - apply generic_format_FLT. exists (Float radix2 m (-23)); cbn [Fnum Fexp]; [reflexivity| |discriminate].
    change (radix2 ^ 53)%Z with (2 ^ 53)%Z. lia.
  - apply Rlt_le_trans with (bpow radix2 1); [|apply bpow_le; lia].
    apply F2R_lt_bpow. cbn [Fnum Fexp]. change (radix2 ^ (1 - -23))%Z with (2 ^ 24)%Z. lia.
Qed.

Lemma c_towards_spec : is_finite c_towards = true /\ B2R c_towards = 1 - / 8388608.
Proof. unfold c_towards. destruct (const23_spec 8388607) as [F ->]; [lia|]. split; [exact F|lra]. Qed.

Lemma c_away_spec : is_finite c_away = true /\ B2R c_away = 1 + / 8388608.
Proof. unfold c_away. destruct (const23_spec 8388609) as [F ->]; [lia|]. split; [exact F|lra]. Qed.

Global Opaque c_towards c_away.

(* x * c: value = clamp (round64 (x * c)), like float32(d) above *)
Lemma mul64_spec (x c : f64) : is_finite x = true -> is_finite c = true ->
  nonnan (mul64 x c) /\ ext64 (mul64 x c) = clamp M64 (rnd64 (B2R x * B2R c)).
Proof.
  intros Fx Fc. pose proof (Bmult_correct 53 1024 Hprec64 Hmax64 mode_NE x c) as C. rewrite Fx, Fc in C.
  apply (rounded_ext _ _ _ _ C).
  pose proof (Bsign_B2R x) as Sx. pose proof (Bsign_B2R c) as Sc. destruct (Bsign x), (Bsign c); cbn [xorb]; nra.
Qed.

Lemma lt64_zero (x : f64) : is_finite x = true -> lt64 x zero64 = Rlt_bool (B2R x) 0.
Proof. intros F. unfold lt64. rewrite (Bcompare_correct 53 1024 x zero64 F eq_refl). reflexivity. Qed.

(* if d < 0 { float32(d * (1 - k)) } else { float32(d * (1 + k)) } is d + k * |d|, rounded twice *)
Lemma nudge_spec (k : R) (cn cp x : f64) : is_finite x = true ->
  is_finite cn = true -> B2R cn = 1 - k -> is_finite cp = true -> B2R cp = 1 + k ->
  let f := if lt64 x zero64 then to32 (mul64 x cn) else to32 (mul64 x cp) in
  nonnan f /\ ext32 f = clamp M32 (rnd32 (clamp M64 (rnd64 (B2R x + k * Rabs (B2R x))))).
Proof.
  intros F Fn En Fp Ep. cbv zeta. rewrite (lt64_zero x F). destruct (Rlt_bool_spec (B2R x) 0) as [N|P].
  - rewrite Rabs_left by exact N.
    replace (B2R x + k * - B2R x) with (B2R x * B2R cn) by (rewrite En; ring).
    destruct (mul64_spec x cn F Fn) as [N' <-]. apply to32_spec, N'.
  - rewrite Rabs_pos_eq by exact P.
    replace (B2R x + k * B2R x) with (B2R x * B2R cp) by (rewrite Ep; ring).
    destruct (mul64_spec x cp F Fp) as [N' <-]. apply to32_spec, N'.
Qed.

(* the nudge of rtreeValueDown subtracts |x| * 2^-23, that of rtreeValueUp adds it *)
Lemma mul_down_spec (x : f64) : is_finite x = true ->
  let f := if lt64 x zero64 then to32 (mul64 x c_away) else to32 (mul64 x c_towards) in
  nonnan f /\ ext32 f = clamp M32 (rnd32 (clamp M64 (rnd64 (B2R x + - / 8388608 * Rabs (B2R x))))).
Proof. intros F. destruct c_towards_spec as [T1 T2], c_away_spec as [A1 A2]. apply nudge_spec; auto; lra. Qed.

Lemma mul_up_spec (x : f64) : is_finite x = true ->
  let f := if lt64 x zero64 then to32 (mul64 x c_towards) else to32 (mul64 x c_away) in
  nonnan f /\ ext32 f = clamp M32 (rnd32 (clamp M64 (rnd64 (B2R x + / 8388608 * Rabs (B2R x))))).
Proof. intros F. destruct c_towards_spec as [T1 T2], c_away_spec as [A1 A2]. apply nudge_spec; auto; lra. Qed.

(* the branch of down/up is taken only for finite arguments *)
Lemma back_finite (x : f64) :
  gt64 (to64 (to32 x)) x = true \/ lt64 (to64 (to32 x)) x = true -> is_finite x = true.
Proof.
  destruct x as [s|s| |s m e H]; cbn; auto; unfold gt64, lt64; cbn; [destruct s|]; intros [|]; discriminate.
Qed.

(* the nudge product does not pass x, which is a float64, so neither does its float32 *)
Lemma down_le_to32 (x : f64) : nonnan x -> nonnan (down x) /\ ext32 (down x) <= ext32 (to32 x).
Proof.
  intros Hn. unfold down. cbv zeta. destruct (gt64 (to64 (to32 x)) x) eqn:G.
  - pose proof (back_finite x (or_introl G)) as F. destruct (mul_down_spec x F) as [N ->].
    split; [exact N|]. rewrite (proj2 (to32_spec x Hn)). apply clamp_mono, rnd_mono.
    pose proof (ext_bounds 53 1024 x) as B. rewrite (ext_finite _ _ x F) in B |- *.
    apply rnd_below; [apply generic_format_B2R | lra | pose proof (Rabs_pos (B2R x)); lra].
  - split; [apply to32_spec; exact Hn | apply Rle_refl].
Qed.

Lemma to32_le_up (x : f64) : nonnan x -> nonnan (up x) /\ ext32 (to32 x) <= ext32 (up x).
Proof.
  intros Hn. unfold up. cbv zeta. destruct (lt64 (to64 (to32 x)) x) eqn:G.
  - pose proof (back_finite x (or_intror G)) as F. destruct (mul_up_spec x F) as [N ->].
    split; [exact N|]. rewrite (proj2 (to32_spec x Hn)). apply clamp_mono, rnd_mono.
    pose proof (ext_bounds 53 1024 x) as B. rewrite (ext_finite _ _ x F) in B |- *.
    apply rnd_above; [apply generic_format_B2R | lra | pose proof (Rabs_pos (B2R x)); lra].
  - split; [apply to32_spec; exact Hn | apply Rle_refl].
Qed.

Lemma round_monotone_ext (x y : f64) : nonnan x -> nonnan y -> ext64 x <= ext64 y ->
  nonnan (down x) /\ nonnan (up y) /\ ext32 (down x) <= ext32 (up y).
Proof.
  intros Hx Hy H.
  destruct (down_le_to32 x Hx) as [D1 D2]. destruct (to32_le_up y Hy) as [U1 U2].
  split; auto. split; auto.
  eapply Rle_trans; [exact D2|]. eapply Rle_trans; [|exact U2]. apply to32_mono; auto.
Qed.

Lemma le64_ext (a b : f64) : nonnan a -> nonnan b -> (le64 a b = true <-> ext64 a <= ext64 b).
Proof. apply Bcompare_le. Qed.

Lemma le32_ext (a b : f32) : nonnan a -> nonnan b -> (le32 a b = true <-> ext32 a <= ext32 b).
Proof. apply Bcompare_le. Qed.

Lemma lt32_ext (a b : f32) : nonnan a -> nonnan b -> (lt32 a b = true <-> ext32 a < ext32 b).
Proof.
  intros Ha Hb. unfold lt32. rewrite (Bcompare_ext 24 128 a b Ha Hb).
  destruct (Rcompare_spec (ext32 a) (ext32 b)); split; intros; try lra; try discriminate; auto.
Qed.

Lemma le64_nonnan (a b : f64) : le64 a b = true -> nonnan a /\ nonnan b.
Proof.
  unfold le64, nonnan. destruct a, b; cbn; try discriminate; auto.
Qed.

(* round_monotone, in terms of the executable comparisons: le64 x y (Go's x <= y, false on NaN)
   implies le32 (down x) (up y) *)
Theorem round_monotone (x y : f64) : le64 x y = true -> le32 (down x) (up y) = true.
Proof.
  intros H. destruct (le64_nonnan x y H) as [Hx Hy].
  apply (le64_ext x y Hx Hy) in H.
  destruct (round_monotone_ext x y Hx Hy H) as (D & U & L).
  apply (le32_ext _ _ D U). exact L.
Qed.
