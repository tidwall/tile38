(* C06 — lemmas about Model/FollowGen.v (follow generations, followers without a log).
   First the obligations that tie the model's configuration to the source as rendered by t38x
   (Gen/FollowSteps.v), then the properties of the transition system. *)
From Coq Require Import List ZArith Bool String Arith Lia.
From T38 Require Import Base.Bytes Base.ListFacts Model.Follow Model.FollowGen Gen.FollowSteps.
Import ListNotations.

(* in the caught-up block of the read loop the stale attempt returns under the generation test; nothing of the block
   that touches the server is reached by it *)
Lemma stale_in_loop_block_reaches_nothing :
  stale_run (after_plain_unlock (after_call "call s.followHandleCommand" follow_step)) = SFallsOff.
Proof. vm_compute. reflexivity. Qed.

(* follow() ends a generation on errNoLongerFollowing only *)
Lemma follow_loop_transcribed :
  map (fun x : gstmt => (fst (fst x), snd x)) follow_loop =
  [(["for"], ["call s.followStep"]); (["for"; "err == errNoLongerFollowing"], []);
   (["for"; "err != nil && err != io.EOF"], []); (["for"], [])]%string.
Proof. vm_compute. reflexivity. Qed.

(* followStartOver for a server with and without a log *)
Lemma start_over_transcribed : forall aof, so_run aof follow_start_over = Some (proved_ops aof).
Proof. intros [|]; vm_compute; reflexivity. Qed.

(* followReset always runs FLUSHDB (collections, hooks, channels and their indexes) and reset() (aofsz = 0,
   collections), whatever else it does (other statements of the function are not constrained) *)
Lemma follow_reset_transcribed :
  calls_unguarded "call s.cmdFLUSHDB" follow_reset = true /\ calls_unguarded "call s.reset" follow_reset = true.
Proof. vm_compute. split; reflexivity. Qed.

Open Scope list_scope.
Open Scope Z_scope.

Section P.
  Variable digest : Type.
  Variable md5 : bytes -> digest.
  Variable digest_eqb : digest -> digest -> bool.
  Variable csz : Z.
  Variable st : Type.
  Variable st0 : st.
  Variable app : record -> st -> st * bool.

  Notation gstep := (gstep digest md5 digest_eqb csz st st0 app).
  Notation grun := (grun digest md5 digest_eqb csz st st0 app).
  Notation world := (world st).

  Lemma start_over_resets : forall aof (d : gdata st),
    let d' := start_over st st0 (proved_ops aof) d in
    d_mem st d' = st0 /\ d_aofsz st d' = 0 /\
    (aof = true -> d_file st d' = []) /\ (aof = false -> d_file st d' = d_file st d).
  Proof. intros [|] d; cbn; repeat split; intros; try reflexivity; discriminate. Qed.

  Lemma nth_set_nth_eq : forall (A : Type) (l : list A) i x y,
    nth_error l i = Some y -> nth_error (set_nth l i x) i = Some x.
  Proof.
    induction l as [|h t IH]; intros [|i] x y H; cbn in *; try discriminate; try reflexivity.
    eapply IH; eauto.
  Qed.

  Lemma map_set_nth_gen : forall (l : list att) i a p,
    nth_error l i = Some a ->
    map (@a_gen) (set_nth l i {| a_gen := a_gen a; a_ph := p |}) = map (@a_gen) l.
  Proof.
    induction l as [|h t IH]; intros [|i] a p H; cbn in *; try discriminate; try reflexivity.
    - inversion H; subst. reflexivity.
    - f_equal. eapply IH; eauto.
  Qed.

  (* where a generation test stands (c), a stale attempt ends ... *)
  Lemma stale_caught : forall (w : world) a c, a_gen a <> w_cur st w -> c && stale st w a = c.
  Proof. intros w a c H. unfold stale. apply Nat.eqb_neq in H. rewrite H. apply andb_true_r. Qed.

  (* ... and an attempt of the current generation passes *)
  Lemma current_passes : forall (w : world) a c, a_gen a = w_cur st w -> c && stale st w a = false.
  Proof. intros w a c H. unfold stale. rewrite H, Nat.eqb_refl. apply andb_false_r. Qed.

  Lemma gens_set_ph : forall (w : world) i a p,
    nth_error (w_atts st w) i = Some a -> gens st (set_ph st w i a p) = gens st w.
  Proof. intros w i a p. apply map_set_nth_gen. Qed.

  (* a step of a stale attempt: the attempts keep their generations and s.followc stays; the data change only below an
     unguarded generation test; the caught-up flag is raised only at an unguarded place (it may be cleared: GClear) *)
  Definition stale_effect (cfg : gcfg) (w w' : world) (e : gev) (i : nat) : Prop :=
    (gens st w' = gens st w /\ w_cur st w' = w_cur st w) /\
    (w_data st w' = w_data st w \/ (exists l, e = GCheck i l) /\ c_check cfg = false \/
                                   e = GDeliver i /\ c_cmd cfg = false) /\
    (w_cup st w' = true -> w_cup st w = true \/ (exists l, e = GAof i l) /\ c_aofg cfg = false \/
                                              e = GFlag i /\ c_flagg cfg = false).

  Lemma quiet_effect : forall cfg (w w' : world) e i,
    gens st w' = gens st w -> w_cur st w' = w_cur st w -> w_data st w' = w_data st w ->
    (w_cup st w' = true -> w_cup st w = true) -> stale_effect cfg w w' e i.
  Proof. unfold stale_effect. auto. Qed.

  Ltac quiet := apply quiet_effect; auto.

  Lemma stale_step : forall cfg aof ops (w : world) e i a,
    actor e = Some i -> nth_error (w_atts st w) i = Some a -> a_gen a <> w_cur st w ->
    stale_effect cfg w (gstep cfg aof ops w e) e i.
  Proof.
    intros cfg aof ops w e i a Ha Hn Hs.
    (* whatever branch is taken, attempt i gets a new phase: [Hg] for every phase p *)
    pose proof (fun p => gens_set_ph w i a p Hn) as Hg.
    destruct e; cbn in Ha; try discriminate; injection Ha as ->;
      unfold FollowGen.gstep, with_att; rewrite Hn; cbv zeta;
      destruct (a_ph a) as [| | | | |s|]; try (quiet; fail); rewrite ?stale_caught by exact Hs.
    (* left: the phases in which GTopCheck, GClear, GCheck, GAof, GDeliver, GFlag do something *)
    - destruct (c_top cfg); quiet.
    - apply quiet_effect; [apply Hg | reflexivity | reflexivity | discriminate].
    - destruct (c_check cfg) eqn:G; [quiet|].
      destruct (resync _ _ _ _ _ _ _ _ _ _ _) as [? [?|]];
        (split; [split; [apply Hg | reflexivity]|]); (split; [right; left; eauto | auto]).
    - destruct (c_aofg cfg) eqn:G; [quiet|].
      destruct (drop_bytes l pos); [|quiet].
      split; [split; [apply Hg | reflexivity]|]. split; [auto|]. right; left; eauto.
    - destruct (gs_pend s); [quiet|]. destruct (gs_rest s); [quiet|].
      destruct (c_cmd cfg) eqn:G; [quiet|]. destruct (app _ _).
      split; [split; [apply Hg | reflexivity] | split; auto].
    - destruct (gs_pend s); [|quiet].
      destruct (c_flagg cfg) eqn:G; [quiet|]. split; [split; [apply Hg | reflexivity] | split; auto].
  Qed.

  (* a stale attempt changes nothing of the follower's log, dataset, aofsz *)
  Lemma stale_inert : forall cfg aof ops (w : world) e i a,
    c_check cfg = true -> c_cmd cfg = true ->
    actor e = Some i -> nth_error (w_atts st w) i = Some a -> a_gen a <> w_cur st w ->
    w_data st (gstep cfg aof ops w e) = w_data st w /\ w_cur st (gstep cfg aof ops w e) = w_cur st w.
  Proof.
    intros cfg aof ops w e i a Hc Hm Ha Hn Hs.
    destruct (stale_step cfg aof ops w e i a Ha Hn Hs) as ((_ & Hcur) & [Hd|[[_ Hd]|[_ Hd]]] & _); [auto | congruence..].
  Qed.

  (* the caught-up flag: a stale attempt can clear it (GClear); it cannot raise it if the two places after the
     network round trips are guarded as well (in [pinned_cfg], the code without
     proposed_fixes/C06-stale-generation-flag.diff, they are not: Props c06g_stale_flag_pinned_refuted) *)
  Lemma stale_flag_partial : forall cfg aof ops (w : world) e i a,
    c_aofg cfg = true -> c_flagg cfg = true ->
    actor e = Some i -> nth_error (w_atts st w) i = Some a -> a_gen a <> w_cur st w ->
    w_cup st (gstep cfg aof ops w e) = true -> w_cup st w = true.
  Proof.
    intros cfg aof ops w e i a Hc Hm Ha Hn Hs H.
    destruct (stale_step cfg aof ops w e i a Ha Hn Hs) as (_ & _ & Hcup).
    destruct (Hcup H) as [Hw|[[_ Hw]|[_ Hw]]]; [exact Hw | congruence..].
  Qed.

  (* whatever the configuration: every step of a stale attempt except GAof / GFlag *)
  Lemma stale_flag_other_steps : forall cfg aof ops (w : world) e i a,
    actor e = Some i -> nth_error (w_atts st w) i = Some a -> a_gen a <> w_cur st w ->
    (forall l, e <> GAof i l) -> e <> GFlag i ->
    w_cup st (gstep cfg aof ops w e) = true -> w_cup st w = true.
  Proof.
    intros cfg aof ops w e i a Ha Hn Hs Hna Hnf H.
    destruct (stale_step cfg aof ops w e i a Ha Hn Hs) as (_ & _ & Hcup).
    destruct (Hcup H) as [Hw|[[[l He] _]|[He _]]]; [exact Hw | destruct (Hna l He) | destruct (Hnf He)].
  Qed.

  (* an event of an attempt whose generation (in the list G) is not c *)
  Definition stale_ev (G : list nat) (c : nat) (e : gev) : Prop :=
    exists i g, actor e = Some i /\ nth_error G i = Some g /\ g <> c.

  Lemma stale_ev_att : forall (w : world) e, stale_ev (gens st w) (w_cur st w) e ->
    exists i a, actor e = Some i /\ nth_error (w_atts st w) i = Some a /\ a_gen a <> w_cur st w.
  Proof.
    intros w e (i & g & Ha & Hg & Hne). unfold gens in Hg. rewrite nth_error_map in Hg.
    destruct (nth_error (w_atts st w) i) as [a|] eqn:Hn; cbn in Hg; [|discriminate].
    injection Hg as <-. exists i, a. auto.
  Qed.

  (* any number of steps of stale attempts: they stay stale (generations and s.followc do not move), so the
     single-step facts add up *)
  Lemma stale_steps : forall cfg aof ops es (w : world),
    Forall (stale_ev (gens st w) (w_cur st w)) es ->
    let w' := grun cfg aof ops w es in
    (gens st w' = gens st w /\ w_cur st w' = w_cur st w) /\
    (c_check cfg = true -> c_cmd cfg = true -> w_data st w' = w_data st w) /\
    (c_aofg cfg = true -> c_flagg cfg = true -> w_cup st w' = true -> w_cup st w = true).
  Proof.
    intros cfg aof ops es w HF. cbv zeta. unfold FollowGen.grun. pattern (fold_left (gstep cfg aof ops) es w).
    apply fold_left_inv; [|auto].
    intros w1 e He ((Eg & Ec) & Hd & Hc). rewrite Forall_forall in HF. specialize (HF e He). rewrite <- Eg, <- Ec in HF.
    destruct (stale_ev_att w1 e HF) as (i & a & Ha & Hn & Hne).
    pose proof (stale_step cfg aof ops w1 e i a Ha Hn Hne) as ((Eg' & Ec') & _).
    split; [split; congruence|]. split.
    - intros G1 G2. destruct (stale_inert cfg aof ops w1 e i a G1 G2 Ha Hn Hne) as [-> _]. auto.
    - intros G1 G2 H. apply (Hc G1 G2), (stale_flag_partial cfg aof ops w1 e i a G1 G2 Ha Hn Hne H).
  Qed.

  Lemma replay_snoc : forall (f : file) (r : record), replay st st0 app (f ++ [r])%list = fst (app r (replay st st0 app f)).
  Proof. intros f r. unfold replay, replay_from. rewrite fold_left_app. reflexivity. Qed.

  Section NoLog.
  Hypothesis csz_pos : 0 < csz.

  (* s.aof == nil: nothing is ever logged, aofsz is 0 from process start on *)
  Definition noaof_wf (d : gdata st) : Prop := d_file st d = [] /\ d_aofsz st d = 0.

  (* followCheckSome of the current generation: WHATEVER the follower holds in memory, it holds nothing afterwards *)
  Lemma noaof_check_resets : forall cfg (w : world) i a sz l,
    nth_error (w_atts st w) i = Some a -> a_gen a = w_cur st w -> a_ph a = PServer sz ->
    noaof_wf (w_data st w) ->
    gstep cfg false proved_ops w (GCheck i l) =
    set_data st (set_ph st w i a (PChecked sz 0)) {| d_file := []; d_mem := st0; d_aofsz := 0 |}.
  Proof.
    intros cfg w i a sz l Hn Hg Hp [Hf Hz].
    unfold FollowGen.gstep, with_att. rewrite Hn, Hp, current_passes by exact Hg.
    unfold resync, check_some. rewrite Hz.
    assert (E : (0 <? csz) = true) by (apply Z.ltb_lt; exact csz_pos). rewrite E. cbn.
    rewrite Hf. reflexivity.
  Qed.

  Definition ses_ev (i : nat) (e : gev) : Prop := e = GDeliver i \/ e = GFlag i \/ exists r, e = GFeed i r.

  (* the invariant of a session of the current generation on a follower without a log: the dataset is the replay
     of what has been handed over, and handed over ++ pending = the leader's log at AOF time ++ what it logged since *)
  Definition noaof_inv (i : nat) (l : file) (F : file) (w : world) : Prop :=
    exists s, nth_error (w_atts st w) i = Some {| a_gen := w_cur st w; a_ph := PStream s |} /\
      d_mem st (w_data st w) = replay st st0 app (gs_done s) /\ gs_done s ++ gs_rest s = l ++ F /\
      noaof_wf (w_data st w).

  (* attempt i moves on to the stream state s': the invariant sees a world through attempt i, s.followc and the data *)
  Lemma noaof_inv_set_ph : forall i l F (w : world) a s' d c,
    nth_error (w_atts st w) i = Some a -> a_gen a = w_cur st w ->
    d_mem st d = replay st st0 app (gs_done s') -> gs_done s' ++ gs_rest s' = l ++ F -> noaof_wf d ->
    noaof_inv i l F {| w_data := d; w_cup := c; w_cur := w_cur st w;
                       w_atts := w_atts st (set_ph st w i a (PStream s')) |}.
  Proof.
    intros i l F w a s' d c Hn Hg Hm Hd Hwf. exists s'. cbn. rewrite <- Hg.
    split; [exact (nth_set_nth_eq _ _ _ _ _ Hn) | auto].
  Qed.

  Lemma noaof_inv_step : forall cfg i l F (w : world) e,
    noaof_inv i l F w -> ses_ev i e ->
    noaof_inv i l (F ++ fed [e]) (gstep cfg false proved_ops w e).
  Proof.
    intros cfg i l F w e HI He. pose proof HI as (s & Hn & Hm & Hd & Hwf).
    destruct He as [->|[->|[r ->]]]; cbn [fed]; rewrite ?app_nil_r;
      unfold FollowGen.gstep, with_att; rewrite Hn; cbn [a_ph]; rewrite ?current_passes by reflexivity.
    - destruct (gs_pend s); [exact HI|]. destruct (gs_rest s) as [|r rest] eqn:Er; [exact HI|].
      destruct (app r (d_mem st (w_data st w))) as [mem' upd] eqn:Ea.
      apply (noaof_inv_set_ph i l F w _ _ _ _ Hn eq_refl); cbn [d_mem gs_done gs_rest].
      + rewrite replay_snoc, <- Hm, Ea. reflexivity.
      + rewrite <- app_assoc. exact Hd.
      + exact Hwf.
    - destruct (gs_pend s); [|exact HI].
      apply (noaof_inv_set_ph i l F w _ _ _ _ Hn eq_refl); assumption.
    - apply (noaof_inv_set_ph i l (F ++ [r]) w _ _ _ _ Hn eq_refl); cbn; [exact Hm | | exact Hwf].
      rewrite app_assoc, Hd, <- app_assoc. reflexivity.
  Qed.

  Lemma fed_app : forall es1 es2, fed (es1 ++ es2) = fed es1 ++ fed es2.
  Proof.
    induction es1 as [|e es1 IH]; intros es2; [reflexivity|].
    destruct e; cbn; rewrite ?IH; reflexivity.
  Qed.

  Lemma noaof_inv_run : forall cfg i l es F (w : world),
    noaof_inv i l F w -> Forall (ses_ev i) es ->
    noaof_inv i l (F ++ fed es) (grun cfg false proved_ops w es).
  Proof.
    intros cfg i l es. induction es as [|e es IH]; intros F w HI HF.
    - cbn. rewrite app_nil_r. exact HI.
    - inversion HF as [|? ? He HF']; subst.
      replace (fed (e :: es)) with (fed [e] ++ fed es) by (symmetry; apply (fed_app [e])).
      rewrite app_assoc. exact (IH _ _ (noaof_inv_step cfg i l F w e HI He) HF').
  Qed.

  (* what the invariant says once everything handed over has been handled: the dataset is the replay of the leader's
     log (as of the handshake ++ logged since) *)
  Lemma noaof_inv_drained : forall i l F (w : world),
    noaof_inv i l F w ->
    exists s, phase_of st w i = Some (PStream s) /\
      (gs_rest s = [] -> d_mem st (w_data st w) = replay st st0 app (l ++ F) /\ gs_done s = l ++ F) /\
      noaof_wf (w_data st w).
  Proof.
    intros i l F w (s & Hn & Hm & Hd & Hwf). exists s. split; [unfold phase_of; rewrite Hn; reflexivity|].
    split; [|exact Hwf]. intro Er. rewrite Er, app_nil_r in Hd. rewrite Hm, Hd. split; reflexivity.
  Qed.

  (* a follower without a log, from ANY dataset: FOLLOW's / a reconnect's followCheckSome, the AOF handshake, then
     any interleaving of deliveries, flag updates and leader appends *)
  Lemma noaof_session : forall cfg (w : world) i a l es,
    nth_error (w_atts st w) i = Some a -> a_gen a = w_cur st w -> a_ph a = PServer (flen l) ->
    noaof_wf (w_data st w) -> Forall (ses_ev i) es ->
    noaof_inv i l (fed es)
      (grun cfg false proved_ops (gstep cfg false proved_ops (gstep cfg false proved_ops w (GCheck i l)) (GAof i l)) es).
  Proof.
    intros cfg w i a l es Hn Hg Hp Hwf HF. rewrite (noaof_check_resets cfg w i a (flen l) l Hn Hg Hp Hwf).
    set (w1 := set_data st _ _). apply (noaof_inv_run cfg i l es []); [|exact HF].
    assert (Hn1 : nth_error (w_atts st w1) i = Some {| a_gen := a_gen a; a_ph := PChecked (flen l) 0 |})
      by exact (nth_set_nth_eq _ _ _ _ _ Hn).
    unfold FollowGen.gstep, with_att. rewrite Hn1. cbn [a_ph]. rewrite current_passes by exact Hg.
    assert (Ed : drop_bytes l 0 = Some l) by (destruct l; reflexivity). rewrite Ed.
    apply (noaof_inv_set_ph i l [] w1 _ _ _ _ Hn1 Hg); [reflexivity | symmetry; apply app_nil_r | split; reflexivity].
  Qed.
  End NoLog.
End P.
