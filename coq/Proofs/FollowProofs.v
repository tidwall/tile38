(* C06 — lemmas about the follower resync model (Model/Follow.v). *)
From Coq Require Import List ZArith Bool Lia.
From Coq Require Import ZifyN ZifyNat ZifyBool.
From T38 Require Import Base.Bytes Base.ListFacts Model.Follow.
Import ListNotations.
Open Scope Z_scope.

Lemma zlen_acc_spec : forall l a, zlen_acc l a = a + Z.of_nat (length l).
Proof. induction l as [|x l IH]; intros a; cbn [zlen_acc length]; [lia|]. rewrite IH. lia. Qed.

Lemma blen_spec : forall b, blen b = Z.of_nat (length b).
Proof. intros b. unfold blen. rewrite zlen_acc_spec. lia. Qed.

Lemma blen_nonneg : forall b, 0 <= blen b.
Proof. intros b. rewrite blen_spec. lia. Qed.

Lemma blen_app : forall a b, blen (a ++ b) = blen a + blen b.
Proof. intros. rewrite !blen_spec, app_length. lia. Qed.

Lemma flen_acc_spec : forall f a, flen_acc f a = a + blen (fbytes f).
Proof.
  induction f as [|r f IH]; intros a; cbn [flen_acc fbytes concat].
  - rewrite blen_spec. cbn. lia.
  - rewrite IH, zlen_acc_spec. fold (fbytes f). rewrite blen_app, !blen_spec. lia.
Qed.

Lemma flen_spec : forall f, flen f = blen (fbytes f).
Proof. intros. unfold flen. rewrite flen_acc_spec. lia. Qed.

Lemma flen_nil : flen [] = 0.
Proof. reflexivity. Qed.

Lemma flen_cons : forall r f, flen (r :: f) = blen r + flen f.
Proof. intros. rewrite !flen_spec. cbn [fbytes concat]. fold (fbytes f). apply blen_app. Qed.

Lemma fbytes_app : forall a b, fbytes (a ++ b) = fbytes a ++ fbytes b.
Proof. intros. unfold fbytes. apply concat_app. Qed.

Lemma flen_app : forall a b, flen (a ++ b) = flen a + flen b.
Proof. intros. rewrite !flen_spec, fbytes_app. apply blen_app. Qed.

Lemma flen_snoc : forall f r, flen (f ++ [r]) = flen f + blen r.
Proof. intros. rewrite flen_app, flen_cons, flen_nil. apply f_equal, Z.add_0_r. Qed.

Lemma flen_nonneg : forall f, 0 <= flen f.
Proof. intros. rewrite flen_spec. apply blen_nonneg. Qed.

Lemma flen_firstn_le : forall k f, flen (firstn k f) <= flen f.
Proof.
  intros k f. rewrite <- (firstn_skipn k f) at 2. rewrite flen_app.
  pose proof (flen_nonneg (skipn k f)). lia.
Qed.

Lemma firstn_flen : forall a b, firstn (Z.to_nat (flen a)) (fbytes (a ++ b)) = fbytes a.
Proof.
  intros. rewrite fbytes_app, flen_spec, blen_spec, Nat2Z.id. apply firstn_app_exact.
Qed.

Lemma zskip_spec : forall l n, zskip l n = skipn (Z.to_nat n) l.
Proof.
  induction l as [|x l IH]; intros n; cbn [zskip].
  - now rewrite skipn_nil.
  - destruct (Z.leb_spec n 0).
    + now replace (Z.to_nat n) with 0%nat by lia.
    + rewrite IH. now replace (Z.to_nat n) with (S (Z.to_nat (n - 1))) by lia.
Qed.

Lemma ztake_rev_spec : forall l n acc, ztake_rev l n acc = rev (firstn (Z.to_nat n) l) ++ acc.
Proof.
  induction l as [|x l IH]; intros n acc; cbn [ztake_rev].
  - now rewrite firstn_nil.
  - destruct (Z.leb_spec n 0).
    + now replace (Z.to_nat n) with 0%nat by lia.
    + rewrite IH. replace (Z.to_nat n) with (S (Z.to_nat (n - 1))) by lia.
      cbn [firstn rev]. now rewrite <- app_assoc.
Qed.

Lemma ztake_spec : forall l n, ztake l n = firstn (Z.to_nat n) l.
Proof.
  intros. unfold ztake, rev'. rewrite <- rev_alt, ztake_rev_spec.
  now rewrite app_nil_r, rev_involutive.
Qed.

(* checksum(pos, size) reads the window if it ends within the claimed size and within the file *)
Lemma block_spec : forall b claimed pos size,
  block b claimed pos size =
  if pos + size <=? Z.min claimed (blen b) then Some (firstn (Z.to_nat size) (skipn (Z.to_nat pos) b)) else None.
Proof.
  intros. unfold block. rewrite zskip_spec, ztake_spec.
  destruct (Z.ltb_spec claimed (pos + size)), (Z.ltb_spec (blen b) (pos + size)),
    (Z.leb_spec (pos + size) (Z.min claimed (blen b))); reflexivity || lia.
Qed.

Lemma window_length : forall (b : bytes) pos size, 0 <= pos -> pos + size <= blen b ->
  length (firstn (Z.to_nat size) (skipn (Z.to_nat pos) b)) = Z.to_nat size.
Proof. intros b pos size Hp H. rewrite blen_spec in H. apply firstn_length_le. rewrite skipn_length. lia. Qed.

Lemma window_app : forall (a r : bytes) pos size, 0 <= pos -> pos + size <= blen a ->
  firstn (Z.to_nat size) (skipn (Z.to_nat pos) (a ++ r)) = firstn (Z.to_nat size) (skipn (Z.to_nat pos) a).
Proof.
  intros a r pos size Hp H. rewrite blen_spec in H. rewrite skipn_app, firstn_app.
  replace (Z.to_nat size - length (skipn (Z.to_nat pos) a))%nat with 0%nat by (rewrite skipn_length; lia).
  apply app_nil_r.
Qed.

Section Search.
  Variable csz : Z.
  Hypothesis Hcsz : 0 < csz.

  (* Each round moves min up by a block or limit down by at least one, so limit - min < csz * fuel is enough
     fuel; what comes back lies in any interval that holds [min, limit], and has every property of min that the
     end of a block that matched has. *)
  Lemma search_loop_spec : forall m (P : Z -> Prop) lo hi, (forall x, m x = true -> P (x + csz)) ->
    forall fuel min max limit acc,
    lo <= min <= limit -> limit <= hi -> limit - min < csz * Z.of_nat fuel -> P min ->
    exists p pr, search_loop csz fuel m min max limit acc = Some (p, pr) /\ lo <= p <= hi /\ P p.
  Proof.
    intros m P lo hi HP. induction fuel as [|k IH]; intros min max limit acc Hml Hhi Hf Hmin; cbn [search_loop]; [lia|].
    destruct ((max <? min) || (limit <? max + csz)) eqn:G; [exists min, (rev acc); auto with zarith|].
    apply orb_false_iff in G as [G1 G2]. apply Z.ltb_ge in G1, G2.
    (* the arithmetic of the two possible next rounds, before any boolean fact is in the context
       (lia is slow next to boolean hypotheses) *)
    assert (A : (lo <= max + csz <= limit /\ limit - (max + csz) < csz * Z.of_nat k) /\
                (lo <= min <= max /\ max <= hi /\ max - min < csz * Z.of_nat k)) by lia.
    destruct (m max) eqn:M; apply IH; auto; apply A.
  Qed.

  (* when the last whole block below limit matches, the first probe already pushes min up to limit *)
  Lemma search_loop_last_block : forall k m min limit acc,
    min <= limit - csz -> m (limit - csz) = true ->
    search_loop csz (S (S k)) m min (limit - csz) limit acc = Some (limit, rev ((limit - csz, csz, true) :: acc)).
  Proof.
    intros k m min limit acc Hm M. cbn [search_loop]. rewrite M. clear M.
    replace ((limit - csz <? min) || (limit <? limit - csz + csz)) with false by lia.
    replace (limit - csz + csz) with limit by lia.
    assert (0 <= Z.quot csz 2) by (apply Z.quot_pos; lia).
    replace (limit - limit) with 0 by lia. change (Z.quot 0 2) with 0.
    now replace ((0 - Z.quot csz 2 + limit <? limit) || (limit <? 0 - Z.quot csz 2 + limit + csz)) with true by lia.
  Qed.

  Lemma search_fuel_enough : forall aofsz, csz <= aofsz ->
    aofsz - csz < csz * Z.of_nat (search_fuel csz aofsz).
  Proof.
    intros aofsz H. unfold search_fuel.
    assert (0 <= Z.quot aofsz csz) by (apply Z.quot_pos; lia).
    pose proof (Z.quot_rem' aofsz csz). pose proof (Z.rem_bound_pos aofsz csz ltac:(lia) Hcsz).
    rewrite !Nat2Z.inj_succ, Z2Nat.id by lia. nia.
  Qed.
End Search.

(* getEndOfLastValuePositionInFile looks for the record that holds byte pos - 1: the first j records end at or beyond pos *)
Lemma lve_cases : forall recs off n pos, off < pos ->
  off + flen recs < pos /\ last_value_end recs off n pos = None \/
  exists j, (j <= length recs)%nat /\ pos <= off + flen (firstn j recs) /\
    last_value_end recs off n pos = Some (off + flen (firstn j recs), (n + j)%nat).
Proof.
  induction recs as [|r t IH]; intros off n pos H; cbn [last_value_end].
  - left. rewrite flen_nil. split; [lia | reflexivity].
  - rewrite flen_cons. destruct (Z.leb_spec pos (off + blen r)) as [E|E].
    + right. exists 1%nat. cbn [firstn length]. rewrite flen_cons, flen_nil, Z.add_0_r, Nat.add_1_r.
      replace (off <? pos) with true by lia. repeat split; lia.
    + destruct (IH (off + blen r) (S n) pos E) as [(Hlt & ->)|(j & Hj & Hp & ->)].
      * left. split; [lia | reflexivity].
      * right. exists (S j). cbn [firstn length]. rewrite flen_cons, Z.add_assoc, Nat.add_succ_r.
        repeat split; lia.
Qed.

Section Check.
  Variable digest : Type.
  Variable md5 : bytes -> digest.
  Variable digest_eqb : digest -> digest -> bool.
  Hypothesis digest_eqb_spec : forall a b, digest_eqb a b = true <-> a = b.
  (* MD5 is collision free on blocks of equal length — trusted *)
  Hypothesis md5_inj : forall a b, length a = length b -> md5 a = md5 b -> a = b.
  Variable csz : Z.
  Hypothesis Hcsz : 0 < csz.

  (* a match is an equality of digests of two windows of the same length, hence of the windows *)
  Lemma matchbs_spec : forall fb fsz lb lsz pos size, 0 <= pos ->
    matchbs digest md5 digest_eqb fb fsz lb lsz pos size = true <->
    pos + size <= Z.min fsz (blen fb) /\ pos + size <= Z.min lsz (blen lb) /\
    firstn (Z.to_nat size) (skipn (Z.to_nat pos) fb) = firstn (Z.to_nat size) (skipn (Z.to_nat pos) lb).
  Proof.
    intros fb fsz lb lsz pos size Hp. unfold matchbs. rewrite !block_spec.
    destruct (Z.leb_spec (pos + size) (Z.min fsz (blen fb))) as [Hf|Hf]; [|split; [discriminate | lia]].
    destruct (Z.leb_spec (pos + size) (Z.min lsz (blen lb))) as [Hl|Hl]; [|split; [discriminate | lia]].
    rewrite digest_eqb_spec. split; [|intros (_ & _ & ->); reflexivity].
    intros E. repeat (split; [assumption|]). apply md5_inj; [rewrite !window_length by lia; reflexivity | exact E].
  Qed.

  Lemma matchbs_prefix : forall (f rest : file) pos size,
    0 <= pos -> pos + size <= flen f ->
    matchbs digest md5 digest_eqb (fbytes f) (flen f) (fbytes (f ++ rest)) (flen (f ++ rest)) pos size = true.
  Proof.
    intros f rest pos size Hp Hle. apply matchbs_spec; [exact Hp|].
    rewrite fbytes_app, flen_app, blen_app, <- !flen_spec. pose proof (flen_nonneg rest).
    repeat (split; [lia|]). symmetry. apply window_app; rewrite <- ?flen_spec; assumption.
  Qed.

  Notation check_some := (check_some digest md5 digest_eqb csz).
  Notation matchb := (matchb digest md5 digest_eqb csz).
  Notation matchbs := (matchbs digest md5 digest_eqb).

  (* What followCheckSome returns, in every mode, for any two files and any claimed size, stage by stage, over
     [same pos size] = matchChecksums(conn, pos, size).  After the size test and the first block the search stops at
     some q: at most fsz, the end of a block that matched; fsz itself when the last whole block below fsz, which is the
     first probe, matches.  q is moved up to the end p of the record it falls into - j records, an error if q lies
     beyond the file.  When repaired, everything up to p is compared once more.  Last, "aof fully intact" needs p to
     be q and, except in the code as found, q to be the whole size. *)
  (* followCheckSome stage by stage, every branch condition a premise. `same pos size` stands for
     matchChecksums(conn, pos, size). cs_spec: the size test, the first block, the search, which stops at q;
     cs_tail: the follower's records are read up to the first record end p >= q (j records), and in mode
     Repaired the whole prefix of length p is compared; cs_verdict: the final test on p and q. *)
  Section Spec.
    Variables (md : mode) (f : file) (fsz : Z) (same : Z -> Z -> bool).

    Inductive cs_verdict (q p : Z) (j : nat) : cs_result -> Prop :=
    | cv_intact : p = q -> md = Pinned \/ q = fsz -> cs_verdict q p j (CSIntact q)
    | cv_cut : ~ (p = q /\ (md = Pinned \/ q = fsz)) -> cs_verdict q p j (CSTruncate p j).

    Inductive cs_tail (q : Z) : cs_result -> Prop :=
    | ct_error : flen f < q -> cs_tail q CSError
    | ct_differs j p : (j <= length f)%nat -> p = flen (firstn j f) -> q <= p -> md = Repaired -> same 0 p = false ->
        cs_tail q CSStartOver
    | ct_kept j p res : (j <= length f)%nat -> p = flen (firstn j f) -> q <= p -> (md = Repaired -> same 0 p = true) ->
        cs_verdict q p j res -> cs_tail q res.

    Inductive cs_spec : cs_result -> Prop :=
    | cs_small : fsz < csz -> cs_spec CSStartOverSmall
    | cs_first : csz <= fsz -> same 0 csz = false -> cs_spec CSStartOver
    | cs_searched q res : same 0 csz = true -> csz <= q <= fsz -> same (q - csz) csz = true ->
        (2 * csz <= fsz -> same (fsz - csz) csz = true -> q = fsz) -> cs_tail q res -> cs_spec res.
  End Spec.

  Lemma cs_verdict_test : forall md fsz q p j (x : list (Z * Z * bool)),
    cs_verdict md fsz q p j
      (fst (if (p =? q) && match md with Pinned => true | _ => q =? fsz end then (CSIntact q, x) else (CSTruncate p j, x))).
  Proof.
    intros md fsz q p j x. set (b := match md with Pinned => true | _ => q =? fsz end).
    assert (Hb : b = true <-> md = Pinned \/ q = fsz) by (destruct md; subst b; rewrite ?Z.eqb_eq; intuition discriminate).
    destruct (Z.eqb_spec p q) as [Epq|Epq]; [destruct b|]; cbn [andb fst].
    - apply cv_intact; [exact Epq | now apply Hb].
    - apply cv_cut. intros [_ H]. apply Hb in H. discriminate.
    - apply cv_cut. intros [H _]. contradiction.
  Qed.

  Lemma check_some_result : forall md f fsz l,
    cs_spec md f fsz (matchbs (fbytes f) fsz (fbytes l) (flen l)) (fst (check_some md f fsz l)).
  Proof.
    (* m x is [same x csz] by conversion *)
    intros md f fsz l. unfold Follow.check_some. set (m := matchb (fbytes f) fsz (fbytes l) (flen l)).
    destruct (Z.ltb_spec fsz csz) as [E0|E0]; [now apply cs_small|].
    destruct (m 0) eqn:M0; cbn [negb]; [|now apply cs_first].
    destruct (search_loop_spec csz Hcsz m (fun p => m (p - csz) = true) csz fsz) with (fuel := search_fuel csz fsz)
      (min := csz) (max := fsz - csz) (limit := fsz) (acc := [(0, csz, true)]) as (q & pr & S & Hq & Hs);
      [intros x; now rewrite Z.add_simpl_r | auto with zarith | apply Z.le_refl | now apply search_fuel_enough
      | now rewrite Z.sub_diag |].
    rewrite S. apply cs_searched with q; try assumption.
    { intros H2 M. unfold search_fuel in S.
      rewrite (search_loop_last_block csz Hcsz) in S by (assumption || lia). now injection S. }
    destruct (lve_cases f 0 0%nat q) as [(Hlt & L)|(j & Hj & Hp & L)];
      [apply Z.lt_le_trans with csz; [exact Hcsz | apply Hq] | |]; rewrite L; [now apply ct_error|].
    cbn [Z.add Nat.add] in *.
    destruct md; cbv zeta;
      [apply ct_kept with j (flen (firstn j f)); auto; [discriminate | apply cs_verdict_test]..|].
    destruct (matchbs _ _ _ _ _ _) eqn:Wh; [|now apply ct_differs with j (flen (firstn j f))].
    apply ct_kept with j (flen (firstn j f)); auto. apply cs_verdict_test.
  Qed.

  (* termination for all sizes, all modes *)
  Lemma check_some_no_fuel : forall md f fsz l, fst (check_some md f fsz l) <> CSFuel.
  Proof.
    intros md f fsz l.
    destruct (check_some_result md f fsz l) as [| |q res _ _ _ _ [| |j p res' _ _ _ _ []]]; discriminate.
  Qed.

  (* what the search alone establishes, in every mode and for ANY two files: a position > 0 means the
     first block and the block that ends at the search position q are byte-equal in both files *)
  Lemma check_some_probed : forall md f fsz l res probes pos,
    check_some md f fsz l = (res, probes) ->
    (res = CSIntact pos \/ exists k, res = CSTruncate pos k) ->
    exists q, csz <= q <= pos /\ q <= fsz /\
      firstn (Z.to_nat csz) (fbytes f) = firstn (Z.to_nat csz) (fbytes l) /\
      firstn (Z.to_nat csz) (skipn (Z.to_nat (q - csz)) (fbytes f)) =
      firstn (Z.to_nat csz) (skipn (Z.to_nat (q - csz)) (fbytes l)).
  Proof.
    intros md f fsz l res probes pos H Hres. pose proof (check_some_result md f fsz l) as C. rewrite H in C. cbn [fst] in C.
    destruct C as [| |q r M0 Hq Hs _ [| |j p r' _ _ Hp _ V]]; [| | | |destruct V];
      destruct Hres as [Hr|[k Hr]]; try discriminate; injection Hr as <-.
    (* intact at q, or cut at the end of the record that holds q *)
    all: exists q; apply matchbs_spec in M0 as (_ & _ & M0), Hs as (_ & _ & Hs); [|apply Zle_minus_le_0, Hq|apply Z.le_refl].
    all: split; [lia|]; split; [apply Hq|]; split; [exact M0 | exact Hs].
  Qed.

  (* the repaired check on a follower whose aofsz is the size of its file, against ANY leader log:
     it starts over, or it keeps the first k records of the follower's file (all of them when
     "intact") and the two FILES AGREE BYTE FOR BYTE UP TO THE RESUME POSITION; it never errs *)
  Lemma check_some_outcomes : forall f l res pr,
    check_some Repaired f (flen f) l = (res, pr) ->
    res = CSStartOverSmall \/ res = CSStartOver \/
    exists k, (k <= length f)%nat /\
      firstn (Z.to_nat (flen (firstn k f))) (fbytes f) = firstn (Z.to_nat (flen (firstn k f))) (fbytes l) /\
      flen (firstn k f) <= blen (fbytes l) /\
      (res = CSTruncate (flen (firstn k f)) k \/ (res = CSIntact (flen f) /\ flen (firstn k f) = flen f)).
  Proof.
    intros f l res pr H. pose proof (check_some_result Repaired f (flen f) l) as C. rewrite H in C. cbn [fst] in C.
    destruct C as [| |q r _ Hq _ _ [L| |j p r' Hj -> Hp Wh V]]; auto; [lia|].
    pose proof (flen_firstn_le j f) as Hfl. specialize (Wh eq_refl).
    apply matchbs_spec in Wh as (_ & Hlb & E); [|apply Z.le_refl].
    right; right. exists j. split; [lia|]. split; [exact E|]. split; [lia|].
    destruct V as [Hpq [?|Hqf]|_]; [discriminate | right | left; reflexivity].
    split; [f_equal|]; lia.
  Qed.

  (* a follower file that is a record-boundary prefix of the leader's log, at least one block long: every
     comparison succeeds, so the file is cut only when the search stops short of its end - and from two blocks
     on it does not, the first probe being the block at the end of f *)
  Lemma check_some_on_prefix : forall f rest, csz <= flen f ->
    let res := fst (check_some Repaired f (flen f) (f ++ rest)) in
    exists j, (j <= length f)%nat /\
      (res = CSIntact (flen f) \/ res = CSTruncate (flen (firstn j f)) j /\ flen f < 2 * csz).
  Proof.
    intros f rest Hlen. cbv zeta.
    destruct (check_some_result Repaired f (flen f) (f ++ rest))
      as [E0|_ M0|q r _ Hq _ Hlast [L|j p _ -> _ _ Wh|j p r' Hj -> Hp _ V]].
    - lia.
    - rewrite matchbs_prefix in M0 by lia. discriminate.
    - lia.
    - pose proof (flen_firstn_le j f). rewrite matchbs_prefix in Wh by lia. discriminate.
    - exists j. split; [exact Hj|]. pose proof (flen_firstn_le j f).
      destruct V as [_ [?| ->]|V]; [discriminate | now left | right].
      split; [reflexivity|]. destruct (Z.lt_ge_cases (flen f) (2 * csz)) as [?|H2]; [assumption|].
      assert (q = flen f) by (apply Hlast; [exact H2 | apply matchbs_prefix; lia]). lia.
  Qed.

  Lemma check_some_prefix_exact : forall f rest,
    2 * csz <= flen f ->
    fst (check_some Repaired f (flen f) (f ++ rest)) = CSIntact (flen f).
  Proof. intros f rest Hlen. destruct (check_some_on_prefix f rest) as (j & _ & [E|[_ V]]); [lia | exact E | lia]. Qed.
End Check.

Definition wf_log (l : file) : Prop := Forall (fun r => 0 < blen r) l.

Lemma wf_log_app : forall a b, wf_log (a ++ b) <-> wf_log a /\ wf_log b.
Proof. intros. unfold wf_log. apply Forall_app. Qed.

Lemma drop_bytes_app : forall a r, wf_log a -> drop_bytes (a ++ r) (flen a) = Some r.
Proof.
  induction a as [|x a IH]; intros r W.
  - cbn. destruct r; reflexivity.
  - inversion W; subst. rewrite flen_cons. cbn [app drop_bytes].
    pose proof (flen_nonneg a).
    replace (blen x + flen a =? 0) with false by lia.
    replace (blen x <=? blen x + flen a) with true by lia.
    replace (blen x + flen a - blen x) with (flen a) by lia. now apply IH.
Qed.

Lemma flen_zero_nil : forall x, wf_log x -> flen x <= 0 -> x = [].
Proof.
  intros [|r x] W H; [reflexivity|]. inversion W; subst. rewrite flen_cons in H.
  pose proof (flen_nonneg x). lia.
Qed.

Lemma prefix_compare : forall (a b x y : file),
  a ++ x = b ++ y -> wf_log (a ++ x) -> flen a <= flen b -> exists e, b = a ++ e.
Proof.
  intros a b x y E W H. destruct (app_eq_app _ _ _ _ E) as (e & [[-> _]|[-> _]]); [|eauto].
  exists []. rewrite flen_app in H. apply wf_log_app in W as [W _]. apply wf_log_app in W as [_ W].
  rewrite (flen_zero_nil e W), !app_nil_r; [reflexivity | lia].
Qed.

(* the flag is raised by the position test alone, so what it implies does not depend on followStep's local copy *)
Lemma caught_up_hit : forall (cup cu : bool) size pos d,
  (cup = true -> size <= pos) -> 0 <= d -> cup || negb cu && (size <=? pos + d) = true -> size <= pos + d.
Proof.
  intros cup cu size pos d H1 H2. destruct cup; [intros _; specialize (H1 eq_refl); lia|].
  destruct cu; cbn [orb negb andb]; [discriminate | apply Z.leb_le].
Qed.

Arguments f_file {st} _.
Arguments f_mem {st} _.
Arguments f_aofsz {st} _.
Arguments f_cup {st} _.
Arguments f_once {st} _.
Arguments f_ses {st} _.
Arguments f_broken {st} _.
Arguments drained {st} _.
Arguments leader_append {st} _ _.

Section Protocol.
  Variable digest : Type.
  Variable md5 : bytes -> digest.
  Variable digest_eqb : digest -> digest -> bool.
  Hypothesis digest_eqb_spec : forall a b, digest_eqb a b = true <-> a = b.
  Hypothesis md5_inj : forall a b, length a = length b -> md5 a = md5 b -> a = b.
  Variable csz : Z.
  Hypothesis Hcsz : 0 < csz.
  Variable st : Type.
  Variable st0 : st.
  Variable app : record -> st -> st * bool.

  Notation check_some := (check_some digest md5 digest_eqb csz).
  Notation replay := (replay st st0 app).
  Notation connect := (connect digest md5 digest_eqb csz st st0 app).
  Notation deliver := (deliver st app Repaired).
  Notation step := (step digest md5 digest_eqb csz st st0 app).
  Notation run := (run digest md5 digest_eqb csz st st0 app).
  Notation fol := (fol st).

  Lemma replay_snoc : forall f r, replay (f ++ [r]) = fst (app r (replay f)).
  Proof. intros. unfold Follow.replay, replay_from. now rewrite fold_left_app. Qed.

  (* RESP frames are prefix free: trusted (okrec = "is the RESP encoding of a command") *)
  Variable okrec : record -> Prop.
  Hypothesis okrec_prefix_free : forall a b x y, okrec a -> okrec b -> a ++ x = b ++ y -> a = b.

  Definition oklog (l : file) : Prop := Forall okrec l /\ wf_log l.

  Lemma oklog_app : forall a b, oklog (a ++ b) <-> oklog a /\ oklog b.
  Proof.
    intros. unfold oklog. rewrite Forall_app, wf_log_app.
    split; intros [[? ?] [? ?]]; auto.
  Qed.

  Lemma records_of_bytes : forall a l tb,
    oklog a -> oklog l -> fbytes l = fbytes a ++ tb -> exists rest, l = a ++ rest.
  Proof.
    induction a as [|r a IH]; intros l tb Ha Hl E; [exists l; reflexivity|].
    change (r :: a) with ([r] ++ a) in Ha. apply oklog_app in Ha as [[Hr Wr] Ha].
    apply Forall_inv in Hr, Wr.
    destruct l as [|b l].
    - cbn in E. symmetry in E. apply app_eq_nil in E. destruct E as [E _].
      apply app_eq_nil in E. destruct E as [-> _]. discriminate Wr.
    - change (b :: l) with ([b] ++ l) in Hl. apply oklog_app in Hl as [[Hb _] Hl]. apply Forall_inv in Hb.
      cbn [fbytes concat] in E. fold (fbytes l) in E. fold (fbytes a) in E. rewrite <- app_assoc in E.
      assert (b = r) by (eapply okrec_prefix_free; eauto). subst b.
      apply app_inv_head in E.
      destruct (IH l tb Ha Hl E) as [rest ->]. exists rest. reflexivity.
  Qed.

  (* every record of the leader's log reports "updated" when the log is replayed in order (the
     leader only logs updating commands and replay is deterministic) *)
  Definition upd_ok (l : file) : Prop :=
    forall pre r post, l = pre ++ r :: post -> snd (app r (replay pre)) = true.

  (* a follower as it exists between sessions: its dataset is what its own log replays to (loadAOF),
     aofsz is the size of that log, the log consists of well-framed records.  Its CONTENT is arbitrary. *)
  Definition wf_fol (f : fol) : Prop :=
    f_mem f = replay (f_file f) /\ f_aofsz f = flen (f_file f) /\ oklog (f_file f).

  Definition synced (l : file) (f : fol) : Prop :=
    f_mem f = replay (f_file f) /\ f_aofsz f = flen (f_file f) /\
    match f_ses f with
    | None => True
    | Some s => l = f_file f ++ s_rest s /\ f_cup f = s_cu s /\ (s_cu s = true -> s_aofsize s <= f_aofsz f) /\
                s_pos s = f_aofsz f
    end.

  (* the data side of a session, in a run whose leader logs only updating records and in which the follower's own
     sweeper stays quiet: the follower is what its own log replays to, and that log is the leader's minus the records
     still to come.  (The flag / position side is [streaming] below; [synced] is both, at the moment of a connect.) *)
  Definition in_step (l : file) (f : fol) : Prop :=
    wf_fol f /\ forall s, f_ses f = Some s -> l = f_file f ++ s_rest s.

  Definition inv (w : file * fol) : Prop := let '(l, f) := w in upd_ok l /\ oklog l /\ in_step l f.

  Lemma drop_bytes_0 : forall l, drop_bytes l 0 = Some l.
  Proof. destruct l; reflexivity. Qed.

  Lemma replay_nil : replay [] = st0.
  Proof. reflexivity. Qed.

  Lemma oklog_nil : oklog [].
  Proof. split; constructor. Qed.

  (* a (re)connect of the repaired follower, whatever its log contains: it keeps a record prefix fl of the
     leader's log (possibly nothing), its dataset is the replay of fl, and the session streams the rest *)
  Lemma connect_shape : forall l f,
    oklog l -> wf_fol f ->
    exists fl rest, l = fl ++ rest /\ oklog fl /\
      connect Repaired l f =
        {| f_file := fl; f_mem := replay fl; f_aofsz := flen fl; f_cup := flen l <=? flen fl;
           f_once := f_once f || (flen l <=? flen fl);
           f_ses := Some {| s_rest := rest; s_aofsize := flen l; s_cu := flen l <=? flen fl;
                            s_pos := flen fl; s_done := [] |};
           f_broken := f_broken f |}.
  Proof.
    intros l f Hl (Hm & Hsz & Hf).
    destruct (check_some Repaired (f_file f) (f_aofsz f) l) as [res pr] eqn:C.
    pose proof C as C'. rewrite Hsz in C'. apply (check_some_outcomes digest md5 digest_eqb digest_eqb_spec md5_inj csz Hcsz) in C'.
    unfold Follow.connect, begin_connect. cbn [f_file f_mem f_aofsz f_once f_broken f_cup]. rewrite C.
    destruct C' as [-> | [-> | (k & Hk & E & Hlb & Hres)]].
    1,2: exists [], l; rewrite drop_bytes_0; auto using oklog_nil.
    (* equal bytes up to the end of the first k records: these records start the leader's log *)
    set (fl := firstn k (f_file f)) in *.
    assert (Hfile : f_file f = fl ++ skipn k (f_file f)) by (symmetry; apply firstn_skipn).
    rewrite Hfile in Hf. apply oklog_app in Hf as [Hfl Hsk].
    rewrite Hfile, firstn_flen in E at 1.
    destruct (records_of_bytes fl l (skipn (Z.to_nat (flen fl)) (fbytes l)) Hfl Hl) as [rest ->];
      [rewrite E; symmetry; apply firstn_skipn|].
    destruct Hres as [-> | [-> Hall]].
    - exists fl, rest. rewrite drop_bytes_app by apply Hfl. auto.
    - rewrite Hfile, flen_app in Hall. rewrite (flen_zero_nil (skipn k (f_file f))), app_nil_r in Hfile; [|apply Hsk|lia].
      rewrite Hm, Hsz, Hfile. exists fl, rest. rewrite drop_bytes_app by apply Hfl. auto.
  Qed.

  Lemma connect_synced : forall l f,
    oklog l -> wf_fol f ->
    synced l (connect Repaired l f) /\ wf_fol (connect Repaired l f) /\
    exists s, f_ses (connect Repaired l f) = Some s /\ s_aofsize s = flen l.
  Proof.
    intros l f Hl Hwf. destruct (connect_shape l f Hl Hwf) as (fl & rest & -> & Hfl & ->).
    unfold synced, wf_fol. cbn [f_file f_mem f_aofsz f_cup f_ses s_rest s_cu s_aofsize s_pos].
    repeat split; eauto; try apply Hfl. lia.
  Qed.

  Lemma connect_in_step : forall l f, oklog l -> wf_fol f -> in_step l (connect Repaired l f).
  Proof.
    intros l f Hl Hwf. destruct (connect_synced l f Hl Hwf) as ((_ & _ & H) & Hwf' & _).
    split; [exact Hwf'|]. intros s Es. rewrite Es in H. apply H.
  Qed.

  (* followHandleCommand on the next record of the stream: the leader logged it, so it updates and is appended *)
  Lemma deliver_in_step : forall l f, upd_ok l -> oklog l -> in_step l f -> in_step l (deliver f).
  Proof.
    intros l f U W Hi. pose proof Hi as ((Hm & Hsz & _) & Hl). unfold Follow.deliver.
    destruct (f_ses f) as [s|]; [|exact Hi]. specialize (Hl s eq_refl).
    destruct (s_rest s) as [|r rest]; [exact Hi|]. pose proof (U _ _ _ Hl) as Hu. rewrite Hm.
    destruct (app r (replay (f_file f))) as [mem' upd] eqn:A. cbn [snd] in Hu. subst upd.
    change (r :: rest) with ([r] ++ rest) in Hl. rewrite app_assoc in Hl.
    split; [split; [|split]|]; cbn [f_file f_mem f_aofsz f_ses].
    - rewrite replay_snoc, A. reflexivity.
    - rewrite flen_snoc, Hsz. reflexivity.
    - rewrite Hl in W. apply oklog_app in W. apply W.
    - intros s' [= <-]. exact Hl.
  Qed.

  Lemma upd_ok_snoc : forall l r, upd_ok l -> snd (app r (replay l)) = true -> upd_ok (l ++ [r]).
  Proof.
    intros l r U H pre r' post E.
    destruct post as [|x post'] using rev_ind.
    - apply app_inj_tail in E. destruct E as [-> ->]. exact H.
    - clear IHpost'. rewrite app_comm_cons, app_assoc in E. apply app_inj_tail in E.
      destruct E as [E _]. eapply U; eauto.
  Qed.

  (* what the environment may do: the leader logs only updating, well-framed commands; a shrunk log
     is a well-framed log that replays with every record updating; no deadline elapses on the follower
     before it does on the leader (no EOwn).  NOTHING is required of the follower's content or of the
     moments at which it connects. *)
  Definition ev_ok (w : file * fol) (e : event) : Prop :=
    let '(l, f) := w in
    match e with
    | EAppend r => snd (app r (replay l)) = true /\ 0 < blen r /\ okrec r
    | EShrink l' => upd_ok l' /\ oklog l'
    | EFollow l' => upd_ok l' /\ oklog l'     (* the other leader's log is a log *)
    | EOwn _ => False      (* convergence is stated for traces without follower-side expiry *)
    | _ => True
    end.

  Fixpoint ok_trace (w : file * fol) (es : list event) : Prop :=
    match es with
    | [] => True
    | e :: t => ev_ok w e /\ ok_trace (step Repaired w e) t
    end.

  Lemma inv_idle : forall l f, upd_ok l -> oklog l -> wf_fol f -> f_ses f = None -> inv (l, f).
  Proof. intros l f U W Hwf Hn. repeat (split; [assumption|]). intros s Es. congruence. Qed.

  Lemma step_inv : forall w e, ev_ok w e -> inv w -> inv (step Repaired w e).
  Proof.
    intros [l f] e Hok (U & W & Hwf & Hl). destruct e; cbn [Follow.step inv]; cbn [ev_ok] in Hok;
      (* begin, drop, shrink, re-pointing: no session; own append: excluded *)
      try (destruct Hok; apply inv_idle; auto; fail).
    - split; [exact U|]. split; [exact W|]. apply connect_in_step; assumption.
    - split; [exact U|]. split; [exact W|]. apply deliver_in_step; [..|split]; assumption.
    - apply inv_idle; auto. destruct Hwf as (_ & _ & Hf). split; [reflexivity | split; [reflexivity | exact Hf]].
    - repeat (split; [assumption|]). exact Hl.
    - destruct Hok as (Hu & Hb & Hr). split; [now apply upd_ok_snoc|].
      split; [apply oklog_app; split; [exact W | split; repeat constructor; assumption]|].
      split; [unfold leader_append; destruct (f_ses f); exact Hwf|].
      unfold leader_append. destruct (f_ses f) as [s|] eqn:Es; [|congruence]. cbn [f_ses f_file]. intros s' [= <-].
      cbn [s_rest]. rewrite app_assoc, <- (Hl s eq_refl). reflexivity.
  Qed.

  Lemma run_inv : forall es w, ok_trace w es -> inv w -> inv (run Repaired w es).
  Proof.
    induction es as [|e es IH]; intros w Hok Hi; [exact Hi|].
    destruct Hok as [H1 H2]. exact (IH _ H2 (step_inv w e H1 Hi)).
  Qed.

  (* convergence: from ANY follower (any log content, dataset = replay of that log), over ANY event
     sequence: once the stream has been handled completely the follower's dataset is the replay of the
     leader's log, its log file is identical to the leader's, and aofsz is its size *)
  Lemma converge : forall l0 f0 es,
    upd_ok l0 -> oklog l0 -> wf_fol f0 -> f_ses f0 = None -> ok_trace (l0, f0) es ->
    forall l f, run Repaired (l0, f0) es = (l, f) -> drained f = true ->
    f_mem f = replay l /\ f_file f = l /\ f_aofsz f = flen l.
  Proof.
    intros l0 f0 es U W Hwf Hn Hok l f Hr Hd.
    pose proof (run_inv es (l0, f0) Hok (inv_idle l0 f0 U W Hwf Hn)) as Hi.
    rewrite Hr in Hi. destruct Hi as (_ & _ & (Hm & Hsz & _) & Hl).
    unfold drained in Hd. destruct (f_ses f) as [s|]; [|discriminate].
    destruct (s_rest s) eqn:R; [|discriminate].
    specialize (Hl s eq_refl). rewrite R, app_nil_r in Hl. subst l. auto.
  Qed.

  Lemma run_ind : forall md (E : event -> Prop) (P : file * fol -> Prop),
    (forall w e, E e -> P w -> P (step md w e)) ->
    forall es w, Forall E es -> P w -> P (run md w es).
  Proof.
    intros md E P Hstep es w Hes. apply fold_left_inv. intros w' e He. apply Hstep, (proj1 (Forall_forall E es) Hes e He).
  Qed.

  (* never caught-up while lacking commands acknowledged before the (re)connect - also when the
     follower's own sweeper appends records of its own to the follower's log during the session.
     s_done (ghost) = the records handed to the follower so far in this session. *)
  Definition session_event (e : event) : Prop :=
    match e with EDeliver | EPause | EOwn _ => True | EAppend r => 0 < blen r | _ => False end.

  Definition streaming (kept l1 : file) (w : file * fol) : Prop :=
    let '(l, f) := w in
    wf_log l /\ exists s e, f_ses f = Some s /\ l = kept ++ s_done s ++ s_rest s /\ l = l1 ++ e /\
      s_aofsize s = flen l1 /\ s_pos s = flen (kept ++ s_done s) /\ (f_cup f = true -> s_aofsize s <= s_pos s).

  Lemma streaming_step : forall kept l1 w e, session_event e -> streaming kept l1 w ->
    streaming kept l1 (step Repaired w e).
  Proof.
    intros kept l1 [l f] e He (W & s & x & Es & Hl & Hl1 & Ha & Hp & Hcu).
    destruct e; cbn in He; try contradiction; cbn [Follow.step streaming].
    - split; [exact W|]. unfold Follow.deliver. rewrite Es.
      destruct (s_rest s) as [|r rest] eqn:R; [exists s, x; rewrite Es, R; repeat split; auto; now rewrite <- R|].
      destruct (app r (f_mem f)) as [mem' upd]. cbn [f_ses f_cup].
      eexists _, x. split; [reflexivity|]. cbn [s_rest s_done s_aofsize s_pos s_cu].
      repeat split; auto.
      + rewrite Hl. rewrite <- !app_assoc. reflexivity.
      + rewrite Hp, app_assoc, flen_snoc. reflexivity.
      + apply caught_up_hit; [exact Hcu | apply blen_nonneg].
    - split; [exact W|]. exists s, x. repeat split; auto.
    - split; [apply wf_log_app; split; [exact W|repeat constructor; exact He]|].
      unfold leader_append. rewrite Es. eexists _, (x ++ [r]). split; [reflexivity|].
      cbn [s_rest s_done s_aofsize s_pos s_cu f_cup]. repeat split; auto.
      + rewrite Hl. rewrite <- !app_assoc. reflexivity.
      + rewrite Hl1. now rewrite <- app_assoc.
    - split; [exact W|]. unfold own_append.
      destruct (app r (f_mem f)) as [mem' upd]. cbn [f_ses f_cup]. exists s, x. repeat split; auto.
  Qed.

  (* while a (re)connect attempt is under way - stalled or failing at any stage of the handshake, the
     leader possibly acknowledging more writes, further attempts starting - the caught-up flag is off *)
  Definition handshake_event (e : event) : Prop :=
    match e with EBegin | EDrop | EPause | EAppend _ | EOwn _ => True | _ => False end.

  (* between the first statements of followStep and the end of the handshake nothing raises the flag, whatever
     else happens (in every mode): only EConnect opens a session, and only a session raises the flag *)
  Lemma flag_off_until_connect : forall md l f es,
    Forall (fun e => e <> EConnect) es -> f_cup (snd (run md (step md (l, f) EBegin) es)) = false.
  Proof.
    intros md l f es Hes.
    apply (run_ind md (fun e => e <> EConnect) (fun w => f_cup (snd w) = false /\ f_ses (snd w) = None));
      [|exact Hes|split; reflexivity].
    intros [l' f'] e He [Hc Hn]. cbn [snd] in Hc, Hn. destruct e; cbn [Follow.step snd]; try congruence;
      unfold Follow.deliver, leader_append, own_append; rewrite ?Hn; try destruct (app _ _); auto.
  Qed.

  (* a leader AOFSHRINK, a FOLLOW that points to another leader, a dropped connection and a restart end the
     running session in whatever phase it is (initial bulk copy or tailing), in every mode; the leader's log
     the follower has to agree with from then on is the new one *)
  Definition session_ending (e : event) : Prop :=
    match e with EShrink _ | EFollow _ | EDrop | ERestart => True | _ => False end.

  (* l1 = the leader's log when the follower (in ANY state) (re)connects; kept = what the follower keeps of
     its own log at that moment (a record prefix of l1, its dataset being the replay of it:
     connect_shape).  Whatever happens during the session - deliveries, pauses, leader writes, records the
     follower's own sweeper appends - the caught-up flag implies that every record of l1 beyond kept has
     been handed to the follower *)
  Lemma not_premature : forall l1 f1 es,
    oklog l1 -> wf_fol f1 -> Forall session_event es ->
    forall l f, run Repaired (step Repaired (l1, f1) EConnect) es = (l, f) ->
    f_cup f = true ->
    exists s extra, f_ses f = Some s /\ f_file (connect Repaired l1 f1) ++ s_done s = l1 ++ extra.
  Proof.
    intros l1 f1 es W Hwf Hes l f Hr Hcup.
    pose proof (run_ind Repaired session_event (streaming (f_file (connect Repaired l1 f1)) l1)
                  (streaming_step _ l1) es (step Repaired (l1, f1) EConnect) Hes) as Hst.
    rewrite Hr in Hst. cbn [Follow.step] in Hst.
    destruct Hst as (Wl & s' & x & Es' & Hl' & Hl1 & Ha' & Hp' & Hcu').
    - destruct (connect_shape l1 f1 W Hwf) as (fl & rest & E & _ & ->). cbn [streaming f_file f_ses f_cup].
      split; [apply W|]. eexists _, []. split; [reflexivity|]. cbn [s_rest s_done s_aofsize s_pos s_cu].
      rewrite !app_nil_r. repeat split; auto. lia.
    - specialize (Hcu' Hcup). exists s'.
      destruct (prefix_compare l1 (f_file (connect Repaired l1 f1) ++ s_done s') x (s_rest s')) as [extra Hx];
        [rewrite <- Hl1, Hl'; now rewrite app_assoc | rewrite <- Hl1; exact Wl | rewrite <- Ha', <- Hp'; exact Hcu' |].
      exists extra. auto.
  Qed.
End Protocol.
