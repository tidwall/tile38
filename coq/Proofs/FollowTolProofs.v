(* C06 — lemmas about Model/FollowTol.v: which errors of a streamed command a follower may skip. *)
From Coq Require Import List Bool String.
From T38 Require Import Model.FollowTol Gen.ReplayTol Gen.FollowSteps.
Import ListNotations.

(* commandErrIsFatal tolerates exactly these sentinels, and no error that is not a sentinel *)
Lemma tolerated_transcribed :
  tolerated_of_table replay_err_table = proved_tolerated /\ replay_err_other_fatal = true.
Proof. vm_compute. split; reflexivity. Qed.

(* every tolerated sentinel depends on dataset + command only *)
Lemma table_state_only_transcribed : table_state_only replay_err_table = true.
Proof. vm_compute. reflexivity. Qed.

Lemma tol_table_sound : forall table,
  table_state_only table = true ->
  forall e, tol_of_table table true e = true -> state_only_name e = true.
Proof.
  intros table H e. unfold tol_of_table.
  destruct (find _ table) as [r|] eqn:F; [|discriminate].
  apply find_some in F as [Hin E]. apply String.eqb_eq in E. subst e.
  unfold table_state_only in H. rewrite forallb_forall in H. specialize (H r Hin).
  intros Hn. apply negb_true_iff in Hn. rewrite Hn in H. exact H.
Qed.

Lemma source_tolerates_state_only :
  forall e, tol_of_table replay_err_table replay_err_other_fatal e = true -> state_only_name e = true.
Proof.
  destruct tolerated_transcribed as [_ Ho]. rewrite Ho.
  apply tol_table_sound. exact table_state_only_transcribed.
Qed.

Section P.
  Variable st : Type.
  Variable rec : Type.
  Variable loc : Type.
  Variable xapp : loc -> rec -> st -> (st * bool) + string.
  Variable tolerated : string -> bool.
  Variable state_only : string -> bool.

  (* what "depends on dataset + command only" means for the command semantics: where one server succeeds,
     another server executing the same command on the same dataset either gets the same result or an error
     that is not state-only *)
  Hypothesis same_success : forall l1 l2 r s v w, xapp l1 r s = inl v -> xapp l2 r s = inl w -> v = w.
  Hypothesis local_error : forall l1 l2 r s v e, xapp l1 r s = inl v -> xapp l2 r s = inr e -> state_only e = false.

  (* the obligation on commandErrIsFatal (for the source's table: source_tolerates_state_only) *)
  Hypothesis tol_state_only : forall e, tolerated e = true -> state_only e = true.

  (* a record at which the follower's own condition gets in the way fails the attempt (it is not skipped) ... *)
  Lemma local_error_fails :
    forall ll lf r s v e, xapp ll r s = inl v -> xapp lf r s = inr e ->
    fdeliver st rec loc xapp tolerated lf r s = Failed st e.
  Proof.
    intros ll lf r s v e EL EF. unfold fdeliver. rewrite EF.
    destruct (tolerated e) eqn:T; [|reflexivity].
    apply tol_state_only in T. rewrite (local_error ll lf r s v e EL EF) in T. discriminate.
  Qed.

  (* ... so a follower that starts as a copy and handles the whole stream (stays connected, reports caught up) IS a
     copy - whatever its local conditions were *)
  Lemma tol_sound :
    forall ts s sL sF,
    lrun st rec loc xapp ts s = Some sL ->
    fstream st rec loc xapp tolerated ts s = inl sF ->
    sF = sL.
  Proof.
    induction ts as [|[[ll lf] r] t IH]; intros s sL sF HL HF; cbn in *.
    - inversion HL; inversion HF; subst. reflexivity.
    - destruct (xapp ll r s) as [[s1 u1]|e1] eqn:EL; [|discriminate].
      destruct (xapp lf r s) as [[s2 u2]|e2] eqn:EF.
      + unfold fdeliver in HF. rewrite EF in HF.
        pose proof (same_success ll lf r s _ _ EL EF) as E. inversion E; subst. eapply IH; eauto.
      + rewrite (local_error_fails ll lf r s _ e2 EL EF) in HF. discriminate.
  Qed.
End P.
