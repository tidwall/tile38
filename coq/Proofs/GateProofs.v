(* Lemmas over the regenerated tables (coq/Gen) and the gate model (Model/Gate.v).
   The tables are finite, so the table facts are computed (vm_compute) over the complete list of
   command names that occur in them and lifted to EVERY string by the lookup lemmas below. *)
From Coq Require Import String List Bool.
From T38 Require Import Base.ListFacts Model.Tables Gen.LockTable Gen.Dispatch Gen.ScriptTables Gen.AuthGate Gen.Mutators Model.Gate.
Import ListNotations.
Open Scope string_scope.

Lemma in_strs_In s l : in_strs s l = true <-> In s l.
Proof. exact (existsb_eqb_In String.eqb String.eqb_eq s l). Qed.

Lemma find_handler_spec hs c h : find_handler hs c = Some h -> In h hs /\ h_cmd h = c.
Proof.
  induction hs as [|x hs IH]; cbn; [discriminate|].
  destruct (String.eqb_spec (h_cmd x) c) as [E|E].
  - intros H; inversion H; subst. split; [left; reflexivity | reflexivity].
  - intros H. destruct (IH H) as [Hi Hc]. split; [right; exact Hi | exact Hc].
Qed.

Lemma find_handler_In hs c h : find_handler hs c = Some h -> In c (map h_cmd hs).
Proof. intros H. destruct (find_handler_spec hs c h H) as [Hi <-]. apply in_map. exact Hi. Qed.

Lemma arm_of_In t c : In (arm_of t c) (t_default t :: t_arms t).
Proof.
  unfold arm_of. destruct (find_arm (t_arms t) c) as [a|] eqn:Ef; [right | left; reflexivity].
  induction (t_arms t) as [|x l IH]; cbn in *; [discriminate|].
  destruct (in_strs c (a_cmds x)); [inversion Ef; left; reflexivity | right; apply IH; exact Ef].
Qed.

Lemma arm_of_all t (P : arm -> bool) :
  forallb P (t_default t :: t_arms t) = true -> forall c, P (arm_of t c) = true.
Proof. intros H c. rewrite forallb_forall in H. exact (H _ (arm_of_In t c)). Qed.

(* every arm of handleInputCommand's switch that logs takes the exclusive lock *)
Lemma write_arm_excl c : a_write (arm_of lock_table c) = true -> a_lock (arm_of lock_table c) = LExcl.
Proof.
  intros Hw.
  pose proof (arm_of_all lock_table (fun a => implb (a_write a) (match a_lock a with LExcl => true | _ => false end))
                ltac:(vm_compute; reflexivity) c) as H.
  cbv beta in H. rewrite Hw in H. destruct (a_lock (arm_of lock_table c)); try discriminate. reflexivity.
Qed.

Lemma handler_effects_nil hs c : ~ In c (map h_cmd hs) -> handler_effects hs c = [].
Proof.
  unfold handler_effects. destruct (find_handler hs c) eqn:E; [|reflexivity].
  intros H. exfalso. apply H. eapply find_handler_In; eauto.
Qed.

Lemma touches_nil st : touches st [] = false.
Proof. reflexivity. Qed.

Lemma lift_dispatch (hs : list handler) (P : string -> bool) :
  forallb P (map h_cmd hs) = true ->
  (forall c, handler_effects hs c = [] -> find_handler hs c = None -> P c = true) ->
  forall c, P c = true.
Proof.
  intros Hall Hnone c.
  destruct (find_handler hs c) as [h|] eqn:E.
  - rewrite forallb_forall in Hall. apply Hall. eapply find_handler_In; eauto.
  - apply Hnone; [unfold handler_effects; rewrite E; reflexivity | exact E].
Qed.

(* the commands whose handler touches the given structures. Gen/Mutators.v is walked once per dispatch
   table and kind of structure (the four lists below); every check of the shape "a handler that touches
   these structures ..." is then evaluated on those few commands only *)
Definition touching (hs : list handler) (structs : list string) : list string :=
  filter (fun c => touches structs (handler_effects hs c)) (map h_cmd hs).

Lemma touching_In hs structs c : touches structs (handler_effects hs c) = true -> In c (touching hs structs).
Proof.
  intros H. apply filter_In. split; [|exact H]. unfold handler_effects in H.
  destruct (find_handler hs c) as [h|] eqn:E; [exact (find_handler_In _ _ _ E) | discriminate H].
Qed.

Lemma touches_touching hs structs c : touches structs (handler_effects hs c) = in_strs c (touching hs structs).
Proof.
  destruct (touches structs (handler_effects hs c)) eqn:E; symmetry; [apply in_strs_In, touching_In, E|].
  apply not_true_is_false. intros H. apply in_strs_In, filter_In in H. destruct H as [_ H]. congruence.
Qed.

Lemma touching_all hs structs l {Q : string -> bool} :
  l = touching hs structs -> forallb Q l = true ->
  forall c, touches structs (handler_effects hs c) = true -> Q c = true.
Proof. intros -> H c E. rewrite forallb_forall in H. exact (H c (touching_In _ _ _ E)). Qed.

Lemma lift_touches hs structs l {Q : string -> bool} :
  l = touching hs structs -> forallb Q l = true ->
  forall c, implb (touches structs (handler_effects hs c)) (Q c) = true.
Proof.
  intros E H c. destruct (touches structs (handler_effects hs c)) eqn:Et; [|reflexivity].
  exact (touching_all hs structs l E H c Et).
Qed.

Lemma lift_touches_if hs structs l {G Q : string -> bool} :
  l = touching hs structs -> forallb (fun c => implb (G c) (Q c)) l = true ->
  forall c, implb (touches structs (handler_effects hs c) && G c) (Q c) = true.
Proof.
  intros E H c. pose proof (lift_touches hs structs l E H c) as L. cbv beta in L.
  destruct (touches structs (handler_effects hs c)); [exact L | reflexivity].
Qed.

Definition changing : list string := Eval vm_compute in touching dispatch dataset_structs.
Definition changing_script : list string := Eval vm_compute in touching dispatch_script dataset_structs.
Definition reading : list string := Eval vm_compute in touching dispatch [read_struct].
Definition reading_script : list string := Eval vm_compute in touching dispatch_script [read_struct].

Lemma changing_eq : changing = touching dispatch dataset_structs. Proof. vm_compute. reflexivity. Qed.
Lemma changing_script_eq : changing_script = touching dispatch_script dataset_structs. Proof. vm_compute. reflexivity. Qed.
Lemma reading_eq : reading = touching dispatch [read_struct]. Proof. vm_compute. reflexivity. Qed.
Lemma reading_script_eq : reading_script = touching dispatch_script [read_struct]. Proof. vm_compute. reflexivity. Qed.

Lemma changing_cmd_rejected c e :
  changes c = true -> in_strs c dev_only = false ->
  (e_follower e = true \/ e_readonly e = true) ->
  match arm_verdict (arm_of lock_table c) e with Some ENotLeader | Some EReadOnly => True | _ => False end.
Proof.
  intros Hc Hd Hm.
  pose proof (touching_all dispatch _ changing
                (Q := fun c => in_strs c dev_only || a_chk_follower (arm_of lock_table c) && a_chk_readonly (arm_of lock_table c))
                changing_eq ltac:(vm_compute; reflexivity) c Hc) as H.
  cbv beta in H. rewrite Hd in H. revert H. generalize (arm_of lock_table c). intros a H.
  (* any arm that makes both tests *)
  apply andb_true_iff in H as [Hf Hr]. unfold arm_verdict. rewrite Hf, Hr. cbn [andb].
  destruct (e_follower e); [exact I|].
  destruct Hm as [Hm|Hm]; [discriminate|]. rewrite Hm. exact I.
Qed.

(* script variants: a changing sub-command is refused outright or goes through the same two tests *)
Definition script_follower_ro_check (t : table) (c : string) : bool :=
  implb (changes_script c)
        (in_strs c script_deny ||
         match a_reject (arm_of t c) with
         | RNo => a_chk_follower (arm_of t c) && a_chk_readonly (arm_of t c)
         | _ => true
         end).

Lemma script_follower_ro_all :
  forall t, In t [script_rw; script_ro; script_na] -> forall c, script_follower_ro_check t c = true.
Proof.
  intros t Ht. apply (lift_touches dispatch_script _ changing_script changing_script_eq).
  cbn in Ht. destruct Ht as [<-|[<-|[<-|[]]]]; vm_compute; reflexivity.
Qed.

Definition caughtup_check (c : string) : bool :=
  implb (reads_objects c && negb (in_strs c dev_only))
        (a_chk_caughtup (arm_of lock_table c) || a_chk_follower (arm_of lock_table c)).

Lemma caughtup_all : forall c, caughtup_check c = true.
Proof. apply (lift_touches_if dispatch _ reading reading_eq). vm_compute. reflexivity. Qed.

Definition script_caughtup_check (t : table) (c : string) : bool :=
  implb (reads_objects_script c)
        (in_strs c script_deny ||
         match a_reject (arm_of t c) with
         | RNo => a_chk_caughtup (arm_of t c) || a_chk_follower (arm_of t c)
         | _ => true
         end).

Lemma script_caughtup_all :
  forall t, In t [script_rw; script_ro; script_na] -> forall c, script_caughtup_check t c = true.
Proof.
  intros t Ht. apply (lift_touches dispatch_script _ reading_script reading_script_eq).
  cbn in Ht. destruct Ht as [<-|[<-|[<-|[]]]]; vm_compute; reflexivity.
Qed.

Definition no_credentials (outer : string) (k : cred) : Prop :=
  k_authd k = false /\ k_http_auth k <> Some true /\ (outer = "auth" -> k_auth_arg_ok k = false).

(* the statement order the proof relies on, computed from Gen/AuthGate.v *)
Lemma gate_order_ok :
  before GAuth GLockSwitch gate_order = true /\ before GAuth GCommand gate_order = true /\
  before GTimeoutRewrite GLockSwitch gate_order = true /\ before GLockSwitch GCommand gate_order = true /\
  before GCommand GWriteAOF gate_order = true.
Proof. vm_compute. auto. Qed.

Lemma exempt_lists_ok :
  incl early_reply_cmds ["ping"; "echo"] /\ incl auth_exempt ["output"; "healthz"].
Proof. split; intros x Hx; vm_compute in Hx; cbn; tauto. Qed.

(* the message presents the configured password: requirepass is set at that moment and the HTTP
   credentials match, or it is an AUTH whose argument matches *)
Definition presents_password (outer : string) (e : env) (k : cred) : Prop :=
  e_requirepass e = true /\ (k_http_auth k = Some true \/ (outer = "auth" /\ k_auth_arg_ok k = true)).

Lemma before_cons a b x l :
  gate_step_eqb x a = false -> gate_step_eqb x b = false -> before a b (x :: l) = before a b l.
Proof.
  intros Ea Eb. unfold before. cbn [index_of]. rewrite Ea, Eb.
  destruct (index_of a l), (index_of b l); reflexivity.
Qed.

(* gate_run, authd_by_password and run_gate_unauthenticated walk run_gate / run_gate_authd over ANY
   statement order, by induction on it; only the third needs to know something of the order, and
   what it needs of Gen/AuthGate.v is one conjunct of gate_order_ok. *)

(* a handler is only ever called by GCommand, under the lock and with the write flag of the command's arm *)
Lemma gate_run steps outer inner e k : forall a l w fn,
  run_gate steps outer inner e k a = VRun l w fn ->
  l = a_lock (arm_of lock_table inner) /\ w = a_write (arm_of lock_table inner) /\
  exists h, find_handler dispatch inner = Some h /\ fn = h_fn h.
Proof.
  induction steps as [|st rest IH]; intros a l w fn; [discriminate|].
  destruct st; cbn [run_gate]; try apply IH.
  - destruct (in_strs outer early_reply_cmds); [discriminate | apply IH].
  - destruct (e_loading e && _); [discriminate | apply IH].
  - destruct (outer =? "hello"); [discriminate | apply IH].
  - destruct (_ && negb (in_strs outer auth_exempt)); [|apply IH]. destruct (e_requirepass e).
    + destruct (if outer =? "auth" then _ else _) as [[]|], (k_http_auth k) as [[]|]; try discriminate; apply IH.
    + destruct (inner =? "auth"); [discriminate | apply IH].
  - destruct (arm_verdict _ e); [discriminate | apply IH].
  - (* the arm as a variable: injection would evaluate arm_of lock_table inner *)
    generalize (arm_of lock_table inner). intros arm.
    destruct (find_handler dispatch inner) as [h|]; [|discriminate].
    intros [= <- <- <-]. repeat split. exists h. split; reflexivity.
Qed.

Lemma authd_by_password steps outer inner e k : forall a,
  run_gate_authd steps outer inner e k a = true -> a = true \/ presents_password outer e k.
Proof.
  induction steps as [|st rest IH]; intros a; [auto|].
  destruct st; cbn [run_gate_authd]; try apply IH.
  - destruct (in_strs outer early_reply_cmds); [auto | apply IH].
  - destruct (e_loading e && _); [auto | apply IH].
  - destruct (outer =? "hello"); [auto | apply IH].
  - destruct (_ && negb (in_strs outer auth_exempt)); [|apply IH]. destruct (e_requirepass e) eqn:Ep.
    + destruct (String.eqb_spec outer "auth") as [Eo|Eo], (k_http_auth k) as [[]|] eqn:Eh; auto.
      1,3: intros _; right; exact (conj Ep (or_introl Eh)).
      destruct (k_auth_arg_ok k) eqn:Ek; auto. intros _. right. exact (conj Ep (or_intror (conj Eo Ek))).
    + destruct (inner =? "auth"); [auto | apply IH].
Qed.

Lemma run_gate_authd_tail steps outer inner e k :
  ~ In GAuth steps -> forall a, run_gate_authd steps outer inner e k a = a.
Proof.
  induction steps as [|st rest IH]; intros Hn a; [reflexivity|].
  assert (Hr : ~ In GAuth rest) by (intros H; apply Hn; right; exact H).
  destruct st; cbn [run_gate_authd];
    try (exfalso; apply Hn; left; reflexivity);
    repeat match goal with |- context [if ?b then _ else _] => destruct b end;
    try reflexivity; apply IH; exact Hr.
Qed.

(* requirepass set and the password not presented. The premise is what the walk carries along: the flag
   is false and the password block stands before the next handler call, or (behind the block) the
   command is one the block lets pass *)
Lemma run_gate_unauthenticated steps outer inner e k :
  e_requirepass e = true -> ~ presents_password outer e k ->
  forall a, in_strs outer auth_exempt || negb a && before GAuth GCommand steps = true ->
  match run_gate steps outer inner e k a with
  | VEarly => In outer early_reply_cmds
  | VErr _ => True
  | VAuthOK => False
  | VRun _ _ _ => In outer auth_exempt
  end.
Proof.
  intros Hp Hn. induction steps as [|st rest IH]; intros a Hb; [exact I|].
  destruct st; cbn [run_gate]; try (rewrite before_cons in Hb by reflexivity).
  - destruct (in_strs outer early_reply_cmds) eqn:E; [apply in_strs_In, E | apply IH, Hb].
  - destruct (e_loading e && _); [exact I | apply IH, Hb].
  - destruct (outer =? "hello"); [exact I | apply IH, Hb].
  - apply IH, Hb.
  - rewrite Hp. destruct (in_strs outer auth_exempt) eqn:Ex.
    { rewrite andb_false_r. apply IH. reflexivity. }
    destruct a; [rewrite andb_false_l in Hb; discriminate Hb|]. cbn [negb orb andb].
    destruct (String.eqb_spec outer "auth") as [Eo|Eo], (k_http_auth k) as [[]|] eqn:Eh; try exact I.
    1,3: destruct Hn; exact (conj Hp (or_introl Eh)).
    destruct (k_auth_arg_ok k) eqn:Ek; [|exact I]. apply Hn. exact (conj Hp (or_intror (conj Eo Ek))).
  - destruct (arm_verdict _ e); [exact I | apply IH, Hb].
  - destruct (find_handler dispatch inner); [|exact I].
    apply in_strs_In. destruct (in_strs outer auth_exempt); [reflexivity|].
    (* the handler call is the next statement: the password block is not ahead of it *)
    unfold before in Hb. cbn in Hb. destruct (index_of GAuth rest); rewrite andb_false_r in Hb; discriminate Hb.
  - apply IH, Hb.
Qed.

Lemma gate_unauthenticated outer inner e k :
  e_requirepass e = true -> no_credentials outer k ->
  match gate outer inner e k with
  | VEarly => In outer ["ping"; "echo"]
  | VErr _ => True
  | VAuthOK => False
  | VRun _ _ _ => In outer ["output"; "healthz"]
  end.
Proof.
  intros Hp [Ha [Hh Harg]].
  assert (Hn : ~ presents_password outer e k).
  { intros [_ [H|[Eo H]]]; [exact (Hh H) | rewrite (Harg Eo) in H; discriminate H]. }
  pose proof (run_gate_unauthenticated gate_order outer inner e k Hp Hn (k_authd k)) as G.
  fold (gate outer inner e k) in G. rewrite Ha, (proj1 (proj2 gate_order_ok)), orb_true_r in G.
  specialize (G eq_refl). destruct (gate outer inner e k); auto; apply exempt_lists_ok, G.
Qed.

(* output and healthz, the only commands an unauthenticated connection gets to run, neither touch
   the dataset nor hand out objects *)
Lemma exempt_handlers_harmless :
  forallb (fun c => negb (changes c) && negb (reads_objects c)) auth_exempt = true.
Proof. vm_compute. reflexivity. Qed.

Lemma wrong_password_never_auths outer inner e k :
  e_requirepass e = true -> no_credentials outer k -> gate outer inner e k <> VAuthOK.
Proof.
  intros Hp Hn H. pose proof (gate_unauthenticated outer inner e k Hp Hn) as G. rewrite H in G. exact G.
Qed.

Lemma authd_only_by_password :
  authd_assignments = 1 /\
  forall outer inner e k, gate_authd outer inner e k = true ->
    k_authd k = true \/ presents_password outer e k.
Proof. split; [vm_compute; reflexivity | intros outer inner e k; apply authd_by_password]. Qed.

(* a whole connection: if no message of the history presented the password (in particular: every
   message sent while NO password was configured), the flag is still false — whatever the
   configuration was at each moment *)
Lemma conn_never_authd_without_password ms :
  Forall (fun m => ~ presents_password (cm_outer m) (cm_env m) (cmsg_cred false m)) ms ->
  conn_authd ms false = false.
Proof.
  induction ms as [|m rest IH]; intros H; [reflexivity|].
  inversion H as [|? ? Hm Hr]; subst. cbn [conn_authd].
  destruct (gate_authd (cm_outer m) (cm_inner m) (cm_env m) (cmsg_cred false m)) eqn:E.
  - exfalso. apply authd_by_password in E. destruct E as [E|E]; [discriminate E | exact (Hm E)].
  - apply IH. exact Hr.
Qed.

(* ... hence the next message of such a connection is gated like one of a new connection *)
Lemma stale_connection_gated ms m :
  Forall (fun x => ~ presents_password (cm_outer x) (cm_env x) (cmsg_cred false x)) ms ->
  e_requirepass (cm_env m) = true ->
  cm_http_auth m <> Some true -> (cm_outer m = "auth" -> cm_auth_arg_ok m = false) ->
  match gate (cm_outer m) (cm_inner m) (cm_env m) (cmsg_cred (conn_authd ms false) m) with
  | VEarly => In (cm_outer m) ["ping"; "echo"]
  | VErr _ => True
  | VAuthOK => False
  | VRun _ _ _ => In (cm_outer m) ["output"; "healthz"]
  end.
Proof.
  intros Hms Hp Hh Ha. rewrite (conn_never_authd_without_password ms Hms).
  apply gate_unauthenticated; [exact Hp|]. unfold no_credentials, cmsg_cred. cbn.
  split; [reflexivity | split; [exact Hh | exact Ha]].
Qed.

Lemma cmd_lock_sound_all : forall c, in_strs c dev_only = false -> cmd_lock_sound c = true.
Proof.
  assert (H : forall c, (in_strs c dev_only || cmd_lock_sound c) = true).
  { apply (lift_dispatch dispatch).
    - vm_compute. reflexivity.
    - intros c He Hn. unfold cmd_lock_sound. rewrite He.
      (* no handler: only writeAOF's effects, and an arm that logs holds the exclusive lock *)
      apply orb_true_iff. right. cbn [app].
      destruct (a_write (arm_of lock_table c)) eqn:Hw; [|reflexivity].
      rewrite (write_arm_excl c Hw).
      apply forallb_forall. intros m _. apply orb_true_iff. right. reflexivity. }
  intros c Hd. specialize (H c). rewrite Hd in H. exact H.
Qed.

Lemma background_lock_sound :
  forallb (fun fn => in_strs fn dispatcher_entries || entry_lock_sound fn) go_entries = true.
Proof. vm_compute. reflexivity. Qed.

(* the expiry sweep is ONE critical section: backgroundExpiring takes the exclusive lock once and
   neither sweeper (nor anything they call) takes or releases the server lock, so the decision
   "this object has expired" and its deletion cannot be separated by another command *)
Lemma sweepers_single_section :
  fn_takes_lock "backgroundExpireObjects" = false /\ fn_takes_lock "backgroundExpireHooks" = false /\
  fn_takes_lock "backgroundExpiring" = true /\ entry_lock_sound "backgroundExpiring" = true /\
  forallb (fun m => is_excl (m_ctx m)) (fn_effects "backgroundExpiring") = true.
Proof. vm_compute. repeat split. Qed.

(* multi-object commands and scripts never release the lock they run under *)
Lemma multi_object_atomic :
  forallb (fun c => match find_handler dispatch c with
                    | Some h => negb (fn_takes_lock (h_fn h)) &&
                                match a_lock (arm_of lock_table c) with LExcl => true | _ => false end
                    | None => false end)
          ["pdel"; "drop"; "rename"; "renamenx"; "flushdb"; "eval"; "evalsha"; "set"; "del"; "fset"; "jset"; "jdel"; "expire"; "persist"] = true.
Proof. vm_compute. reflexivity. Qed.

Lemma eval_is_one_critical_section :
  a_lock (arm_of lock_table "eval") = LExcl /\ a_lock (arm_of lock_table "evalsha") = LExcl /\
  fn_takes_lock "cmdEvalUnified" = false /\ fn_takes_lock "luaTile38AtomicRW" = false /\
  forallb (fun a => match a_lock a with LNone => true | _ => false end) (t_default script_rw :: t_arms script_rw) = true /\
  assoc script_variant "eval" = Some script_rw /\ assoc script_variant "evalsha" = Some script_rw.
Proof. vm_compute. repeat split. Qed.

Lemma evalro_shared_and_pure :
  a_lock (arm_of lock_table "evalro") = LShared /\ a_lock (arm_of lock_table "evalrosha") = LShared /\
  assoc script_variant "evalro" = Some script_ro /\ assoc script_variant "evalrosha" = Some script_ro /\
  fn_takes_lock "luaTile38AtomicRO" = false.
Proof. vm_compute. repeat split. Qed.

Lemma script_gate_run t c e l w fn :
  script_gate t c e = SRun l w fn ->
  in_strs c script_deny = false /\ a_reject (arm_of t c) = RNo /\ arm_verdict (arm_of t c) e = None /\
  l = a_lock (arm_of t c) /\ w = a_write (arm_of t c) /\
  exists h, find_handler dispatch_script c = Some h /\ fn = h_fn h.
Proof.
  unfold script_gate.
  destruct (in_strs c script_deny); [discriminate|].
  destruct (a_reject (arm_of t c)); try discriminate.
  destruct (arm_verdict (arm_of t c) e) as [[]|]; try discriminate.
  destruct (find_handler dispatch_script c) as [h|]; [|discriminate].
  intros H. inversion H. repeat split. exists h. split; reflexivity.
Qed.

Lemma ro_never_mutates_gate c e fn l w :
  script_gate script_ro c e = SRun l w fn -> changes_script c = false /\ w = false.
Proof.
  intros H. apply script_gate_run in H as (Ed & Er & _ & _ & -> & _).
  split.
  - (* a changing sub-command is on the deny list or refused by its arm of script_ro *)
    destruct (changes_script c) eqn:Ec; [|reflexivity].
    pose proof (touching_all dispatch_script _ changing_script
                  (Q := fun c => in_strs c script_deny || match a_reject (arm_of script_ro c) with RNo => false | _ => true end)
                  changing_script_eq ltac:(vm_compute; reflexivity) c Ec) as R.
    cbv beta in R. rewrite Ed, Er in R. discriminate R.
  - exact (proj1 (negb_true_iff _) (arm_of_all script_ro (fun a => negb (a_write a)) ltac:(vm_compute; reflexivity) c)).
Qed.

(* every changing sub-command that a read-write script variant lets through is logged *)
Definition script_logged_check (t : table) (c : string) : bool :=
  implb (changes_script c)
        (in_strs c script_deny ||
         match a_reject (arm_of t c) with RNo => a_write (arm_of t c) && t_logs_on_write t | _ => true end).

Lemma script_writes_logged :
  forall t, In t [script_rw; script_na] -> forall c, script_logged_check t c = true.
Proof.
  intros t Ht. apply (lift_touches dispatch_script _ changing_script changing_script_eq).
  cbn in Ht. destruct Ht as [<-|[<-|[]]]; vm_compute; reflexivity.
Qed.

(* EVALNA: each sub-command takes the server lock itself, the outer command holds none *)
Lemma evalna_per_call :
  a_lock (arm_of lock_table "evalna") = LNone /\ a_lock (arm_of lock_table "evalnasha") = LNone /\
  assoc script_variant "evalna" = Some script_na /\ assoc script_variant "evalnasha" = Some script_na /\
  forallb (fun c => script_cmd_lock_sound script_na LNone c) (map h_cmd dispatch_script) = true.
Proof. vm_compute. repeat split. Qed.

Lemma eval_sub_commands_lock_sound :
  forallb (fun c => script_cmd_lock_sound script_rw LExcl c) (map h_cmd dispatch_script) = true.
Proof. vm_compute. reflexivity. Qed.

(* every changing direct command is logged: its arm has write = true and the table logs on write *)
Definition logged_check (c : string) : bool :=
  implb (changes c && negb (in_strs c dev_only)) (a_write (arm_of lock_table c) && t_logs_on_write lock_table).

Lemma every_change_logged : forall c, logged_check c = true.
Proof. apply (lift_touches_if dispatch _ changing changing_eq). vm_compute. reflexivity. Qed.
