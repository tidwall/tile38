(* Lemmas about Model.Glob: a successful match forces the literal prefix; Parse's limits
   bound every string having that prefix (except when the prefix ends in 0xFF: known finding). *)
From T38 Require Import Base.Bytes Base.ListFacts Base.Utf8 Model.Glob.
From T38 Require Model.Cursor Proofs.CursorProofs.
From Coq Require Import ZifyN ZifyNat ZifyBool Sorted.
Open Scope N_scope.

Lemma is_meta_false c :
  is_meta c = false -> c <> LBR /\ c <> STAR /\ c <> QM /\ c <> BSL.
Proof. unfold is_meta, LBR, STAR, QM, BSL. intros H. lia. Qed.

Lemma lit_prefix_decomp p : exists r, p = lit_prefix p ++ r.
Proof.
  induction p as [|c p [r Hp]]; cbn; [exists []; reflexivity|].
  destruct (is_meta c); [exists (c :: p); reflexivity|].
  exists r. cbn. rewrite Hp at 1. reflexivity.
Qed.

Lemma lit_prefix_no_meta p : forallb (fun c => negb (is_meta c)) (lit_prefix p) = true.
Proof.
  induction p as [|c p IH]; cbn; [reflexivity|].
  destruct (is_meta c) eqn:E; cbn; [reflexivity|]. rewrite E; cbn; exact IH.
Qed.

Lemma scan_body_lit l r :
  forallb (fun c => negb (is_meta c)) l = true ->
  scan_body (l ++ r) false = (l ++ fst (scan_body r false), snd (scan_body r false)).
Proof.
  induction l as [|x l IH]; cbn [app forallb]; intros H; [apply surjective_pairing|].
  apply andb_true_iff in H as [Hx Hl]. apply negb_true_iff in Hx.
  apply is_meta_false in Hx as [H1 [H2 [H3 H4]]].
  cbn [scan_body]. rewrite (IH Hl).
  destruct (N.eqb_spec x BSL); [contradiction|].
  destruct (N.eqb_spec x LBR); [contradiction|].
  destruct (N.eqb_spec x RBR); [reflexivity|].
  destruct (N.eqb_spec x STAR); [contradiction | reflexivity].
Qed.

(* what matchChunk answers on a chunk of plain bytes l: it strips l from the front of the name *)
Fixpoint lit_res (l s : bytes) : mres :=
  match l with
  | [] => MOk s
  | c :: l' => match s with [] => MNo | s0 :: s' => if c =? s0 then lit_res l' s' else MNo end
  end.

Lemma match_chunk_lit l : forall fuel c' s,
  forallb (fun c => negb (is_meta c)) l = true -> (length l <= fuel)%nat ->
  match_chunk fuel (l ++ c') s =
  match lit_res l s with MOk s' => match_chunk (fuel - length l) c' s' | r => r end.
Proof.
  induction l as [|x l IH]; intros fuel c' s Hl Hf; cbn [app lit_res length forallb] in *.
  - now rewrite Nat.sub_0_r.
  - apply andb_true_iff in Hl as [Hx Hl]. apply negb_true_iff in Hx.
    apply is_meta_false in Hx as [H1 [H2 [H3 H4]]].
    destruct fuel as [|f]; [lia|]. cbn [match_chunk]. destruct s as [|s0 s']; [reflexivity|].
    destruct (N.eqb_spec x LBR); [contradiction|].
    destruct (N.eqb_spec x QM); [contradiction|].
    destruct (N.eqb_spec x BSL); [contradiction|].
    destruct (x =? s0); [|reflexivity]. apply IH; [exact Hl | lia].
Qed.

Lemma lit_res_ok l : forall s t, lit_res l s = MOk t <-> s = l ++ t.
Proof.
  induction l as [|x l IH]; intros s t; cbn [lit_res app].
  - split; [intros H; injection H; auto | intros ->; reflexivity].
  - destruct s as [|s0 s']; [split; discriminate|].
    destruct (N.eqb_spec x s0) as [->|Hne].
    + rewrite IH. split; [intros ->; reflexivity | intros H; injection H; auto].
    + split; [discriminate | intros H; injection H; intros; subst; contradiction].
Qed.

Lemma strip_stars_nostar x p : x <> STAR -> strip_stars (x :: p) = (false, x :: p).
Proof. intros H. cbn. destruct (N.eqb_spec x STAR); [contradiction|reflexivity]. Qed.

Theorem match_forces_lit_prefix p s :
  glob_match p s = WTrue -> hasPrefix (lit_prefix p) s.
Proof.
  unfold glob_match. intros H.
  destruct (lit_prefix p) as [|x l] eqn:El.
  - exists s; reflexivity.
  - pose proof (lit_prefix_no_meta p) as Hnm. rewrite El in Hnm.
    destruct (lit_prefix_decomp p) as [r Hp]. rewrite El in Hp.
    assert (Hx : x <> STAR).
    { cbn in Hnm. apply andb_true_iff in Hnm as [Hx _]. apply negb_true_iff in Hx.
      apply is_meta_false in Hx; tauto. }
    rewrite Hp in H. cbn [length app wmatch] in H.
    change ((x :: l) ++ r) with (x :: (l ++ r)) in H.
    rewrite (strip_stars_nostar x (l ++ r) Hx) in H.
    change (x :: (l ++ r)) with ((x :: l) ++ r) in H.
    rewrite (scan_body_lit (x :: l) r Hnm) in H. cbn [andb] in H. unfold match_chunk0 in H.
    rewrite match_chunk_lit in H by (rewrite ?app_length; auto with arith).
    destruct (lit_res (x :: l) s) as [s'| | |] eqn:Em; try discriminate.
    exists s'. apply lit_res_ok, Em.
Qed.

Lemma prefix_lower pre s : hasPrefix pre s -> bytes_leb pre s = true.
Proof. intros [r ->]. apply bytes_leb_app. Qed.

Lemma prefix_upper_inc pre s :
  pre <> [] -> hasPrefix pre s -> bytes_ltb s (inc_last pre) = true.
Proof.
  intros Hne [r ->]. unfold inc_last, bytes_ltb.
  rewrite (app_removelast_last 0 Hne) at 1.
  rewrite <- app_assoc. cbn [app].
  rewrite (bytes_cmp_app_lt (removelast pre) (last pre 0) (last pre 0 + 1) r []); [reflexivity | lia].
Qed.

(* Parse's 0x00 loop: pre is q ++ [z] with z <> 0 followed by k zeros (or all zeros); the bound is
   q ++ [z - 1] when k = 0 and q ++ [z - 1; 0xFF] otherwise, below pre at the byte z either way *)
Lemma desc_low_lt pre : pre <> [] -> bytes_ltb (desc_low pre) pre = true.
Proof.
  intros Hpre. unfold desc_low, bytes_ltb.
  destruct (strip_trailing_decomp 0 pre) as [k Hk].
  destruct (strip_trailing 0 pre) as [|y s] eqn:Es; [destruct pre; [congruence | reflexivity]|].
  destruct (strip_trailing_last 0 pre) as (q & z & Hq & Hz); [rewrite Es; discriminate|].
  rewrite Es in Hq. rewrite Hq in *.
  assert (D : dec_last (q ++ [z]) = q ++ [z - 1]) by (unfold dec_last; now rewrite removelast_last, last_last).
  destruct (Nat.eqb_spec (length (q ++ [z])) (length pre)) as [Hlen|_].
  - assert (k = 0%nat) by (rewrite Hk, !app_length, repeat_length in Hlen; lia). subst k.
    rewrite app_nil_r in Hk. rewrite Hk, D.
    rewrite (bytes_cmp_app_lt q (z - 1) z [] []); [reflexivity | lia].
  - rewrite D, Hk, <- !app_assoc. cbn [app].
    rewrite (bytes_cmp_app_lt q (z - 1) z [255] (repeat 0 k)); [reflexivity | lia].
Qed.

Definition prefix_ends_ff (p : bytes) : bool := last (lit_prefix p) 0 =? 255.

(* membership in the part of the order a range walk from l0 to l1 visits before stopping:
   ASC : l0 <= s <  l1        (Ascend(l0), stop at the first s >= l1)
   DESC: l1 <  s <  l0        (Descend(l0), stop at the first s <= l1) *)
Definition covers (desc : bool) (l0 l1 s : bytes) : bool :=
  if desc then bytes_ltb l1 s && bytes_ltb s l0 else bytes_leb l0 s && bytes_ltb s l1.

Lemma parse_limits_strict p d s :
  hasPrefix (lit_prefix p) s -> prefix_ends_ff p = false -> unlimited (parse p d) = false ->
  covers d (g_lim0 (parse p d)) (g_lim1 (parse p d)) s = true.
Proof.
  intros Hpre Hff. unfold parse.
  destruct p as [|c0 p']; [discriminate|].
  destruct (c0 =? STAR) eqn:Ec; [discriminate|].
  set (p := c0 :: p') in *.
  destruct (lit_prefix p) as [|x l] eqn:El; [discriminate|].
  intros _. unfold prefix_ends_ff in Hff. rewrite El in Hff.
  unfold upper_of. rewrite Hff.
  assert (Hne : x :: l <> []) by congruence.
  destruct d; cbn [covers g_lim0 g_lim1]; rewrite (prefix_upper_inc _ s Hne Hpre), andb_true_r.
  - eapply bytes_ltb_leb_trans; [apply desc_low_lt; exact Hne | apply prefix_lower; exact Hpre].
  - apply prefix_lower; exact Hpre.
Qed.

Theorem limits_sound p d s :
  glob_match p s = WTrue -> prefix_ends_ff p = false ->
  unlimited (parse p d) = true \/ in_limits (parse p d) d s = true.
Proof.
  intros Hm Hff. destruct (unlimited (parse p d)) eqn:Eu; [left; reflexivity | right].
  pose proof (parse_limits_strict p d s (match_forces_lit_prefix p s Hm) Hff Eu) as H.
  unfold in_limits. destruct d; [|exact H].
  apply andb_true_iff in H as [H1 H2]. rewrite H2, (bytes_ltb_leb _ _ H1). reflexivity.
Qed.

Fixpoint drop_below (lo : bytes) (l : list bytes) : list bytes :=
  match l with
  | [] => []
  | k :: l' => if bytes_ltb k lo then drop_below lo l' else l
  end.

(* Ascend(lo) ... stop when key > hi (KEYS, hooks) or key >= hi (ScanRange) *)
Fixpoint take_upto (hi : bytes) (incl : bool) (l : list bytes) : list bytes :=
  match l with
  | [] => []
  | k :: l' =>
      if (if incl then bytes_gtb k hi else bytes_geb k hi) then [] else k :: take_upto hi incl l'
  end.

Definition matches (p k : bytes) : bool := match glob_match p k with WTrue => true | _ => false end.

(* cmdKEYS / cmdPDEL / forEachHookByPattern / SCAN-with-MATCH iteration (ASC) *)
Definition range_select (p : bytes) (incl : bool) (names : list bytes) : list bytes :=
  let g := parse p false in
  if unlimited g then filter (matches p) names
  else filter (matches p) (take_upto (g_lim1 g) incl (drop_below (g_lim0 g) names)).

Definition sorted (l : list bytes) : Prop := StronglySorted (fun a b => bytes_ltb a b = true) l.

Lemma matches_covers p d s :
  matches p s = true -> prefix_ends_ff p = false -> unlimited (parse p d) = false ->
  covers d (g_lim0 (parse p d)) (g_lim1 (parse p d)) s = true.
Proof.
  unfold matches. intros Hm. destruct (glob_match p s) eqn:Em; try discriminate.
  exact (parse_limits_strict p d s (match_forces_lit_prefix p s Em)).
Qed.

(* the two walks are those of Model/Cursor.v *)
Lemma drop_below_drop_while lo l : drop_below lo l = Cursor.drop_while (fun k => bytes_ltb k lo) l.
Proof. induction l as [|k l IH]; cbn; [|rewrite IH]; reflexivity. Qed.

Lemma take_upto_until_stop hi incl l :
  take_upto hi incl l = Cursor.until_stop (fun k => if incl then bytes_gtb k hi else bytes_geb k hi) l.
Proof. induction l as [|k l IH]; cbn; [|rewrite IH]; reflexivity. Qed.

Theorem range_select_exact p incl names :
  sorted names -> prefix_ends_ff p = false ->
  range_select p incl names = filter (matches p) names.
Proof.
  intros Hs Hff. unfold range_select.
  destruct (unlimited (parse p false)) eqn:Eu; [reflexivity|].
  rewrite take_upto_until_stop, drop_below_drop_while.
  apply (CursorProofs.range_walk_filter (fun a b => bytes_ltb a b = true)); [exact Hs | |].
  - intros a b Hab Ha. apply bytes_ltb_leb in Hab. unfold bytes_gtb, bytes_geb in *.
    destruct incl; [exact (bytes_ltb_leb_trans _ _ _ Ha Hab) | exact (bytes_leb_trans _ _ _ Ha Hab)].
  - intros k Hk. pose proof (matches_covers p false k Hk Hff Eu) as H.
    apply andb_true_iff in H as [H0 H1]. split; [exact (bytes_leb_ltb_false _ _ H0)|].
    unfold bytes_gtb, bytes_geb.
    destruct incl; [exact (bytes_leb_ltb_false _ _ (bytes_ltb_leb _ _ H1)) | exact (bytes_ltb_leb_false _ _ H1)].
Qed.

Lemma match_star s : glob_match [STAR] s = WTrue.
Proof. reflexivity. Qed.

Lemma match_empty_pattern s : glob_match [] s = WTrue <-> s = [].
Proof. unfold glob_match; cbn. destruct s; cbn; split; congruence. Qed.
