(* Proofs/GlobSelEscProofs.v — lemmas about Model/GlobSelEsc.v (property C12):
   cmdPDEL's selection is the plain filter for EVERY pattern, escapes included (a literal prefix
   ending in 0xFF, C12's known finding, aside); the literal
   lookup guarded by IsGlob is right exactly when the pattern has no escape (reusing C20's
   roam_shortcut_exact) and wrong otherwise; a command line of plain words reaches the command
   as those words (readNativeMessageLine splits at the blanks), a '['-first word included. *)
From Coq Require Import ZifyN ZifyNat ZifyBool Sorting.Sorted.
From T38 Require Import Base.Bytes Base.ListFacts Base.Utf8 Model.Glob Proofs.GlobProofs Model.Roam Proofs.RoamPatProofs.
From T38 Require Import Model.Resp Model.GlobSel Proofs.GlobSelProofs Model.GlobSelEsc.
From T38 Require Base.SMap.
Import ListNotations.
Open Scope N_scope.

Theorem pdel_select_exact pattern ids :
  bsorted ids -> prefix_ends_ff pattern = false ->
  pdel_select pattern ids = filter (gmatches pattern) ids.
Proof.
  intros Hs Hff. unfold pdel_select.
  destruct (isempty (g_lim0 (parse pattern false)) && isempty (g_lim1 (parse pattern false))) eqn:Eu; [reflexivity|].
  apply (scan_range_visit_filter _ false); [exact Hs|].
  intros x Hx. exact (matches_covers pattern false x Hx Hff Eu).
Qed.

Lemma filter_singleton (P : bytes -> bool) (p : bytes) l :
  bsorted l -> (forall s, P s = true <-> p = s) ->
  filter P l = if existsb (bytes_eqb p) l then [p] else [].
Proof.
  intros Hs HP. induction l as [|x r IH]; cbn [filter existsb]; [reflexivity|].
  inversion Hs as [|? ? Hs' Hall]; subst.
  destruct (bytes_eqb_spec p x) as [<-|E].
  - rewrite (proj2 (HP p) eq_refl). cbn [orb].
    rewrite (filter_none P r); [reflexivity|].
    intros y Hy. destruct (P y) eqn:Py; [|reflexivity]. apply HP in Py. subst y.
    rewrite Forall_forall in Hall. specialize (Hall p Hy). rewrite SMap.ltb_irrefl in Hall. discriminate.
  - cbn [orb]. destruct (P x) eqn:Px.
    + apply HP in Px. contradiction.
    + apply IH. exact Hs'.
Qed.

Lemma split_sp_app w : forall t acc, ~ In 32 w -> split_sp (w ++ t) acc = split_sp t (rev w ++ acc).
Proof.
  induction w as [|c w IH]; intros t acc Hn; cbn [app split_sp rev]; [reflexivity|].
  destruct (N.eqb_spec c 32) as [E|E]; [exfalso; apply Hn; left; auto|].
  rewrite IH by (intros H; apply Hn; right; exact H). rewrite <- app_assoc. reflexivity.
Qed.

Lemma plain_word_spec w : plain_word w = true <->
  exists c w', w = c :: w' /\ c <> 123 /\ c <> 34 /\ ~ In 32 w.
Proof.
  pose proof (existsb_eqb_In N.eqb N.eqb_eq 32 w) as E.
  destruct w as [|c w']; cbn [plain_word]; [split; [discriminate | intros (? & ? & [=] & _)]|].
  rewrite !andb_true_iff, !negb_true_iff, !N.eqb_neq, <- not_true_iff_false, E. split.
  - intros [[H1 H2] H3]. exists c, w'. auto.
  - intros (? & ? & [= <- <-] & H1 & H2 & H3). auto.
Qed.

Lemma native_step w rest racc fuel : plain_word w = true ->
  native_tok (S fuel) (w ++ 32 :: rest) racc = native_tok fuel rest (w :: racc).
Proof.
  intros Hw. destruct (proj1 (plain_word_spec w) Hw) as (c & w' & -> & H1 & H2 & Hn).
  cbn [native_tok app].
  destruct (N.eqb_spec c 123); [contradiction|].
  destruct (N.eqb_spec c 34); [contradiction|]. cbn [andb].
  change (c :: w' ++ 32 :: rest) with ((c :: w') ++ 32 :: rest).
  rewrite (split_sp_app (c :: w') (32 :: rest) [] Hn), app_nil_r. cbn [split_sp]. rewrite N.eqb_refl, rev_involutive.
  reflexivity.
Qed.

Lemma native_last w racc fuel : plain_word w = true ->
  native_tok (S fuel) w racc = TOk (rev (w :: racc)).
Proof.
  intros Hw. destruct (proj1 (plain_word_spec w) Hw) as (c & w' & -> & H1 & H2 & Hn).
  cbn [native_tok].
  destruct (N.eqb_spec c 123); [contradiction|].
  destruct (N.eqb_spec c 34); [contradiction|]. cbn [andb].
  pose proof (split_sp_app (c :: w') [] [] Hn) as E. rewrite !app_nil_r in E. rewrite E. reflexivity.
Qed.

Lemma native_words ws : forall racc fuel, forallb plain_word ws = true ->
  (length ws < fuel)%nat -> native_tok fuel (join_sp ws) racc = TOk (rev racc ++ ws).
Proof.
  induction ws as [|w r IH]; intros racc fuel Hall Hf; (destruct fuel as [|fuel]; [lia|]).
  { cbn [join_sp native_tok]. rewrite app_nil_r. reflexivity. }
  cbn [forallb] in Hall. apply andb_true_iff in Hall as [Hw Hr].
  destruct r as [|w2 r'].
  - cbn [join_sp]. rewrite (native_last w racc fuel Hw). cbn [rev]. reflexivity.
  - change (join_sp (w :: w2 :: r')) with (w ++ 32 :: join_sp (w2 :: r')).
    rewrite (native_step w _ racc fuel Hw).
    rewrite IH; [|exact Hr|cbn [length] in *; lia].
    cbn [rev]. rewrite <- app_assoc. reflexivity.
Qed.

Lemma join_sp_length ws : forallb plain_word ws = true -> (length ws <= length (join_sp ws))%nat.
Proof.
  induction ws as [|w r IH]; cbn [forallb]; intros H; [cbn; lia|].
  apply andb_true_iff in H as [Hw Hr]. specialize (IH Hr).
  destruct (proj1 (plain_word_spec w) Hw) as (c & w' & -> & _).
  destruct r as [|w2 r']; cbn [join_sp length] in *; [lia|].
  rewrite app_length. cbn [length] in *. lia.
Qed.

(* a line of plain words reaches the command as exactly those words *)
Theorem transport_words_split ws : forallb plain_word ws = true -> transport_words (join_sp ws) = TOk ws.
Proof.
  intros Hall. unfold transport_words.
  rewrite (native_words ws [] _ Hall); [reflexivity|].
  pose proof (join_sp_length ws Hall). lia.
Qed.

(* a glob pattern opening with a character class is such a word *)
Lemma bracket_word_plain w : ~ In 32 w -> plain_word (LBR :: w) = true.
Proof.
  intros Hn. apply plain_word_spec. exists LBR, w. repeat split; try discriminate.
  intros [H|H]; [discriminate H | exact (Hn H)].
Qed.
