(* Proofs/GlobSelProofs.v — lemmas about Model/GlobSel.v (property C12):
   the range shortcut derived from several MATCH patterns (multiGlobParse + ScanRange /
   SearchValuesRange) never changes the selected ids, in both directions; the hook / channel
   walk yields exactly the entries of the asked kind whose name matches; the unfiltered COUNT
   shortcut equals the counting iteration after every history of Set / Delete. *)
From Coq Require Import ZifyN ZifyNat ZifyBool Sorting.Sorted Sorting.Permutation.
From T38 Require Import Base.Bytes Base.ListFacts Base.Utf8 Model.Glob Proofs.GlobProofs.
From T38 Require Import Model.Collection Proofs.CollectionProofs Model.GlobSel.
From T38 Require Base.SMap Proofs.CursorProofs.
Import ListNotations.
Open Scope N_scope.

(* the walks of this model are those of Model/Cursor.v (skip_while is drop_while up to conversion) *)
Lemma take_until_until_stop {A} (stop : A -> bool) l : take_until stop l = Cursor.until_stop stop l.
Proof. induction l as [|x r IH]; cbn; [|rewrite IH]; reflexivity. Qed.

Lemma range_walk_filter {A} (R : A -> A -> Prop) (P skip stop : A -> bool) (l : list A) :
  StronglySorted R l ->
  (forall a b, R a b -> stop a = true -> stop b = true) ->
  (forall x, P x = true -> skip x = false /\ stop x = false) ->
  filter P (take_until stop (skip_while skip l)) = filter P l.
Proof. rewrite take_until_until_stop. exact (CursorProofs.range_walk_filter R P skip stop l). Qed.

Lemma covers_widen d a0 a1 b0 b1 s :
  covers d a0 a1 s = true ->
  (if d then bytes_leb a0 b0 = true /\ bytes_leb b1 a1 = true
   else bytes_leb b0 a0 = true /\ bytes_leb a1 b1 = true) ->
  covers d b0 b1 s = true.
Proof.
  unfold covers. destruct d; intros H [H0 H1]; apply andb_true_iff in H as [Ha Hb];
    apply andb_true_iff; split.
  - eapply bytes_leb_ltb_trans; eassumption.
  - eapply bytes_ltb_leb_trans; eassumption.
  - eapply bytes_leb_trans; eassumption.
  - eapply bytes_ltb_leb_trans; eassumption.
Qed.

Lemma pick_min_l a b : bytes_leb (if bytes_ltb a b then a else b) a = true.
Proof. destruct (bytes_ltb a b) eqn:E; [apply bytes_leb_refl | apply bytes_ltb_false_leb; exact E]. Qed.
Lemma pick_min_r a b : bytes_leb (if bytes_ltb a b then a else b) b = true.
Proof. destruct (bytes_ltb a b) eqn:E; [apply bytes_ltb_leb; exact E | apply bytes_leb_refl]. Qed.
Lemma pick_max_l a b : bytes_leb a (if bytes_gtb a b then a else b) = true.
Proof. unfold bytes_gtb. destruct (bytes_ltb b a) eqn:E; [apply bytes_leb_refl | apply bytes_ltb_false_leb; exact E]. Qed.
Lemma pick_max_r a b : bytes_leb b (if bytes_gtb a b then a else b) = true.
Proof. unfold bytes_gtb. destruct (bytes_ltb b a) eqn:E; [apply bytes_ltb_leb; exact E | apply bytes_leb_refl]. Qed.

(* multiGlobParse's loop.  S is what the accumulator (l0, l1) has to cover, nothing at the first
   pattern: the range of the final limits, unless both are empty, holds S and whatever a remaining
   pattern matches *)
Lemma multi_aux_covers rest : forall desc first l0 l1 (S : bytes -> Prop),
  (forall p, In p rest -> prefix_ends_ff p = false) ->
  (forall s, S s -> first = false /\ covers desc l0 l1 s = true) ->
  forall s, S s \/ existsb (fun p => gmatches p s) rest = true ->
  forall m0 m1, multi_glob_parse_aux rest desc first l0 l1 = (m0, m1) -> isempty m0 && isempty m1 = false ->
  covers desc m0 m1 s = true.
Proof.
  induction rest as [|q rest IH]; intros desc first l0 l1 S Hff HS; cbn [multi_glob_parse_aux existsb].
  - intros s [Hs|Hs] m0 m1 [= <- <-] _; [apply HS, Hs | discriminate].
  - destruct (unlimited (parse q desc)) eqn:Eu; [intros s _ m0 m1 [= <- <-]; discriminate|].
    pose proof (fun s Hs => matches_covers q desc s Hs (Hff q (or_introl eq_refl)) Eu) as Hq.
    pose proof (fun p Hp => Hff p (or_intror Hp)) as Hff'.
    intros s Hs. rewrite orb_true_iff, <- or_assoc in Hs. revert s Hs.
    (* the next accumulator, q's range or the hull of that and (l0, l1), covers S and what q matches *)
    destruct first.
    + apply IH; [exact Hff'|]. intros s [Hs|Hs]; [destruct (HS s Hs); discriminate | auto].
    + destruct desc; (apply IH; [exact Hff'|]); intros s Hs; (split; [reflexivity|]);
        (destruct Hs as [Hs|Hs]; [apply HS in Hs as [_ Hs] | apply Hq in Hs]);
        eapply covers_widen; try eassumption; cbn; auto using pick_min_l, pick_min_r, pick_max_l, pick_max_r.
Qed.

Lemma multi_covers globs desc l0 l1 s :
  (forall p, In p globs -> prefix_ends_ff p = false) -> glob_test globs s = true ->
  multi_glob_parse globs desc = (l0, l1) -> isempty l0 && isempty l1 = false -> covers desc l0 l1 s = true.
Proof.
  intros Hff Hs E Eu. apply orb_true_iff in Hs as [He|Hs].
  - (* no MATCH, or MATCH *: the limits are empty *)
    destruct globs as [|p [|p' g']]; [| apply bytes_eqb_eq in He; subst p | discriminate He];
      injection E as <- <-; discriminate Eu.
  - refine (multi_aux_covers globs desc true [] [] (fun _ => False) Hff _ s (or_intror Hs) l0 l1 E Eu). intros _ [].
Qed.

Section PushProofs.
  Context {A : Type}.
  Variable globs : list bytes.
  Variable text : A -> bytes.
  Variable fok : A -> bool.
  Variable limit : N.

  (* the filter the reply is supposed to apply *)
  Definition sel (o : A) : bool := glob_test globs (text o) && fok o.

  Lemma first_match_spec ps val : first_match ps val = (existsb (fun p => gmatches p val) ps, true).
  Proof.
    induction ps as [|p r IH]; cbn [first_match existsb]; [reflexivity|].
    destruct (gmatches p val); [reflexivity | exact IH].
  Qed.

  Lemma glob_match_kg_spec o : glob_match_kg globs text o = (glob_test globs (text o), true).
  Proof.
    unfold glob_match_kg, glob_test. destruct (glob_everything globs); [reflexivity|].
    rewrite first_match_spec. reflexivity.
  Qed.

  Lemma test_object_spec o : test_object globs text fok o = (sel o, true).
  Proof.
    unfold test_object, sel. rewrite glob_match_kg_spec.
    destruct (glob_test globs (text o)); reflexivity.
  Qed.

  (* this scanWriter is Model/Cursor.v's: the item walk is Cursor.iterate from cursor 0 (the filled list is kept
     newest first here), the COUNT walk is Cursor.count_iterate *)
  Lemma walk_push_iterate l : forall st count w,
    sw_filled st = rev (Cursor.sw_filled w) -> sw_nitems st = Cursor.sw_items w ->
    out_items (walk_push globs text fok limit false st l) =
    Cursor.sw_filled (Cursor.iterate sel (fun _ => false) limit 0 l count w).
  Proof.
    unfold out_items. induction l as [|o r IH]; intros st count w Hf Hn; cbn [walk_push Cursor.iterate].
    { rewrite Hf. apply rev_involutive. }
    replace (count + 1 <=? 0) with false by lia. rewrite CursorProofs.next_step_eq.
    unfold push_object, Cursor.push_object. rewrite test_object_spec.
    destruct (sel o); cbn [negb]; [|apply IH; assumption].
    cbn [Cursor.sw_step Cursor.sw_items Cursor.sw_filled Cursor.sw_iters Cursor.sw_hit]. rewrite <- Hn.
    destruct (sw_nitems st + 1 =? limit).
    - cbn [sw_filled Cursor.sw_filled rev]. rewrite Hf, rev_involutive. reflexivity.
    - apply IH; cbn [sw_filled sw_nitems Cursor.sw_filled Cursor.sw_items]; [|reflexivity].
      rewrite rev_app_distr, Hf. reflexivity.
  Qed.

  Lemma walk_push_count l : forall st count,
    out_count (walk_push globs text fok limit true st l) =
    Cursor.count_iterate sel (fun _ => false) limit 0 l count (sw_count st).
  Proof.
    unfold out_count. induction l as [|o r IH]; intros st count; cbn [walk_push Cursor.count_iterate]; [reflexivity|].
    replace (count + 1 <=? 0) with false by lia. unfold push_object. rewrite test_object_spec.
    destruct (sel o); cbn [negb]; [|apply IH].
    destruct (sw_count st + 1 <? limit); [apply IH | reflexivity].
  Qed.

  (* the reply of a walk over the visited entries: the first LIMIT selected entries, in order;
     COUNT = their number *)
  Theorem walk_push_exact l : 1 <= limit ->
    out_items (walk_push globs text fok limit false (@sw0 A) l) = firstn (N.to_nat limit) (filter sel l) /\
    out_count (walk_push globs text fok limit true (@sw0 A) l) = N.min limit (N.of_nat (length (filter sel l))).
  Proof.
    intros H. rewrite <- (CursorProofs.unlimited_no_stop sel l). split.
    - rewrite (walk_push_iterate l sw0 0 (Cursor.sw_step (Cursor.mkSW 0 0 false []) 0)) by reflexivity.
      exact (CursorProofs.page_firstn sel (fun _ => false) l 0 limit H).
    - rewrite (walk_push_count l sw0 0). exact (CursorProofs.count_query_spec sel (fun _ => false) l 0 limit H).
  Qed.
End PushProofs.

Definition bsorted (l : list bytes) : Prop := StronglySorted (fun a b => bytes_ltb a b = true) l.

Lemma scan_range_visit_filter (P : bytes -> bool) desc l0 l1 ids :
  bsorted ids -> (forall x, P x = true -> covers desc l0 l1 x = true) ->
  filter P (scan_range_visit l0 l1 desc ids) = filter P (if desc then rev ids else ids).
Proof.
  intros Hs Hc. unfold scan_range_visit, covers, bytes_gtb, bytes_geb in *. destruct desc.
  - apply (range_walk_filter (fun a b => bytes_ltb b a = true)).
    + exact (SS_rev _ _ Hs).
    + intros a b Hab Ha. exact (bytes_leb_trans _ _ _ (bytes_ltb_leb _ _ Hab) Ha).
    + intros x Hx. apply Hc, andb_true_iff in Hx as [H1 H0].
      split; [apply SMap.ltb_asym, H0 | apply bytes_ltb_leb_false, H1].
  - apply (range_walk_filter (fun a b => bytes_ltb a b = true)); [exact Hs | |].
    + intros a b Hab Ha. exact (bytes_leb_trans _ _ _ Ha (bytes_ltb_leb _ _ Hab)).
    + intros x Hx. apply Hc, andb_true_iff in Hx as [H0 H1].
      split; [apply bytes_leb_ltb_false, H0 | apply bytes_ltb_leb_false, H1].
Qed.

Lemma scan_visit_filter globs desc ids (P : bytes -> bool) :
  bsorted ids -> (forall p, In p globs -> prefix_ends_ff p = false) ->
  (forall x, P x = true -> glob_test globs x = true) ->
  filter P (scan_visit globs desc ids) = filter P (if desc then rev ids else ids).
Proof.
  intros Hs Hff HP. unfold scan_visit. destruct (multi_glob_parse globs desc) as [l0 l1] eqn:E.
  destruct (isempty l0 && isempty l1) eqn:Eu; [reflexivity|].
  apply scan_range_visit_filter; [exact Hs|].
  intros x Hx. exact (multi_covers globs desc l0 l1 x Hff (HP x Hx) E Eu).
Qed.

Definition scan_sel (globs : list bytes) (fok : bytes -> bool) (id : bytes) : bool := glob_test globs id && fok id.

Theorem scan_multi_exact globs fok limit (desc : bool) (ids : list bytes) :
  bsorted ids -> (forall p, In p globs -> prefix_ends_ff p = false) -> 1 <= limit ->
  let all := if desc then rev ids else ids in
  out_items (scan_multi globs fok limit false desc ids) = firstn (N.to_nat limit) (filter (scan_sel globs fok) all) /\
  out_count (scan_multi globs fok limit true desc ids) = N.min limit (N.of_nat (length (filter (scan_sel globs fok) all))).
Proof.
  intros Hs Hff Hl all. unfold scan_multi.
  destruct (walk_push_exact globs (fun id : bytes => id) fok limit (scan_visit globs desc ids) Hl) as [H1 H2].
  change (sel globs (fun id : bytes => id) fok) with (scan_sel globs fok) in H1, H2.
  rewrite (scan_visit_filter globs desc ids (scan_sel globs fok) Hs Hff) in H1, H2
    by (intros x Hx; apply andb_true_iff in Hx; apply Hx).
  split; [exact H1 | exact H2].
Qed.

(* the order of the value index is byValue's comparison (Model/Collection.v vcmp) *)
Lemma ventry_ltb_vcmp a b : ventry_ltb a b = true <-> vcmp a b = Lt.
Proof.
  unfold ventry_ltb, vcmp, lex_cmp, bytes_ltb. destruct (bytes_cmp (fst a) (fst b)); [|tauto | split; discriminate].
  destruct (bytes_cmp (snd a) (snd b)); split; congruence.
Qed.

Lemma ventry_ltb_trans a b c : ventry_ltb a b = true -> ventry_ltb b c = true -> ventry_ltb a c = true.
Proof. rewrite !ventry_ltb_vcmp. apply (ord_trans _ order_vcmp). Qed.

Lemma ventry_ltb_pivot_r e v : ventry_ltb e (v, []) = bytes_ltb (fst e) v.
Proof.
  unfold ventry_ltb, bytes_ltb. cbn [fst snd].
  destruct (bytes_cmp (fst e) v); try reflexivity. destruct (snd e); reflexivity.
Qed.

Lemma ventry_ltb_pivot_l_lt e v : bytes_ltb v (fst e) = true -> ventry_ltb (v, []) e = true.
Proof. unfold ventry_ltb, bytes_ltb. cbn [fst snd]. destruct (bytes_cmp v (fst e)); congruence. Qed.

Lemma ventry_ltb_pivot_l_gt e v : bytes_ltb (fst e) v = true -> ventry_ltb (v, []) e = false.
Proof.
  intros H. unfold ventry_ltb. cbn [fst snd]. unfold bytes_ltb in H.
  rewrite (bytes_cmp_antisym (fst e) v). destruct (bytes_cmp (fst e) v); cbn; congruence.
Qed.

Definition vsorted (l : list ventry) : Prop := StronglySorted (fun a b => ventry_ltb a b = true) l.

Lemma search_range_visit_filter (P : ventry -> bool) desc l0 l1 vs :
  vsorted vs -> (forall e, P e = true -> covers desc l0 l1 (fst e) = true) ->
  filter P (search_range_visit l0 l1 desc vs) = filter P (if desc then rev vs else vs).
Proof.
  intros Hs Hc. unfold search_range_visit, covers in *. destruct desc.
  - apply (range_walk_filter (fun a b => ventry_ltb b a = true)).
    + exact (SS_rev _ _ Hs).
    + intros a b Hab Ha. apply negb_true_iff in Ha. apply negb_true_iff.
      destruct (ventry_ltb (l1, []) b) eqn:Eb; [|reflexivity].
      rewrite (ventry_ltb_trans _ _ _ Eb Hab) in Ha. discriminate.
    + intros x Hx. apply Hc, andb_true_iff in Hx as [H1 H0].
      split; [apply ventry_ltb_pivot_l_gt, H0 | apply negb_false_iff, ventry_ltb_pivot_l_lt, H1].
  - apply (range_walk_filter (fun a b => ventry_ltb a b = true)); [exact Hs | |].
    + intros a b Hab Ha. apply negb_true_iff in Ha. apply negb_true_iff.
      destruct (ventry_ltb b (l1, [])) eqn:Eb; [|reflexivity].
      rewrite (ventry_ltb_trans _ _ _ Hab Eb) in Ha. discriminate.
    + intros x Hx. apply Hc, andb_true_iff in Hx as [H0 H1]. rewrite !ventry_ltb_pivot_r.
      split; [apply bytes_leb_ltb_false, H0 | apply negb_false_iff, H1].
Qed.

Lemma search_visit_filter globs desc vs (P : ventry -> bool) :
  vsorted vs -> (forall p, In p globs -> prefix_ends_ff p = false) ->
  (forall e, P e = true -> glob_test globs (fst e) = true) ->
  filter P (search_visit globs desc vs) = filter P (if desc then rev vs else vs).
Proof.
  intros Hs Hff HP. unfold search_visit. destruct (multi_glob_parse globs desc) as [l0 l1] eqn:E.
  destruct (isempty l0 && isempty l1) eqn:Eu; [reflexivity|].
  apply search_range_visit_filter; [exact Hs|].
  intros x Hx. exact (multi_covers globs desc l0 l1 (fst x) Hff (HP x Hx) E Eu).
Qed.

Definition search_sel (globs : list bytes) (fok : ventry -> bool) (e : ventry) : bool := glob_test globs (fst e) && fok e.

(* every entry whose VALUE passes MATCH and whose fields pass the filter is returned (up to LIMIT),
   however many ids share one value *)
Theorem search_multi_exact globs fok limit (desc : bool) (vs : list ventry) :
  vsorted vs -> (forall p, In p globs -> prefix_ends_ff p = false) -> 1 <= limit ->
  let all := if desc then rev vs else vs in
  map snd (out_items (search_multi globs fok limit false desc vs)) =
    map snd (firstn (N.to_nat limit) (filter (search_sel globs fok) all)) /\
  out_count (search_multi globs fok limit true desc vs) = N.min limit (N.of_nat (length (filter (search_sel globs fok) all))).
Proof.
  intros Hs Hff Hl all. unfold search_multi.
  destruct (walk_push_exact (A := ventry) globs fst fok limit (search_visit globs desc vs) Hl) as [H1 H2].
  change (sel globs fst fok) with (search_sel globs fok) in H1, H2.
  rewrite (search_visit_filter globs desc vs (search_sel globs fok) Hs Hff) in H1, H2
    by (intros x Hx; apply andb_true_iff in Hx; apply Hx).
  split; [f_equal; exact H1 | exact H2].
Qed.

Lemma firstn_filter_all {A} (f : A -> bool) (l : list A) (limit : N) :
  N.of_nat (length l) < limit -> firstn (N.to_nat limit) (filter f l) = filter f l.
Proof. intros H. apply firstn_all2. pose proof (filter_length_le f l). lia. Qed.

(* DESC only reverses, for any number of patterns and any field filter, when LIMIT does not cut *)
Corollary scan_multi_desc_rev globs fok limit ids :
  bsorted ids -> (forall p, In p globs -> prefix_ends_ff p = false) -> N.of_nat (length ids) < limit ->
  out_items (scan_multi globs fok limit false true ids) = rev (out_items (scan_multi globs fok limit false false ids)).
Proof.
  intros Hs Hff Hl.
  destruct (scan_multi_exact globs fok limit true ids Hs Hff ltac:(lia)) as [H1 _].
  destruct (scan_multi_exact globs fok limit false ids Hs Hff ltac:(lia)) as [H2 _].
  rewrite H1, H2, !firstn_filter_all by (rewrite ?rev_length; exact Hl). apply filter_rev.
Qed.

Definition hsel (pattern : bytes) (channel : bool) (e : hentry) : bool :=
  Bool.eqb (snd e) channel && gmatches pattern (fst e).

Definition hsorted (l : list hentry) : Prop := StronglySorted (fun a b => bytes_ltb (fst a) (fst b) = true) l.

Lemma hook_walk_from_spec pattern lim1 has_upper channel l :
  hook_walk_from pattern lim1 has_upper channel l =
  map fst (filter (hsel pattern channel)
             (take_until (fun e : hentry => has_upper && bytes_gtb (fst e) lim1) l)).
Proof.
  induction l as [|e r IH]; cbn [hook_walk_from take_until]; [reflexivity|].
  destruct (has_upper && bytes_gtb (fst e) lim1); [reflexivity|].
  cbn [filter]. unfold hsel at 1.
  destruct (Bool.eqb (snd e) channel); cbn [andb]; [|exact IH].
  destruct (gmatches pattern (fst e)); cbn [map]; [f_equal; exact IH | exact IH].
Qed.

Theorem hook_walk_exact pattern channel entries :
  hsorted entries -> prefix_ends_ff pattern = false ->
  hook_walk pattern channel entries = map fst (filter (hsel pattern channel) entries).
Proof.
  intros Hs Hff. unfold hook_walk. rewrite hook_walk_from_spec. f_equal.
  apply (range_walk_filter (fun a b : hentry => bytes_ltb (fst a) (fst b) = true)); [exact Hs | |].
  - intros a b Hab Ha. apply andb_true_iff in Ha as [Hu Ha]. rewrite Hu.
    exact (SMap.ltb_trans _ _ _ Ha Hab).
  - intros e He. apply andb_true_iff in He as [_ He].
    destruct (unlimited (parse pattern false)) eqn:Eu.
    + (* no limits: the walk starts at the first entry and has no end test *)
      apply andb_true_iff in Eu as [H0 H1]. rewrite H1.
      destruct (g_lim0 (parse pattern false)); [|discriminate]. split; [apply bytes_ltb_nil_r | reflexivity].
    + pose proof (matches_covers pattern false (fst e) He Hff Eu) as Hc.
      apply andb_true_iff in Hc as [H0 H1]. split; [apply bytes_leb_ltb_false, H0|].
      unfold bytes_gtb. rewrite (SMap.ltb_asym _ _ H1). apply andb_false_r.
Qed.

(* PDELHOOK / PDELCHAN: the reply counts exactly the selected entries and exactly those are gone *)
Theorem pdel_hooks_exact pattern channel entries :
  hsorted entries -> prefix_ends_ff pattern = false ->
  pdel_hooks pattern channel entries =
  (length (filter (hsel pattern channel) entries),
   filter (fun e => negb (hsel pattern channel e)) entries).
Proof.
  intros Hs Hff. unfold pdel_hooks. rewrite (hook_walk_exact _ _ _ Hs Hff).
  rewrite map_length. f_equal.
  apply filter_ext_in. intros e He. f_equal. unfold hsel at 2.
  destruct (Bool.eqb (snd e) channel) eqn:Ek; cbn [andb]; [|reflexivity].
  destruct (gmatches pattern (fst e)) eqn:Em.
  - apply (existsb_eqb_In _ bytes_eqb_eq).
    apply in_map. apply filter_In. split; [exact He|]. unfold hsel. rewrite Ek, Em. reflexivity.
  - destruct (existsb (bytes_eqb (fst e)) (map fst (filter (hsel pattern channel) entries))) eqn:Ex; [|reflexivity].
    apply (existsb_eqb_In _ bytes_eqb_eq) in Ex.
    apply in_map_iff in Ex as [e' [Hf He']]. apply filter_In in He' as [_ He'].
    unfold hsel in He'. apply andb_true_iff in He' as [_ He']. rewrite Hf in He'. congruence.
Qed.

Local Open Scope Z_scope.

Lemma zsum_b2z_filter (f : obj -> bool) (l : list obj) :
  zsum (fun o => b2z (f o)) l = Z.of_nat (length (filter f l)).
Proof.
  induction l as [|a l IH]; cbn [zsum fold_right filter]; [reflexivity|].
  unfold zsum in IH. rewrite IH. destruct (f a); cbn [b2z length]; lia.
Qed.

(* byValue holds the non-spatial objects, each once: any selection from it has as many members
   as the same selection from objs *)
Lemma values_filter_length c (f : obj -> bool) : Wf c ->
  length (filter f (search_values c)) = length (filter (fun o => in_values o && f o) (scan_ids c)).
Proof.
  intros W. unfold search_values, scan_ids. apply Permutation_length, NoDup_Permutation.
  - apply NoDup_filter, (NoDup_map_inv vkey), (ssorted_NoDup vkey vcmp order_vcmp), (wf_values_sorted c W).
  - apply NoDup_filter, (NoDup_map_inv o_id), (ssorted_NoDup o_id id_cmp order_bytes), (wf_objs c W).
  - intros o. rewrite !filter_In, (wf_values c W), andb_true_iff. tauto.
Qed.

Lemma values_length c : Wf c ->
  length (search_values c) = length (filter (fun o => negb (o_spatial o)) (scan_ids c)).
Proof.
  intros W. pose proof (values_filter_length c (fun _ => true) W) as H.
  rewrite (filter_all (fun _ => true) (search_values c)) in H by reflexivity.
  rewrite H. f_equal. apply filter_ext. intros o. apply andb_true_r.
Qed.

Lemma counters_are_lengths c : Wf c ->
  cstring_count c = Z.of_nat (length (search_values c)) /\ ccount c = Z.of_nat (length (scan_ids c)).
Proof.
  intros W. destruct (counters_agree c W) as (Hc & Hsc & _). split; [|exact Hc].
  rewrite Hsc, zsum_b2z_filter, (values_length c W). reflexivity.
Qed.

Lemma shortcut_is_iter {A} cursor limit (l : list A) :
  shortcut_count (Z.of_nat (length l)) cursor limit = iter_count l cursor limit.
Proof. unfold shortcut_count, iter_count. rewrite <- nat_N_Z, N2Z.id. reflexivity. Qed.

Lemma iter_count_spec {A} (l : list A) cursor limit :
  iter_count l cursor limit = N.min limit (N.of_nat (length l) - cursor).
Proof.
  unfold iter_count. set (n := N.of_nat (length l)).
  destruct (cursor <? n)%N eqn:E1.
  - destruct (limit <? n - cursor)%N eqn:E2; lia.
  - destruct (limit <? 0)%N eqn:E2; lia.
Qed.

Lemma count_shortcut_wf c cursor limit : Wf c ->
  search_count_shortcut c cursor limit = iter_count (search_values c) cursor limit /\
  scan_count_shortcut c cursor limit = iter_count (scan_ids c) cursor limit.
Proof.
  intros W. destruct (counters_are_lengths c W) as [Hs Hc].
  unfold search_count_shortcut, scan_count_shortcut. rewrite Hs, Hc.
  split; apply shortcut_is_iter.
Qed.

Theorem count_shortcut_step c o id cursor limit : Wf c ->
  search_count_shortcut (cset c o) cursor limit = iter_count (search_values (cset c o)) cursor limit /\
  search_count_shortcut (cdelete c id) cursor limit = iter_count (search_values (cdelete c id)) cursor limit.
Proof.
  intros W. split; apply count_shortcut_wf; [apply cset_wf | apply cdelete_wf]; exact W.
Qed.
