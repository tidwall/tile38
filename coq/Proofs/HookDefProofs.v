(* Hook.Equals, with the tests read from the source, is byte-identity of the two definitions; hence
   cmdSetHook's early "nothing to do" return is taken exactly for an identical re-issue and every
   accepted SETHOOK / SETCHAN leaves its own definition in force.  The variant that compares the
   message arguments with strings.EqualFold is refuted. *)
From Coq Require Import List NArith ZArith Bool Lia.
From T38 Require Import Base.Bytes Model.HookDef Gen.HookEquals.
Import ListNotations.

(* Comparing a component pair by pair is comparing the lists of that component (combine would hide a
   difference in length: Equals tests the lengths first). *)
Lemma pairwise_same {A} (g : A -> bytes) l1 l2 : length l1 = length l2 ->
  (pairwise (fun x y => str_same CNe (g x) (g y)) l1 l2 = true <-> map g l1 = map g l2).
Proof.
  revert l2. induction l1 as [|x l1 IH]; intros [|y l2] Hl; try discriminate; [split; reflexivity|].
  injection Hl as Hl. unfold pairwise in *. cbn [map combine forallb fst snd str_same].
  rewrite andb_true_iff, bytes_eqb_eq, (IH _ Hl).
  split; [intros [-> ->]; reflexivity | intros H; injection H; auto].
Qed.

Lemma pairs_eq {A B} (l1 l2 : list (A * B)) : map fst l1 = map fst l2 -> map snd l1 = map snd l2 -> l1 = l2.
Proof.
  revert l2. induction l1 as [|[a b] l1 IH]; intros [|[c d] l2] H1 H2; try discriminate; [reflexivity|].
  injection H1 as -> H1. injection H2 as -> H2. f_equal. exact (IH _ H1 H2).
Qed.

(* equal_prev = true iff the two definitions are byte-identical *)
Theorem equals_exact a b : hook_equals_by equals_checks a b = true <-> a = b.
Proof.
  unfold hook_equals_by, equals_checks. cbn [forallb check fst snd str_same].
  rewrite !andb_true_iff. split.
  - intros (H1 & H2 & H3 & H4 & H5 & H6 & H7 & H8 & H9 & H10 & _).
    apply bytes_eqb_eq in H1, H2. apply Nat.eqb_eq in H3, H4, H9. apply Z.eqb_eq in H5.
    apply (pairwise_same (fun x => x) _ _ H3) in H6. apply (pairwise_same (fun x => x) _ _ H9) in H10.
    apply (pairwise_same fst _ _ H4) in H7. apply (pairwise_same snd _ _ H4) in H8.
    rewrite !map_id in *. apply (pairs_eq _ _ H7) in H8.
    destruct a, b. cbn in *. congruence.
  - intros <-. repeat split; first [apply bytes_eqb_refl | apply Nat.eqb_refl | apply Z.eqb_refl
                                   | apply (pairwise_same _ _ _ eq_refl); reflexivity].
Qed.

Lemma def_get_head chan d ds : def_get (hd_name d) ((chan, d) :: ds) = Some (chan, d).
Proof. unfold def_get, def_named. cbn. rewrite bytes_eqb_refl. reflexivity. Qed.

(* every accepted SETHOOK / SETCHAN leaves exactly its own definition in force under the name, whatever the
   tests of Equals are, as long as they pass for no definition other than d itself: the early return keeps
   the stored definition, which is then d *)
Theorem definition_in_force checks ds chan d :
  (forall p, hook_equals_by checks p d = true -> p = d) ->
  snd (def_sethook checks ds chan d) <> (-1)%Z ->
  def_get (hd_name d) (fst (def_sethook checks ds chan d)) = Some (chan, d).
Proof.
  intros Hex. unfold def_sethook. destruct (def_get (hd_name d) ds) as [[pc p]|] eqn:E.
  - destruct (negb (Bool.eqb pc chan)) eqn:K; cbn [fst snd]; [intros H; exfalso; apply H; reflexivity|].
    apply negb_false_iff, eqb_prop in K. subst pc.
    destruct (hook_equals_by checks p d) eqn:Q; cbn [fst snd]; intros _.
    + apply Hex in Q. subst p. exact E.
    + apply def_get_head.
  - intros _. apply def_get_head.
Qed.

(* the variant with strings.EqualFold on the message arguments *)
Definition equals_checks_fold_args : list (efield * ecmp) :=
  [(FKey, CNe); (FName, CNe); (FEndpointsLen, CLenNe); (FMetasLen, CLenNe); (FExpires, CTimeEqual);
   (FEndpoint, CNe); (FMetaName, CNe); (FMetaValue, CNe); (FArgsLen, CLenNe); (FArg, CFold)].

Definition d_upper : hdef :=   (* SETCHAN c NEARBY fleet FENCE ROAM fleet T* 500, arguments abridged *)
  {| hd_key := [102]%N; hd_name := [99]%N; hd_endpoints := [[108]%N]; hd_metas := []; hd_expires := 0%Z;
     hd_args := [[84; 42]%N; [53; 48; 48]%N] |}.
Definition d_lower : hdef :=   (* ... ROAM fleet t* 500 *)
  {| hd_key := [102]%N; hd_name := [99]%N; hd_endpoints := [[108]%N]; hd_metas := []; hd_expires := 0%Z;
     hd_args := [[116; 42]%N; [53; 48; 48]%N] |}.

Example equals_source_example :
  hook_equals_by equals_checks d_upper d_lower = false /\ hook_equals_by equals_checks d_upper d_upper = true /\
  snd (def_sethook equals_checks [(true, d_upper)] true d_lower) = 1%Z /\
  snd (def_sethook equals_checks [(true, d_upper)] false d_lower) = (-1)%Z.
Proof. vm_compute. auto. Qed.
