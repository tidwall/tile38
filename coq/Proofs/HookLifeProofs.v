(* Proofs/HookLifeProofs.v — lemmas about the hook / channel life-cycle model (Model/HookLife.v).

   - the registry invariant [Inv]: names sorted and unique, every hook filed under its own name,
     hookExpires sorted by (deadline, name) and EXACT: an entry (d, n) is present iff the hook
     registered under n has deadline d;
   - what a command does: every mutation is made of [hk_drop] (remove the hook of a name with its
     index entry) and [hk_add] (file a hook under a free name); [exec_effect] says, for a command
     line, which of five effects it has at every clock and on every registry satisfying [Inv],
     deletions written as [hk_drop]s.  From these: the
     invariant is preserved, an un-logged command leaves the registry (index included) unchanged,
     and [er]-simulation: a command applied at two clocks to registries that agree up to deadline
     values yields registries that agree up to deadline values;
   - replay: the log of a program (commands at their own clock readings, sweeper passes in
     between), replayed from the same registry at ANY clock, reproduces the live registry up to
     deadline values; crash prefixes; what the frozen-clock instance of Model/Replay.v needs;
   - the sweeper: what a pass leaves under a name ([sweep_get]: never early, complete), one DELHOOK /
     DELCHAN record of the right kind per victim, in index order;  what SETHOOK / DELHOOK / PDELHOOK
     leave in the index;  listing sizes. *)
From Coq Require Import String.
From Coq Require Import List Bool ZArith NArith Lia Sorted.
From Coq Require Import ZifyN ZifyNat ZifyBool.
From T38 Require Import Base.Bytes Base.ListFacts Base.SMap Model.Spec Model.Glob Model.HookLife.
From T38 Require Model.Expire Proofs.ExpireProofs Model.Keyspace Proofs.GlobProofs Proofs.KsRefine.
From T38 Require Model.Resp Model.Aof Proofs.RespProofs Proofs.AofProofs Model.Replay Proofs.ReplayProofs.
Import ListNotations.
Local Open Scope list_scope.
Local Open Scope Z_scope.

Notation entry := Expire.entry.
Notation isorted := ExpireProofs.sorted.

Lemma list_eqb_eq {A} (eqb : A -> A -> bool) (Heq : forall x y, eqb x y = true -> x = y) :
  forall a b, list_eqb eqb a b = true -> a = b.
Proof.
  induction a as [|x a IH]; destruct b as [|y b]; cbn; try discriminate; [reflexivity|].
  intros H. apply andb_prop in H as [H1 H2]. rewrite (Heq _ _ H1), (IH _ H2). reflexivity.
Qed.

Lemma meta_eqb_eq a b : meta_eqb a b = true -> a = b.
Proof.
  unfold meta_eqb. intros H. apply andb_prop in H as [H1 H2].
  apply bytes_eqb_eq in H1, H2. destruct a, b; cbn in *; subst; reflexivity.
Qed.

Lemma ex_eqb_eq a b : ex_eqb a b = true -> a = b.
Proof. destruct a, b; cbn; try discriminate; [|reflexivity]. intros H. apply Z.eqb_eq in H. subst; reflexivity. Qed.

Lemma ex_eqb_refl a : ex_eqb a a = true.
Proof. destruct a; cbn; [apply Z.eqb_refl | reflexivity]. Qed.

Lemma hook_equals_fields p h : hook_equals p h = true ->
  h_key p = h_key h /\ h_name p = h_name h /\ h_ex p = h_ex h /\ h_eps p = h_eps h /\
  h_metas p = h_metas h /\ h_args p = h_args h.
Proof.
  unfold hook_equals.
  destruct (bytes_eqb (h_key p) (h_key h)) eqn:E1; cbn [negb orb]; [|discriminate].
  destruct (bytes_eqb (h_name p) (h_name h)) eqn:E2; cbn [negb orb]; [|discriminate].
  destruct (Nat.eqb (length (h_eps p)) (length (h_eps h))); cbn [negb orb]; [|discriminate].
  destruct (Nat.eqb (length (h_metas p)) (length (h_metas h))); cbn [negb orb]; [|discriminate].
  destruct (ex_eqb (h_ex p) (h_ex h)) eqn:E3; cbn [negb]; [|discriminate].
  destruct (list_eqb bytes_eqb (h_eps p) (h_eps h)) eqn:E4; cbn [negb]; [|discriminate].
  destruct (list_eqb meta_eqb (h_metas p) (h_metas h)) eqn:E5; cbn [negb]; [|discriminate].
  intros E6.
  apply bytes_eqb_eq in E1, E2. apply ex_eqb_eq in E3.
  apply (list_eqb_eq bytes_eqb (fun x y H => proj1 (bytes_eqb_eq x y) H)) in E4, E6.
  apply (list_eqb_eq meta_eqb meta_eqb_eq) in E5. repeat split; assumption.
Qed.

Lemma hook_equals_eq p h : hook_equals p h = true -> h_chan p = h_chan h -> p = h.
Proof.
  intros H Hc. destruct (hook_equals_fields p h H) as (A & B & C & D & E & F).
  destruct p, h. cbn in *. congruence.
Qed.

Lemma in_idx_set h l e : In e (idx_set h l) <-> In e l \/ (h_ex h = Some (fst e) /\ snd e = h_name h).
Proof.
  unfold idx_set. destruct (h_ex h) as [d|].
  - rewrite ExpireProofs.In_insert. split.
    + intros [->|H]; [right; cbn; split; reflexivity | left; exact H].
    + intros [H|[H1 H2]]; [right; exact H | left]. inversion H1; subst. destruct e; cbn in *; subst; reflexivity.
  - split; [intros H; left; exact H | intros [H|[H _]]; [exact H | discriminate]].
Qed.

Lemma in_idx_drop p l e : isorted l ->
  (In e (idx_drop p l) <-> In e l /\ ~ (h_ex p = Some (fst e) /\ snd e = h_name p)).
Proof.
  intros Hs. unfold idx_drop. destruct (h_ex p) as [d|].
  - rewrite (ExpireProofs.In_remove _ _ _ Hs). split; intros [H N]; (split; [exact H|]).
    + intros [[= ->] Hn]. apply N. destruct e; cbn in *; subst; reflexivity.
    + intros ->. apply N. auto.
  - split; [intros H; split; [exact H | intros [H' _]; discriminate] | tauto].
Qed.

Lemma idx_drop_sorted p l : isorted l -> isorted (idx_drop p l).
Proof. intros Hs. unfold idx_drop. destruct (h_ex p); [apply ExpireProofs.remove_sorted|]; exact Hs. Qed.

Lemma idx_set_sorted h l : isorted l -> isorted (idx_set h l).
Proof. intros Hs. unfold idx_set. destruct (h_ex h); [apply ExpireProofs.insert_sorted|]; exact Hs. Qed.

Definition named (m : smap hook) : Prop := Forall (fun kv => h_name (snd kv) = fst kv) m.

Definition idx_exact (s : state) : Prop :=
  forall e, In e (hexp s) <-> exists h, get (snd e) (hooks s) = Some h /\ h_ex h = Some (fst e).

Record Inv (s : state) : Prop := mkInv {
  inv_sorted : msorted (hooks s);
  inv_named : named (hooks s);
  inv_isorted : isorted (hexp s);
  inv_exact : idx_exact s;
  inv_nonempty : Forall (fun kv : bytes * hook => fst kv <> []) (hooks s)   (* cmdSetHook refuses the empty name *)
}.

Lemma inv_empty : Inv empty.
Proof.
  split; cbn; [apply msorted_nil | constructor | constructor | | constructor].
  intros e; cbn. split; [intros [] | intros [h [H _]]; discriminate].
Qed.

Lemma named_get m n h : named m -> get n m = Some h -> h_name h = n.
Proof. intros Hn Hg. exact (Forall_get (fun kv => h_name (snd kv) = fst kv) n m h Hn Hg). Qed.

(* s.hooks.Delete(h); if !h.expires.IsZero() { s.hookExpires.Delete(h) } for the hook h filed under n *)
Definition hk_drop (n : bytes) (s : state) : state :=
  match get n (hooks s) with
  | Some p => mkState (del n (hooks s)) (idx_drop p (hexp s))
  | None => s
  end.

(* s.hooks.Set(h); if !h.expires.IsZero() { s.hookExpires.Set(h) } *)
Definition hk_add (h : hook) (s : state) : state :=
  mkState (set (h_name h) h (hooks s)) (idx_set h (hexp s)).

Lemma hooks_drop n s : hooks (hk_drop n s) = del n (hooks s).
Proof.
  unfold hk_drop. destruct (get n (hooks s)) eqn:E; [reflexivity | symmetry; apply del_absent; exact E].
Qed.

Lemma inv_drop n s : Inv s -> Inv (hk_drop n s).
Proof.
  intros Hi. unfold hk_drop. destruct (get n (hooks s)) as [p|] eqn:Ep; [|exact Hi]. split; cbn [hooks hexp].
  - apply msorted_del, Hi.
  - apply Forall_del, Hi.
  - apply idx_drop_sorted, Hi.
  - intros e. cbn [hooks hexp]. rewrite in_idx_drop, (inv_exact _ Hi e), get_del, (named_get _ _ _ (inv_named _ Hi) Ep) by apply Hi.
    destruct (bytes_eqb_spec (snd e) n) as [->|En].
    + rewrite Ep. split; [intros [[h [[= <-] Hx]] []]; auto | intros [h [H _]]; discriminate].
    + split; [intros [H _]; exact H | intros H; split; [exact H | intros [_ H']; contradiction]].
  - apply Forall_del, Hi.
Qed.

Lemma inv_add h s : Inv s -> get (h_name h) (hooks s) = None -> h_name h <> [] -> Inv (hk_add h s).
Proof.
  intros Hi Hfree Hne. split; cbn [hk_add hooks hexp].
  - apply msorted_set, Hi.
  - apply Forall_set; [apply Hi | reflexivity].
  - apply idx_set_sorted, Hi.
  - intros e. cbn [hk_add hooks hexp]. rewrite in_idx_set, (inv_exact _ Hi e), get_set.
    destruct (bytes_eqb_spec (snd e) (h_name h)) as [->|En].
    + rewrite Hfree. split.
      * intros [[p [Hg _]]|[Hx _]]; [discriminate | exists h; auto].
      * intros [p [[= <-] Hx]]. auto.
    + split; [intros [H|[_ H]]; [exact H | contradiction] | intros H; left; exact H].
  - apply Forall_set; [apply Hi | exact Hne].
Qed.

Lemma get_drop n s k : msorted (hooks s) ->
  get k (hooks (hk_drop n s)) = if bytes_eqb n k then None else get k (hooks s).
Proof.
  intros Hs. rewrite hooks_drop, get_del, (eqb_sym k n) by exact Hs. reflexivity.
Qed.

Lemma get_drop_same n s : Inv s -> get n (hooks (hk_drop n s)) = None.
Proof. intros Hi. rewrite get_drop, bytes_eqb_refl by apply Hi. reflexivity. Qed.

Lemma fold_drop_get {A} (f : A -> bytes) xs n h : forall s, msorted (hooks s) ->
  (get n (hooks (fold_left (fun s x => hk_drop (f x) s) xs s)) = Some h <->
   get n (hooks s) = Some h /\ ~ In n (map f xs)).
Proof.
  induction xs as [|x xs IH]; intros s Hs; cbn [fold_left map In]; [tauto|].
  rewrite IH, get_drop by (rewrite ?hooks_drop; auto using msorted_del).
  destruct (bytes_eqb_spec (f x) n) as [E|E]; [|tauto].
  split; [intros [H _]; discriminate | tauto].
Qed.

Definition hit (m : smap hook) (n : bytes) (c : bool) : bool :=
  match get n m with Some p => Bool.eqb (h_chan p) c | None => false end.

Lemma delhook_op_eq s n c : delhook_op s n c = if hit (hooks s) n c then (hk_drop n s, true) else (s, false).
Proof.
  unfold delhook_op, hit, hk_drop. destruct (get n (hooks s)) as [h|]; [|reflexivity].
  destruct (Bool.eqb (h_chan h) c); reflexivity.
Qed.

Definition clash (m : smap hook) (h : hook) : bool :=
  match get (h_name h) m with Some p => negb (Bool.eqb (h_chan p) (h_chan h)) | None => false end.

(* cmdSetHook from the registry look-up on: refused (the name belongs to the other kind), nothing to do
   (the hook is there already, and so is the entry that hookExpires.Set would write), or the hook of
   that name is replaced *)
Lemma reg_sethook_cases s h : Inv s ->
  (exists r, reg_sethook s h = (s, r, false) /\ clash (hooks s) h = true) \/
  (exists r, reg_sethook s h = (s, r, false) /\ clash (hooks s) h = false /\ get (h_name h) (hooks s) = Some h) \/
  (reg_sethook s h = (hk_add h (hk_drop (h_name h) s), RInt 1, true) /\ clash (hooks s) h = false).
Proof.
  intros Hi. unfold reg_sethook, clash, hk_drop. destruct (get (h_name h) (hooks s)) as [p|] eqn:Eg.
  - destruct (Bool.eqb (h_chan p) (h_chan h)) eqn:Ek; cbn [negb]; [|left; eexists; split; reflexivity].
    right. destruct (hook_equals p h) eqn:Q; [left | right; split; reflexivity].
    pose proof (hook_equals_eq p h Q (eqb_prop _ _ Ek)) as ->. eexists. split; [|split; reflexivity].
    destruct s as [hk ix]. unfold idx_set. cbn [hooks hexp] in *. destruct (h_ex h) as [d|] eqn:Ed; [|reflexivity].
    rewrite ExpireProofs.insert_present; [reflexivity | | exact (inv_isorted _ Hi)].
    apply (inv_exact _ Hi (d, h_name h)). exists h. auto.
  - right. right. split; reflexivity.
Qed.

Lemma inv_reg_sethook s h : h_name h <> [] -> Inv s -> Inv (fst (fst (reg_sethook s h))).
Proof.
  intros Hnn Hi. destruct (reg_sethook_cases s h Hi) as [[r [-> _]]|[[r [-> _]]|[-> _]]]; [exact Hi | exact Hi |].
  apply inv_add; [apply inv_drop, Hi | apply get_drop_same, Hi | exact Hnn].
Qed.

(* on the registry SETHOOK is [set] unless it is refused: "nothing to do" is when the hook is there already *)
Lemma hooks_reg_sethook s h : Inv s ->
  hooks (fst (fst (reg_sethook s h))) = if clash (hooks s) h then hooks s else set (h_name h) h (hooks s).
Proof.
  intros Hi. destruct (reg_sethook_cases s h Hi) as [[r [-> ->]]|[[r [-> [-> Hg]]]|[-> ->]]]; cbn [fst hk_add hooks].
  - reflexivity.
  - symmetry. apply set_same; [apply Hi | exact Hg].
  - rewrite hooks_drop. apply set_del_same, Hi.
Qed.

(* case analysis along every path of a function: destruct the scrutinee of an innermost [match],
   as long as there is one *)
Ltac destruct_innermost :=
  repeat match goal with
         | |- context [match ?x with _ => _ end] =>
             lazymatch x with
             | context [match _ with _ => _ end] => fail
             | _ => destruct x
             end
         end.

Lemma parse_sethook_name O now args c h : parse_sethook O now args c = inl h ->
  h_name h <> [] /\ h_chan h = c /\ tl args <> [] /\ h_name h = hd [] (tl args).
Proof.
  unfold parse_sethook. destruct (tl args) as [|name vs1]; [discriminate|].
  destruct (isnil name) eqn:En; [discriminate|].
  assert (Hne : name <> []) by (destruct name; discriminate).
  destruct_innermost; try discriminate; intros [= <-]; cbn; repeat split; try assumption; discriminate.
Qed.

(* the clock enters cmdSetHook only through the deadline of the hook it builds *)
Lemma parse_sethook_clock O t t' args c :
  match parse_sethook O t args c, parse_sethook O t' args c with
  | inl h, inl h' => erase_hook h = erase_hook h'
  | inr e, inr e' => e = e'
  | _, _ => False
  end.
Proof. unfold parse_sethook. destruct_innermost; reflexivity. Qed.

Lemma drop_below_incl {V} lo (m : smap V) : incl (Keyspace.drop_below lo m) m.
Proof.
  induction m as [|[k v] m IH]; cbn; [apply incl_refl|].
  destruct (bytes_ltb k lo); [apply incl_tl, IH | apply incl_refl].
Qed.

Lemma take_upto_incl {V} hi i (m : smap V) : incl (Keyspace.take_upto hi i m) m.
Proof.
  induction m as [|[k v] m IH]; cbn; [apply incl_refl|].
  destruct (if i then bytes_gtb k hi else bytes_geb k hi); [apply incl_nil_l|].
  apply incl_cons; [left; reflexivity | apply incl_tl, IH].
Qed.

Lemma by_pattern_reg pat c s h : Inv s -> In h (by_pattern pat c (hooks s)) ->
  h_chan h = c /\ get (h_name h) (hooks s) = Some h.
Proof.
  intros Hi. unfold by_pattern, vals. rewrite filter_In, in_map_iff. intros [[[k v] [Hv Hin]] Hb].
  cbn [snd] in Hv. subst v. apply andb_prop in Hb as [Hc _]. split; [apply eqb_prop; exact Hc|].
  assert (Hm : In (k, h) (hooks s)).
  { unfold hook_range in Hin. destruct (isnil (g_lim1 (parse pat false))); [|apply take_upto_incl in Hin];
      apply drop_below_incl in Hin; exact Hin. }
  replace (h_name h) with k by (symmetry; exact (proj1 (Forall_forall _ _) (inv_named _ Hi) (k, h) Hm)).
  apply In_get; [apply Hi | exact Hm].
Qed.

Lemma fold_delop_drop c (hs : list hook) : forall s, msorted (hooks s) ->
  (forall h, In h hs -> forall p, get (h_name h) (hooks s) = Some p -> h_chan p = c) ->
  fold_left (fun s h => fst (delhook_op s (h_name h) c)) hs s = fold_left (fun s h => hk_drop (h_name h) s) hs s.
Proof.
  induction hs as [|h hs IH]; intros s Hs Hk; [reflexivity|]. cbn [fold_left].
  replace (fst (delhook_op s (h_name h) c)) with (hk_drop (h_name h) s).
  - apply IH; [rewrite hooks_drop; apply msorted_del, Hs|]. intros h' Hh' p. rewrite get_drop by exact Hs.
    destruct (bytes_eqb (h_name h) (h_name h')); [discriminate | apply Hk; right; exact Hh'].
  - rewrite delhook_op_eq. unfold hit, hk_drop. destruct (get (h_name h) (hooks s)) as [p|] eqn:Eg; [|reflexivity].
    rewrite (Hk h (or_introl eq_refl) p Eg), eqb_reflx. reflexivity.
Qed.

(* PDELHOOK / PDELCHAN deletes every listed hook: the kind test in its loop never skips one *)
Lemma pdel_fold s pat c : Inv s ->
  let hs := by_pattern pat c (hooks s) in
  filter (fun h => Bool.eqb (h_chan h) c) hs = hs /\
  fold_left (fun s h => fst (delhook_op s (h_name h) c)) hs s = fold_left (fun s h => hk_drop (h_name h) s) hs s.
Proof.
  intros Hi hs. split.
  - apply filter_all. intros h Hh. rewrite (proj1 (by_pattern_reg pat c s h Hi Hh)). apply eqb_reflx.
  - apply fold_delop_drop; [apply Hi|]. intros h Hh p Hg.
    destruct (by_pattern_reg pat c s h Hi Hh) as [Hc Hr]. congruence.
Qed.

Inductive effect :=
| EKeep                                (* an error or a listing *)
| ESet (c : bool)                      (* SETHOOK / SETCHAN *)
| EDel (n : bytes) (c : bool)          (* DELHOOK / DELCHAN name *)
| EPDel (pat : bytes) (c : bool)       (* PDELHOOK / PDELCHAN pattern *)
| EFlush.

Definition sb (x : state * reply * bool) : state * bool := (fst (fst x), snd x).

Definition apply_eff (O : oracle) (now : Z) (args : list bytes) (e : effect) (s : state) : state * bool :=
  match e with
  | EKeep => (s, false)
  | ESet c => match parse_sethook O now args c with inl h => sb (reg_sethook s h) | inr _ => (s, false) end
  | EDel n c => if hit (hooks s) n c then (hk_drop n s, true) else (s, false)
  | EPDel pat c =>
      let hs := by_pattern pat c (hooks s) in (fold_left (fun s h => hk_drop (h_name h) s) hs s, negb (isempty hs))
  | EFlush => (empty, true)
  end.

(* [f], a command function with its command line put in, has one effect whatever the clock and the
   registry; [Inv] is what makes every deletion of PDELHOOK / PDELCHAN hit *)
Definition has_effect (f : oracle -> Z -> state -> state * reply * bool) (args : list bytes) : Prop :=
  exists e, forall O now s, Inv s -> sb (f O now s) = apply_eff O now args e s.

Lemma keep_effect args (r : oracle -> Z -> state -> reply) : has_effect (fun O now s => (s, r O now s, false)) args.
Proof. exists EKeep. reflexivity. Qed.

Lemma sethook_effect args c : has_effect (fun O now s => cmd_sethook O now s args c) args.
Proof.
  exists (ESet c). intros O now s _. unfold cmd_sethook. cbn [apply_eff].
  destruct (parse_sethook O now args c); reflexivity.
Qed.

Lemma delhook_effect args c : has_effect (fun _ _ s => cmd_delhook s args c) args.
Proof.
  unfold cmd_delhook. destruct (tl args) as [|n [|x r]]; try apply keep_effect.
  destruct (isnil n); [apply keep_effect|]. exists (EDel n c). intros O now s _. cbn [apply_eff].
  rewrite <- delhook_op_eq. destruct (delhook_op s n c); reflexivity.
Qed.

Lemma pdelhook_effect args c : has_effect (fun _ _ s => cmd_pdelhook s args c) args.
Proof.
  unfold cmd_pdelhook. destruct (tl args) as [|pat [|x r]]; try apply keep_effect.
  destruct (isnil pat); [apply keep_effect|]. exists (EPDel pat c). intros O now s Hi.
  destruct (pdel_fold s pat c Hi) as [F D]. unfold sb. cbn [apply_eff fst snd]. rewrite F, D. reflexivity.
Qed.

Lemma cmd_hooks_pure now s args c : sb (cmd_hooks now s args c) = (s, false).
Proof.
  unfold cmd_hooks. destruct (tl args) as [|pat [|x r]]; try reflexivity. destruct (isnil pat); reflexivity.
Qed.

Lemma hooks_effect args c : has_effect (fun _ now s => cmd_hooks now s args c) args.
Proof. exists EKeep. intros O now s _. apply cmd_hooks_pure. Qed.

Lemma flushdb_effect args : has_effect (fun _ _ s => cmd_flushdb s args) args.
Proof.
  unfold cmd_flushdb. destruct args as [|a [|b r]]; try apply keep_effect. exists EFlush. reflexivity.
Qed.

Theorem exec_effect args : has_effect (fun O now s => exec O now s args) args.
Proof.
  unfold exec. destruct args as [|a0 rest]; [apply keep_effect|].
  repeat match goal with |- context [if ?b then _ else _] => destruct b end;
    auto using sethook_effect, delhook_effect, pdelhook_effect, hooks_effect, flushdb_effect.
  apply keep_effect.
Qed.

Theorem inv_exec O now s args : Inv s -> Inv (fst (fst (exec O now s args))).
Proof.
  intros Hi. destruct (exec_effect args) as [e He].
  change (Inv (fst (sb (exec O now s args)))). rewrite (He O now s Hi).
  destruct e as [|c|n c|pat c|]; cbn [apply_eff fst].
  - exact Hi.
  - destruct (parse_sethook O now args c) as [h|] eqn:Ep; [|exact Hi].
    apply inv_reg_sethook; [apply (parse_sethook_name _ _ _ _ _ Ep) | exact Hi].
  - destruct (hit (hooks s) n c); [apply inv_drop|]; exact Hi.
  - apply fold_left_inv; [intros s1 h _; apply inv_drop | exact Hi].
  - exact inv_empty.
Qed.

Theorem noupd_exec O now s args : Inv s -> snd (exec O now s args) = false -> fst (fst (exec O now s args)) = s.
Proof.
  intros Hi. destruct (exec_effect args) as [e He].
  change (snd (sb (exec O now s args)) = false -> fst (sb (exec O now s args)) = s). rewrite (He O now s Hi).
  destruct e as [|c|n c|pat c|]; cbn [apply_eff].
  - reflexivity.
  - destruct (parse_sethook O now args c) as [h|]; [|reflexivity].
    destruct (reg_sethook_cases s h Hi) as [[r [-> _]]|[[r [-> _]]|[-> _]]]; [reflexivity | reflexivity | discriminate].
  - destruct (hit (hooks s) n c); [discriminate | reflexivity].
  - destruct (by_pattern pat c (hooks s)); [reflexivity | discriminate].
  - discriminate.
Qed.

Lemma get_er n s : get n (er s) = option_map erase_hook (get n (hooks s)).
Proof. unfold er. apply get_map. Qed.

Theorem er_meaning s s' : er s = er s' ->
  keys (hooks s) = keys (hooks s') /\
  forall n,
    match get n (hooks s), get n (hooks s') with
    | Some h, Some h' =>
        h_name h = h_name h' /\ h_chan h = h_chan h' /\ h_key h = h_key h' /\ h_eps h = h_eps h' /\
        h_args h = h_args h' /\ h_metas h = h_metas h' /\ (h_ex h = None <-> h_ex h' = None)
    | None, None => True
    | _, _ => False
    end.
Proof.
  intros E. split.
  - pose proof (f_equal keys E) as K. unfold er in K. rewrite !keys_map in K. exact K.
  - intros n. pose proof (get_er n s) as R. rewrite E, get_er in R.
    destruct (get n (hooks s)) as [h|], (get n (hooks s')) as [h'|]; try discriminate R; [|exact I].
    unfold erase_hook in R. injection R as H1 H2 H3 H4 H5 H6 H7. repeat split; try congruence;
      destruct (h_ex h), (h_ex h'); congruence.
Qed.

Lemma erase_name h : h_name (erase_hook h) = h_name h. Proof. reflexivity. Qed.
Lemma erase_chan h : h_chan (erase_hook h) = h_chan h. Proof. reflexivity. Qed.

(* [er] of the registry after a mutation is a function of [er] of the registry before, and of the hook
   up to its deadline value: this is why the clock of a replay does not matter *)
Lemma er_drop n s : er (hk_drop n s) = del n (er s).
Proof. unfold er. rewrite hooks_drop. apply del_map. Qed.

Lemma hit_er s n c : hit (er s) n c = hit (hooks s) n c.
Proof. unfold hit. rewrite get_er. destruct (get n (hooks s)); reflexivity. Qed.

Lemma clash_er s h : clash (er s) (erase_hook h) = clash (hooks s) h.
Proof. unfold clash. cbn [erase_hook h_name h_chan]. rewrite get_er. destruct (get (h_name h) (hooks s)); reflexivity. Qed.

Lemma er_fold_drop (hs : list hook) : forall s,
  er (fold_left (fun s h => hk_drop (h_name h) s) hs s) = fold_left (fun m n => del n m) (map h_name hs) (er s).
Proof. induction hs as [|h hs IH]; intros s; [reflexivity|]. cbn [fold_left map]. rewrite IH, er_drop. reflexivity. Qed.

(* live: nothing to do, replay: replaced by a hook that differs in its deadline value (or the other
   way round) -- both outcomes are the same function of [er s] *)
Lemma er_reg_sethook s h : Inv s ->
  er (fst (fst (reg_sethook s h))) =
  if clash (er s) (erase_hook h) then er s else set (h_name h) (erase_hook h) (er s).
Proof.
  intros Hi. unfold er at 1. rewrite hooks_reg_sethook, clash_er by exact Hi.
  destruct (clash (hooks s) h); [reflexivity | apply set_map].
Qed.

Lemma vals_map {A B} (f : A -> B) (m : smap A) : vals (smap_map f m) = map f (vals m).
Proof. unfold vals, smap_map. rewrite !map_map. reflexivity. Qed.

Lemma by_pattern_er pat c (m : smap hook) :
  by_pattern pat c (smap_map erase_hook m) = map erase_hook (by_pattern pat c m).
Proof.
  unfold by_pattern, hook_range.
  rewrite KsRefine.map_drop_below. destruct (isnil (g_lim1 (parse pat false))); [|rewrite KsRefine.map_take_upto];
    rewrite vals_map, filter_map_comm; reflexivity.
Qed.

Lemma pdel_names pat c s : map h_name (by_pattern pat c (hooks s)) = map h_name (by_pattern pat c (er s)).
Proof. unfold er. rewrite by_pattern_er, map_map. reflexivity. Qed.

Theorem er_exec O t t' s s' args : Inv s -> Inv s' -> er s = er s' ->
  er (fst (fst (exec O t s args))) = er (fst (fst (exec O t' s' args))).
Proof.
  intros Hi Hi' E. destruct (exec_effect args) as [e He].
  change (er (fst (sb (exec O t s args))) = er (fst (sb (exec O t' s' args)))). rewrite !He by assumption.
  destruct e as [|c|n c|pat c|]; cbn [apply_eff fst].
  - exact E.
  - pose proof (parse_sethook_clock O t t' args c) as P.
    destruct (parse_sethook O t args c) as [h|], (parse_sethook O t' args c) as [h'|]; try contradiction; [|exact E].
    cbn [sb fst]. rewrite !er_reg_sethook, E, <- (erase_name h), P by assumption. reflexivity.
  - rewrite <- !hit_er, E. destruct (hit (er s') n c); cbn [fst]; rewrite ?er_drop, E; reflexivity.
  - rewrite !er_fold_drop, !pdel_names, E. reflexivity.
  - reflexivity.
Qed.

Definition tcmd := (Z * list bytes)%type.
Definition cstep (O : oracle) (s : state) (c : tcmd) : state := fst (fst (exec O (fst c) s (snd c))).
Definition crun (O : oracle) (p : list tcmd) (s0 : state) : state := fold_left (cstep O) p s0.
Fixpoint clog (O : oracle) (p : list tcmd) (s : state) : list (list bytes) :=
  match p with
  | [] => []
  | c :: p' => logrec (snd c) (snd (exec O (fst c) s (snd c))) ++ clog O p' (cstep O s c)
  end.

Lemma inv_replay_at O clk l : forall i s, Inv s -> Inv (replay_at O clk i l s).
Proof. induction l as [|c l IH]; intros i s Hi; cbn; [exact Hi|]. apply IH. apply inv_exec. exact Hi. Qed.

Lemma crun_app O p1 p2 s : crun O (p1 ++ p2) s = crun O p2 (crun O p1 s).
Proof. unfold crun. apply fold_left_app. Qed.

Lemma clog_app O p1 : forall p2 s, clog O (p1 ++ p2) s = clog O p1 s ++ clog O p2 (crun O p1 s).
Proof.
  induction p1 as [|c p1 IH]; intros p2 s; cbn; [reflexivity|]. rewrite IH, app_assoc. reflexivity.
Qed.

Lemma replay_at_app O clk l1 : forall l2 i s,
  replay_at O clk i (l1 ++ l2) s = replay_at O clk (i + length l1) l2 (replay_at O clk i l1 s).
Proof.
  induction l1 as [|c l1 IH]; intros l2 i s; cbn.
  - rewrite Nat.add_0_r. reflexivity.
  - rewrite IH. f_equal. lia.
Qed.

Lemma replay_clog O clk p : forall s s' i, Inv s -> Inv s' -> er s = er s' ->
  er (replay_at O clk i (clog O p s) s') = er (crun O p s).
Proof.
  induction p as [|c p IH]; intros s s' i Hi Hi' E; [cbn; symmetry; exact E|].
  change (crun O (c :: p) s) with (crun O p (cstep O s c)). cbn [clog]. unfold cstep.
  destruct (snd (exec O (fst c) s (snd c))) eqn:U; cbn [logrec app replay_at].
  - apply IH; [apply inv_exec, Hi | apply inv_exec, Hi' | apply er_exec; assumption].
  - rewrite (noupd_exec O (fst c) s (snd c) Hi U). apply IH; assumption.
Qed.

(* a sweeper pass is the sequence of DELHOOK / DELCHAN commands it builds, run at its clock *)
Lemma sweep_step_exec O now s0 e s acc : let m := victim_msg s0 e in
  sweep_step (s, acc) m = (cstep O s (now, m), acc ++ logrec m (snd (exec O now s m))).
Proof.
  intros m. unfold sweep_step, cstep. cbn [fst snd].
  (* the command switch on the words "delhook" / "delchan" *)
  assert (E : exec O now s m = cmd_delhook s m (bytes_eqb (hd [] m) c_delchan))
    by (unfold m, victim_msg; destruct (get (snd e) (hooks s0)) as [h|]; [destruct (h_chan h)|]; reflexivity).
  rewrite E. destruct (cmd_delhook s m _) as [[s' r] u]. reflexivity.
Qed.

Lemma sweep_fold_cmds O now s0 vs : forall s acc, let ms := map (victim_msg s0) vs in
  fold_left sweep_step ms (s, acc) = (crun O (map (pair now) ms) s, acc ++ clog O (map (pair now) ms) s).
Proof.
  induction vs as [|e vs IH]; intros s acc; cbn [fold_left map crun clog].
  - rewrite app_nil_r. reflexivity.
  - rewrite (sweep_step_exec O now s0 e s acc), IH. cbn [fst snd]. rewrite app_assoc. reflexivity.
Qed.

Lemma sweep_as_cmds O now s :
  sweep now s = (crun O (map (pair now) (sweep_msgs now s)) s, clog O (map (pair now) (sweep_msgs now s)) s).
Proof. apply (sweep_fold_cmds O now s). Qed.

(* one step of a program is a list of timed commands: the command itself, or the messages of the pass at its clock *)
Lemma pstep_as_cmds O s st p : exists cs,
  flat O (st :: p) s = cs ++ flat O p (fst (pstep_run O s st)) /\ pstep_run O s st = (crun O cs s, clog O cs s).
Proof.
  destruct st as [t a|t]; cbn [flat pstep_run].
  - exists [(t, a)]. cbn. unfold cstep. cbn [fst snd]. destruct (exec O t s a) as [[s1 r] u].
    rewrite app_nil_r. split; reflexivity.
  - exists (map (pair t) (sweep_msgs t s)). split; [reflexivity | apply sweep_as_cmds].
Qed.

Lemma prun_flat O p : forall s, prun O p s = crun O (flat O p s) s.
Proof.
  induction p as [|st p IH]; intros s; [reflexivity|]. destruct (pstep_as_cmds O s st p) as [cs [-> E]].
  change (prun O (st :: p) s) with (prun O p (fst (pstep_run O s st))). rewrite crun_app, IH, E. reflexivity.
Qed.

Lemma plog_flat O p : forall s, plog O p s = clog O (flat O p s) s.
Proof.
  induction p as [|st p IH]; intros s; [reflexivity|]. destruct (pstep_as_cmds O s st p) as [cs [-> E]].
  cbn [plog]. rewrite clog_app, E, IH. reflexivity.
Qed.

Lemma inv_prun O p s : Inv s -> Inv (prun O p s).
Proof. intros Hi. rewrite prun_flat. apply (fold_left_inv (cstep O) Inv); [intros s1 c _; apply inv_exec | exact Hi]. Qed.

Theorem reachable_inv O p : Inv (prun O p empty).
Proof. apply inv_prun. exact inv_empty. Qed.

Lemma firstn_clog O p : forall s n, exists p1 p2, p = p1 ++ p2 /\ firstn n (clog O p s) = clog O p1 s.
Proof.
  induction p as [|c p IH]; intros s n.
  - exists [], []. split; [reflexivity|]. destruct n; reflexivity.
  - destruct n as [|n]; [exists [], (c :: p); split; reflexivity|].
    cbn [clog]. destruct (snd (exec O (fst c) s (snd c))) eqn:Eu; cbn [logrec app firstn].
    + destruct (IH (cstep O s c) n) as [p1 [p2 [-> Hf]]]. exists (c :: p1), p2.
      split; [reflexivity|]. cbn [clog]. rewrite Eu, <- Hf. reflexivity.
    + destruct (IH (cstep O s c) (S n)) as [p1 [p2 [-> Hf]]]. exists (c :: p1), p2.
      split; [reflexivity|]. cbn [clog]. rewrite Eu. exact Hf.
Qed.

(* C03 for hooks and channels: a kill leaves a byte prefix q of the file; start-up at any clock
   recovers, up to deadline values, the registry after a PREFIX p1 of the program (sweeper passes
   written out as the commands they run), truncates to the end of p1's log, and p1 holds every
   record that was wholly written *)
Theorem hk_crash_prefix O clk p s0 q t :
  Inv s0 -> Forall AofProofs.cmd_ok (plog O p s0) -> q ++ t = Resp.encs (plog O p s0) ->
  exists p1 p2 s1, flat O p s0 = p1 ++ p2 /\
    recover_at O clk q s0 = Some (s1, Resp.len (Resp.encs (clog O p1 s0))) /\
    er s1 = er (crun O p1 s0) /\ Inv s1 /\
    Resp.len (Resp.encs (clog O p1 s0)) <= Resp.len q /\
    (forall m, (m <= length (plog O p s0))%nat ->
               Resp.len (Resp.encs (firstn m (plog O p s0))) <= Resp.len q ->
               (m <= length (clog O p1 s0))%nat).
Proof.
  intros Hi Hok Hq. destruct (AofProofs.cut_log _ q t Hok Hq) as [n [Hl [Hle Hall]]].
  destruct (firstn_clog O (flat O p s0) s0 n) as [p1 [p2 [Hp Hf]]].
  rewrite plog_flat, Hf in Hl, Hle.
  exists p1, p2, (replay_at O clk 0 (clog O p1 s0) s0). split; [exact Hp|].
  split; [unfold recover_at; rewrite Hl; reflexivity|].
  split; [apply replay_clog; [exact Hi | exact Hi | reflexivity]|].
  split; [apply inv_replay_at; exact Hi|]. split; [exact Hle|].
  intros m Hm Hk. rewrite <- Hf, <- plog_flat. exact (Hall m Hm Hk).
Qed.

Lemma hk_exec_sb O now s c : hk_exec O now s c = sb (exec O now s c).
Proof. unfold hk_exec. destruct (exec O now s c) as [[s' r] u]. reflexivity. Qed.

Theorem hkf_noupd O now s c : Inv s -> snd (hk_exec O now s c) = false -> fst (hk_exec O now s c) = s.
Proof. rewrite hk_exec_sb. apply noupd_exec. Qed.

Lemma hkf_inv O now s c : Inv s -> Inv (fst (hk_exec O now s c)).
Proof. intros Hi. rewrite hk_exec_sb. apply inv_exec, Hi. Qed.

Lemma victim_msg_eq s e h : get (snd e) (hooks s) = Some h ->
  victim_msg s e = [if h_chan h then c_delchan else c_delhook; snd e].
Proof. intros Hg. unfold victim_msg. rewrite Hg. destruct (h_chan h); reflexivity. Qed.

(* one message of the sweeper: the hook is there, of the kind the message names, so cmdDelHook
   deletes it, drops its index entry, and the message is logged *)
Lemma sweep_step_victim s acc n h m : get n (hooks s) = Some h -> n <> [] ->
  m = [if h_chan h then c_delchan else c_delhook; n] -> sweep_step (s, acc) m = (hk_drop n s, acc ++ [m]).
Proof.
  intros Hg Hne ->. assert (Hnil : isnil n = false) by (destruct n; [congruence | reflexivity]).
  unfold sweep_step, cmd_delhook.
  destruct (h_chan h) eqn:Ec; cbn [hd tl]; rewrite Hnil, delhook_op_eq; unfold hit; rewrite Hg, Ec; reflexivity.
Qed.

(* messages for distinct names, each naming a registered hook and its kind: deleting one leaves the
   hooks of the others in place, so every message deletes and is logged *)
Lemma sweep_fold (msg : entry -> list bytes) : forall vs s acc, msorted (hooks s) -> NoDup (map snd vs) ->
  (forall e, In e vs -> snd e <> [] /\
     exists h, get (snd e) (hooks s) = Some h /\ msg e = [if h_chan h then c_delchan else c_delhook; snd e]) ->
  fold_left sweep_step (map msg vs) (s, acc) = (fold_left (fun s e => hk_drop (snd e) s) vs s, acc ++ map msg vs).
Proof.
  induction vs as [|e vs IH]; intros s acc Hs Hnd Hp; cbn [map fold_left]; [rewrite app_nil_r; reflexivity|].
  apply NoDup_cons_iff in Hnd as [Hfresh Hnd]. destruct (Hp e (or_introl eq_refl)) as [Hne [h [Hg Hm]]].
  rewrite (sweep_step_victim s acc (snd e) h (msg e) Hg Hne Hm), IH;
    [rewrite <- app_assoc; reflexivity | rewrite hooks_drop; apply msorted_del, Hs | exact Hnd |].
  intros e' He'. rewrite get_drop by exact Hs. destruct (bytes_eqb_spec (snd e) (snd e')) as [En|_]; [|apply Hp; right; exact He'].
  destruct Hfresh. rewrite En. apply in_map, He'.
Qed.

(* two entries of one name belong to the same hook *)
Lemma victim_names_nodup now s : Inv s -> NoDup (map snd (Expire.victims now (hexp s))).
Proof.
  intros Hi. apply ExpireProofs.victim_ids_nodup; [apply Hi|]. intros a b Ha Hb Hid.
  apply (inv_exact _ Hi) in Ha as [ha [Ga Xa]]. apply (inv_exact _ Hi) in Hb as [hb [Gb Xb]].
  rewrite Hid, Gb in Ga. congruence.
Qed.

Lemma in_victims now s e : Inv s ->
  (In e (Expire.victims now (hexp s)) <->
   exists h, get (snd e) (hooks s) = Some h /\ h_ex h = Some (fst e) /\ fst e <= now).
Proof.
  intros Hi. rewrite (ExpireProofs.victims_spec now (hexp s) e (inv_isorted _ Hi)), (inv_exact _ Hi e).
  split; [intros [[h [Hg Hx]] Hle]; exists h; auto | intros [h [Hg [Hx Hle]]]; split; [exists h|]; auto].
Qed.

(* what a sweeper pass does: the victims are the leading index entries with deadline <= now; each
   is deleted with its index entry, and one message per victim is logged, in index order.
   ([sweep_as_cmds] holds without [Inv] and says less: not that each of the commands deletes.) *)
Theorem sweep_spec now s : Inv s ->
  sweep now s = (fold_left (fun s e => hk_drop (snd e) s) (Expire.victims now (hexp s)) s, sweep_msgs now s).
Proof.
  intros Hi. apply (sweep_fold (victim_msg s) _ s []); [apply Hi | apply victim_names_nodup, Hi|].
  intros e He. apply (in_victims now s e Hi) in He as [h [Hg _]].
  split; [exact (Forall_get (fun kv : bytes * hook => fst kv <> []) _ _ h (inv_nonempty _ Hi) Hg)|].
  exists h. split; [exact Hg | apply victim_msg_eq, Hg].
Qed.

(* what a sweep at `now` leaves under a name is what was there, unless its deadline has passed: never
   early, and complete despite the early stop of the scan *)
Theorem sweep_get now s n h : Inv s ->
  (get n (hooks (fst (sweep now s))) = Some h <->
   get n (hooks s) = Some h /\ (h_ex h = None \/ exists d, h_ex h = Some d /\ now < d)).
Proof.
  intros Hi. rewrite (sweep_spec now s Hi). cbn [fst]. rewrite fold_drop_get, in_map_iff by apply Hi.
  split; intros [Hg H]; (split; [exact Hg|]).
  - destruct (h_ex h) as [d|] eqn:Hx; [right | left; reflexivity]. exists d. split; [reflexivity|].
    apply Z.nle_gt. intros Hle. apply H. exists (d, n). split; [reflexivity|].
    apply (in_victims now s (d, n) Hi). exists h. auto.
  - intros [e [<- He]]. apply (in_victims now s e Hi) in He as [h' [Hg' [Hx Hle]]]. rewrite Hg in Hg'. injection Hg' as <-.
    destruct H as [H|[d [H Hlt]]]; rewrite Hx in H; [discriminate | injection H as <-; lia].
Qed.

(* every expiry is one logged DELHOOK / DELCHAN of the right kind, nothing else is logged *)
Theorem sweep_logged now s : Inv s ->
  NoDup (snd (sweep now s)) /\
  (forall m, In m (snd (sweep now s)) <->
     exists n h d, get n (hooks s) = Some h /\ h_ex h = Some d /\ d <= now /\
                   m = [if h_chan h then c_delchan else c_delhook; n]).
Proof.
  intros Hi. rewrite (sweep_spec now s Hi). cbn [snd]. unfold sweep_msgs. split.
  - (* the messages carry the names of the victims *)
    apply (NoDup_map_inv (fun m => nth 1 m [])). rewrite map_map.
    rewrite (map_ext _ (snd : entry -> bytes)) by (intros e; unfold victim_msg; destruct (get _ _) as [h|]; [destruct (h_chan h)|]; reflexivity).
    apply victim_names_nodup, Hi.
  - intros m. rewrite in_map_iff. split.
    + intros [e [<- He]]. apply (in_victims now s e Hi) in He as [h [Hg H]].
      exists (snd e), h, (fst e). rewrite (victim_msg_eq s e h Hg). tauto.
    + intros [n [h [d [Hg [Hx [Hle ->]]]]]]. exists (d, n). split; [apply (victim_msg_eq s (d, n) h Hg)|].
      apply (in_victims now s (d, n) Hi). exists h. auto.
Qed.

(* an accepted SETHOOK / SETCHAN leaves exactly the declared hook under its name, and the index holds
   for that name exactly the declared deadline: a re-declaration with another EX MOVES the entry, one
   without EX removes it *)
Theorem declare_spec s h : Inv s -> h_name h <> [] ->
  (forall p, get (h_name h) (hooks s) = Some p -> h_chan p = h_chan h) ->
  let s1 := fst (fst (reg_sethook s h)) in
  get (h_name h) (hooks s1) = Some h /\
  (forall e, snd e = h_name h -> (In e (hexp s1) <-> h_ex h = Some (fst e))).
Proof.
  intros Hi Hnn Hkind s1.
  assert (Hc : clash (hooks s) h = false).
  { unfold clash. destruct (get (h_name h) (hooks s)) as [p|]; [|reflexivity].
    rewrite (Hkind p eq_refl), eqb_reflx. reflexivity. }
  assert (Hg : get (h_name h) (hooks s1) = Some h).
  { unfold s1. rewrite hooks_reg_sethook, Hc by exact Hi. apply get_set_same. }
  split; [exact Hg|].
  pose proof (inv_reg_sethook s h Hnn Hi) as Hi1. fold s1 in Hi1.
  intros e He. rewrite (inv_exact _ Hi1 e), He, Hg. split.
  - intros [h' [Hg' Hx]]. injection Hg' as <-. exact Hx.
  - intros Hx. exists h. split; [reflexivity | exact Hx].
Qed.

Lemma gone_no_entry s n : Inv s -> get n (hooks s) = None -> forall e, snd e = n -> ~ In e (hexp s).
Proof. intros Hi Hg e He Hin. apply (inv_exact _ Hi) in Hin as [h [Hg' _]]. congruence. Qed.

(* DELHOOK / DELCHAN (and every deletion PDEL*, FLUSHDB and the sweeper perform through
   cmdDELHOOKop) removes the hook together with its index entry *)
Theorem delete_spec s n c : Inv s -> snd (delhook_op s n c) = true ->
  let s1 := fst (delhook_op s n c) in
  get n (hooks s1) = None /\ (forall e, snd e = n -> ~ In e (hexp s1)) /\
  (forall n', n' <> n -> get n' (hooks s1) = get n' (hooks s)).
Proof.
  intros Hi Hu s1. unfold s1. rewrite delhook_op_eq in *. destruct (hit (hooks s) n c); [|discriminate]. cbn [fst].
  split; [apply get_drop_same, Hi|]. split.
  - apply gone_no_entry; [apply inv_drop, Hi | apply get_drop_same, Hi].
  - intros n' Hn'. rewrite hooks_drop. apply get_del_other, Hn'.
Qed.

(* PDELHOOK / PDELCHAN: every listed hook of that kind is gone, with its entries *)
Theorem pdel_spec s pat c x : Inv s -> isnil pat = false ->
  let s1 := fst (fst (cmd_pdelhook s [x; pat] c)) in
  (forall h, In h (by_pattern pat c (hooks s)) ->
     get (h_name h) (hooks s1) = None /\ forall e, snd e = h_name h -> ~ In e (hexp s1)) /\
  (forall n, ~ In n (map h_name (by_pattern pat c (hooks s))) -> get n (hooks s1) = get n (hooks s)).
Proof.
  intros Hi Hp s1. unfold s1, cmd_pdelhook. cbn [tl]. rewrite Hp. cbn [fst].
  destruct (pdel_fold s pat c Hi) as [-> ->]. clear s1.
  set (hs := by_pattern pat c (hooks s)). set (s1 := fold_left _ hs s).
  assert (G : forall n p, get n (hooks s1) = Some p <-> get n (hooks s) = Some p /\ ~ In n (map h_name hs))
    by (intros n p; apply fold_drop_get, Hi).
  split.
  - intros h Hh. assert (Hg : get (h_name h) (hooks s1) = None).
    { destruct (get _ (hooks s1)) as [p|] eqn:E; [|reflexivity]. apply G in E as [_ []]. apply in_map, Hh. }
    split; [exact Hg|]. apply gone_no_entry; [|exact Hg]. apply fold_left_inv; [intros s2 h' _; apply inv_drop | exact Hi].
  - intros n Hn. destruct (get n (hooks s)) as [p|] eqn:E; [apply G; auto|].
    destruct (get n (hooks s1)) as [p|] eqn:E1; [|reflexivity]. apply G in E1 as [E1 _]. congruence.
Qed.

Lemma hook_range_star (m : smap hook) : hook_range [STAR] m = m.
Proof.
  unfold hook_range. cbn.
  induction m as [|[k v] m IH]; [reflexivity|]. cbn. destruct k; reflexivity.
Qed.

(* a listed hook is of one kind: for every pattern HOOKS and CHANS split the matching names of the
   range between them *)
Lemma list_split pat (m : smap hook) :
  (length (by_pattern pat false m) + length (by_pattern pat true m) =
   length (filter (fun h => Keyspace.matchesb pat (h_name h)) (vals (hook_range pat m))))%nat.
Proof.
  unfold by_pattern. induction (vals (hook_range pat m)) as [|h l IH]; [reflexivity|]. cbn [filter].
  destruct (h_chan h), (Keyspace.matchesb pat (h_name h)); cbn [Bool.eqb andb length]; lia.
Qed.

(* HOOKS * and CHANS * together list every registered hook exactly once (C19: num_hooks) *)
Theorem list_total now s x y :
  match cmd_hooks now s [x; [STAR]] false, cmd_hooks now s [y; [STAR]] true with
  | (_, RList lh, _), (_, RList lc, _) => (length lh + length lc = length (hooks s))%nat
  | _, _ => False
  end.
Proof.
  unfold cmd_hooks. cbn [tl isnil]. rewrite !map_length, list_split, hook_range_star.
  rewrite filter_all by (intros h _; unfold Keyspace.matchesb; rewrite GlobProofs.match_star; reflexivity).
  apply map_length.
Qed.

(* cmdRENAME's guard: refused exactly when a hook or channel watches one of the two keys; hooks win *)
Theorem rename_guard_spec s key newkey :
  let touches h := bytes_eqb (h_key h) key || bytes_eqb (h_key h) newkey in
  match rename_guard s key newkey with
  | None => forall h, In h (vals (hooks s)) -> touches h = false
  | Some e => (e = err_has_hooks /\ exists h, In h (vals (hooks s)) /\ touches h = true /\ h_chan h = false) \/
              (e = err_has_chans /\ (exists h, In h (vals (hooks s)) /\ touches h = true /\ h_chan h = true) /\
               forall h, In h (vals (hooks s)) -> touches h = true -> h_chan h = true)
  end.
Proof.
  intros touches. unfold rename_guard. fold touches. set (T := filter touches (vals (hooks s))).
  assert (HT : forall h, In h T <-> In h (vals (hooks s)) /\ touches h = true) by (intros h; apply filter_In).
  destruct (existsb (fun h => negb (h_chan h)) T) eqn:E1.
  - left. split; [reflexivity|]. apply existsb_exists in E1 as [h [Hin Hc]]. apply HT in Hin as [Hin Ht].
    exists h. apply negb_true_iff in Hc. auto.
  - assert (Hall : forall h, In h (vals (hooks s)) -> touches h = true -> h_chan h = true).
    { intros h Hin Ht. apply negb_false_iff, (existsb_none _ _ E1), HT. auto. }
    destruct (existsb h_chan T) eqn:E2.
    + right. split; [reflexivity|]. split; [|exact Hall].
      apply existsb_exists in E2 as [h [Hin Hc]]. apply HT in Hin as [Hin Ht]. exists h. auto.
    + intros h Hin. destruct (touches h) eqn:Et; [|reflexivity].
      rewrite <- (existsb_none _ _ E2 h), (Hall h Hin Et); [reflexivity | apply HT; auto].
Qed.
