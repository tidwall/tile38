(* C10 — proofs about the retention of freshly queued webhook messages (Model/HookRetention.v). *)
From Coq Require Import String List NArith ZArith Bool Arith Lia.
From Coq Require Import ZifyN ZifyNat ZifyBool.
From T38 Require Import Model.Queues Proofs.QueuesHookProofs Gen.HookRetention Model.HookRetention.
Import ListNotations.

Lemma enqueue_d_default : forall now msgs q, enqueue_d hook_ttl now msgs q = enqueue now msgs q.
Proof.
  intros now msgs. induction msgs as [|[h m] r IH]; intros q; [reflexivity|].
  cbn [enqueue_d enqueue]. apply IH.
Qed.

(* a retry path with options of its own never touches the shared record, so the model with the record as state
   is the model of Queues.v (which writes `now + hook_ttl`) beside a constant, and every C10 theorem about qrun
   speaks about the queue with the options record as state *)
Lemma rstep_own : forall q ev, rstep RetryOwn hook_ttl (mkRQ q hook_ttl) ev = mkRQ (qstep q ev) hook_ttl.
Proof.
  intros q [now msgs|h now outs|now]; cbn [rstep r_def r_q qstep]; [rewrite enqueue_d_default | | ]; try reflexivity.
  destruct (q_taken q h); reflexivity.
Qed.

Lemma rrun_own : forall evs q, rrun RetryOwn hook_ttl (mkRQ q hook_ttl) evs = mkRQ (qrun q evs) hook_ttl.
Proof.
  induction evs as [|ev r IH]; intros q; [reflexivity|]. cbn [rrun qrun fold_left]. rewrite rstep_own. apply IH.
Qed.

(* every message got 30 s when it was queued, whatever happened before *)
Theorem own_fresh_ttls : forall evs s, r_def s = hook_ttl ->
  Forall (fun mt => snd mt = hook_ttl) (fresh_ttls RetryOwn hook_ttl s evs).
Proof.
  induction evs as [|ev r IH]; intros [q d] Hd; [constructor|]. cbn [r_def] in Hd. subst d.
  cbn [fresh_ttls]. apply Forall_app. split.
  - destruct ev; try constructor. apply Forall_forall. intros x Hx. apply in_map_iff in Hx.
    destruct Hx as (hm & <- & _). reflexivity.
  - rewrite rstep_own. apply IH. reflexivity.
Qed.

(* A message queued at time t is owed to its hook -- delivered, being sent or queued -- at every later instant
   before t + 30 s, whatever the history before the write was (any number of failed deliveries, outages of any
   length, restarts, expired entries) and whatever happens after it (further failures of this or any other
   hook, restarts at quiet instants). *)
Theorem own_queued_retained : forall pre t msgs post h m,
  let s1 := rrun RetryOwn hook_ttl (rq_init hook_ttl) (pre ++ [Enq t msgs]) in
  let q := r_q (rrun RetryOwn hook_ttl s1 post) in
  quiet (r_q s1) post ->
  Forall (fun ev => (qtime ev < t + hook_ttl)%Z) post ->
  In (h, m) msgs ->
  exists e, e_hook e = h /\ e_msg e = m /\ e_exat e = (t + hook_ttl)%Z /\
            (In e (q_delivered q h) \/ In e (pending q h)).
Proof.
  intros pre t msgs post h m s1 q. subst q s1. unfold rq_init. rewrite !rrun_own, qrun_app. cbn [r_q].
  set (q1 := qrun hq_init pre). change (qrun q1 [Enq t msgs]) with (enqueue t msgs q1). intros HQ Ht Hin.
  destruct (enqueue_spec t msgs q1 (qrun_hinv pre)) as (H2 & P2 & Hnews).
  destruct (Hnews h) as (news & Edb & Emsg & Eex).
  (* the entry of m is at the end of the line of h after the write ... *)
  assert (Hm : In m (map e_msg news)).
  { rewrite Emsg. apply in_map_iff. exists (h, m). split; [reflexivity|].
    apply filter_In. split; [exact Hin | apply N.eqb_refl]. }
  apply in_map_iff in Hm as (e & Em & He).
  assert (Hl : In e (line (enqueue t msgs q1) h)) by (rewrite Edb; apply in_or_app; auto).
  assert (Hx : e_exat e = (t + hook_ttl)%Z) by (rewrite Forall_forall in Eex; apply Eex; exact He).
  exists e. split; [exact (proj1 (Forall_forall _ _) (hi_hook _ H2 h) e Hl)|]. split; [exact Em|]. split; [exact Hx|].
  (* ... and no event of post is late enough to lose it *)
  destruct (qrun_line post _ h H2 (P2 (qidx_persisted pre)) HQ) as (born & L & _).
  destruct (lose_In _ _ _ e L) as [Hl'|(ev & Hev & Hle)]; [apply in_or_app; auto | |].
  - unfold line in Hl'. apply in_app_or in Hl'. exact Hl'.
  - rewrite Forall_forall in Ht. specialize (Ht ev Hev). lia.
Qed.

(* the retry path that assigns through the shared pointer, refuted:
   t=0 one message for hook 1; its delivery fails at t=29 s, the entry is put back with 1 s left, and the shared
   record now says 1 s.  A second message queued at t=29.5 s gets 1 s instead of 30 s: at t=31 s -- 1.5 s after
   it was queued, the endpoint is healthy again -- it is neither delivered nor owed any more. *)
Theorem through_default_loses : exists pre t msgs post h m,
  let s1 := rrun RetryThroughDefault hook_ttl (rq_init hook_ttl) (pre ++ [Enq t msgs]) in
  let q := r_q (rrun RetryThroughDefault hook_ttl s1 post) in
  quiet (r_q s1) post /\
  Forall (fun ev => (qtime ev < t + hook_ttl)%Z) post /\
  In (h, m) msgs /\
  ~ In m (map e_msg (q_delivered q h ++ pending q h)) /\
  r_def s1 = 1000%Z.
Proof.
  exists [Enq 0 [(1, 10)]; Mgr 1 1 []; Mgr 1 29000 [false]]%N%Z, 29500%Z, [(1, 11)]%N,
         [Mgr 1 31000 []; Mgr 1 31001 []]%N%Z, 1%N, 11%N.
  cbv zeta. split; [|split; [|split; [|split]]].
  - cbn [quiet]. tauto.
  - repeat (apply Forall_cons; [cbn [qtime]; unfold hook_ttl; lia|]). apply Forall_nil.
  - left. reflexivity.
  - vm_compute. intros H. exact H.
  - vm_compute. reflexivity.
Qed.

(* what t38x read from internal/server: one shared options record with Expires = true; queueHooks stores with
   it; Hook.proc re-inserts with one Tx.Set, TTL = ttls[i] - time.Since(start); nothing outside Hook.proc
   writes to the record or lets the pointer escape *)
Lemma source_shape : source_shape_ok = true.
Proof. vm_compute. reflexivity. Qed.

(* the record is initialised with the 30 s of the property *)
Lemma source_default_30s : source_default = hook_ttl.
Proof. vm_compute. reflexivity. Qed.

(* Hook.proc builds its own options value: no statement of it writes through the shared record *)
Lemma source_retry_own : source_retry = RetryOwn.
Proof. vm_compute. reflexivity. Qed.

