(* C17 — the output mode of a reply does not depend on how commands are split into packets. *)
From T38 Require Import Base.Bytes Base.Utf8 Model.Json Model.JsonMode Proofs.JsonProofs.
Open Scope N_scope.

From T38 Require Gen.Templates.

(* the tie to the source: handleInputCommand's HELLO branch restores msg.OutputType *)
Lemma hello_restores_in_source : Gen.Templates.hello_restores_output = true.
Proof. reflexivity. Qed.

Lemma serve_msg_spec dflt parsed c x rest :
  let (c1, m) := serve_msg_r true dflt parsed c x in
  spec_modes dflt parsed (initial_mode dflt parsed c) (x :: rest) =
  m :: spec_modes dflt parsed (initial_mode dflt parsed c1) rest.
Proof.
  unfold serve_msg_r. fold (initial_mode dflt parsed c).
  destruct x as [t|d|]; [|cbn [spec_modes]; destruct (hello_resp _ _ _ d)|]; reflexivity.
Qed.

Lemma serve_r_spec dflt parsed packets : forall c,
  serve_r true dflt parsed c packets = spec_modes dflt parsed (initial_mode dflt parsed c) (concat packets).
Proof.
  induction packets as [|p ps IH]; [reflexivity|]. cbn [concat].
  (* message by message through the first packet; where it ends the outer hypothesis takes over unchanged *)
  induction p as [|x r IHp]; intros c; [exact (IH c)|].
  cbn [serve_r serve_packet_r app]. pose proof (serve_msg_spec dflt parsed c x (r ++ concat ps)) as Hx.
  destruct (serve_msg_r true dflt parsed c x) as [c1 m]. rewrite Hx, <- (IHp c1). cbn [serve_r].
  destruct (serve_packet_r true dflt parsed c1 r) as [c2 ms]. reflexivity.
Qed.

Theorem serve_spec_proof : forall dflt parsed packets c,
  serve dflt parsed c packets = spec_modes dflt parsed (initial_mode dflt parsed c) (concat packets).
Proof.
  intros. unfold serve. rewrite hello_restores_in_source. apply serve_r_spec.
Qed.

(* after an acknowledged switch the next reply is in the new mode, wherever the packet ends *)
Lemma after_output_proof : forall dflt parsed c t,
  serve dflt parsed c [[POutput t; POther]] = [t; t] /\ serve dflt parsed c [[POutput t]; [POther]] = [t; t].
Proof. intros. rewrite !serve_spec_proof. split; reflexivity. Qed.

