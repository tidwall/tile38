(* C17 — lemmas about the JSON recogniser and the model of jsonString. *)
From Coq Require Import ZifyN ZifyNat ZifyBool.
From T38 Require Import Base.Bytes Base.Utf8 Model.Json.
Open Scope N_scope.

Lemma jrun_app a b q :
  jrun (a ++ b) q = match jrun a q with Some q' => jrun b q' | None => None end.
Proof.
  revert q; induction a as [|c a IH]; intros q; cbn [jrun app]; [reflexivity|].
  destruct (jstep q c); [apply IH | reflexivity].
Qed.

Lemma jrun_app_some a b q q1 q2 :
  jrun a q = Some q1 -> jrun b q1 = Some q2 -> jrun (a ++ b) q = Some q2.
Proof. intros H1 H2. rewrite jrun_app, H1. exact H2. Qed.

Definition safe_byte (c : N) : Prop := 32 <= c /\ c <> 34 /\ c <> 92.

(* the invariant of the printer's loop: read inside a string literal, between two characters, v leaves
   the automaton there *)
Definition stays (v : bytes) : Prop :=
  forall k st, jrun v (MStr k SPlain, st) = Some (MStr k SPlain, st).

Lemma stays_app a b : stays a -> stays b -> stays (a ++ b).
Proof. intros Ha Hb k st. exact (jrun_app_some _ _ _ _ _ (Ha k st) (Hb k st)). Qed.

Lemma stays_cons c v : safe_byte c -> stays v -> stays (c :: v).
Proof.
  intros (H1 & H2 & H3) Hv k st. cbn [jrun jstep step_str].
  destruct (N.eqb_spec c 34); [contradiction|].
  destruct (N.eqb_spec c 92); [contradiction|].
  destruct (N.ltb_spec c 32); [lia|]. apply Hv.
Qed.

Lemma safe_run v : Forall safe_byte v -> stays v.
Proof. induction 1 as [|c v Hc _ IH]; [intros k st; reflexivity | exact (stays_cons c v Hc IH)]. Qed.

Lemma hexdigit_hex x : x < 16 -> is_hex (hexdigit x) = true.
Proof. intros H. unfold hexdigit, is_hex, is_digit. destruct (N.ltb_spec x 10); lia. Qed.

Lemma u_escape_run a b c d : is_hex a = true -> is_hex b = true -> is_hex c = true -> is_hex d = true ->
  stays [92; 117; a; b; c; d].
Proof.
  intros Ha Hb Hc Hd k st. cbn [jrun jstep step_str N.eqb Pos.eqb orb].
  rewrite Ha; cbn [jrun jstep step_str]. rewrite Hb; cbn [jrun jstep step_str].
  rewrite Hc; cbn [jrun jstep step_str]. rewrite Hd. reflexivity.
Qed.

Lemma esc_ascii_run b : b < 128 -> stays (esc_ascii b).
Proof.
  intros Hb k st. unfold esc_ascii.
  destruct (N.eqb_spec b 92) as [->|N92]; [reflexivity|].
  destruct (N.eqb_spec b 34) as [->|N34]; [reflexivity|]. cbn [orb].
  destruct (N.eqb_spec b 8); [reflexivity|].
  destruct (N.eqb_spec b 12); [reflexivity|].
  destruct (N.eqb_spec b 10); [reflexivity|].
  destruct (N.eqb_spec b 13); [reflexivity|].
  destruct (N.eqb_spec b 9); [reflexivity|].
  apply u_escape_run; try reflexivity; apply hexdigit_hex; [apply N.div_lt_upper_bound | apply N.mod_lt]; lia.
Qed.

Lemma html_safe_safe b : html_safe b = true -> safe_byte b.
Proof. unfold html_safe, safe_byte. lia. Qed.

Lemma accept_lo_hi i : 128 <= accept_lo i.
Proof. unfold accept_lo. destruct (i =? 1); [lia|]. destruct (i =? 3); lia. Qed.

(* the bytes a rune spans after its first are continuation bytes (128 and above), which a string
   literal takes as they are; every error exit of DecodeRuneInString has size 1 *)
Lemma decode_cont s : Forall safe_byte (firstn (pred (snd (decode_rune s))) (tl s)).
Proof.
  destruct s as [|b t]; [constructor|]. unfold decode_rune.
  destruct (240 <=? utf8_first b); [destruct (utf8_first b =? 240); constructor|].
  destruct (_ <? _); [constructor|].
  destruct t as [|s1 t1]; [constructor|].
  destruct ((s1 <? _) || _) eqn:E1; [constructor|].
  assert (H1 : safe_byte s1) by (pose proof (accept_lo_hi (utf8_first b / 16)); unfold safe_byte; lia).
  destruct (_ <=? 2); [cbn; auto|].
  destruct t1 as [|s2 t2]; [constructor|].
  destruct ((s2 <? _) || _) eqn:E2; [constructor|].
  assert (H2 : safe_byte s2) by (unfold safe_byte; lia).
  destruct (_ <=? 3); [cbn; auto|].
  destruct t2 as [|s3 t3]; [constructor|].
  destruct ((s3 <? _) || _) eqn:E3; [constructor|].
  assert (H3 : safe_byte s3) by (unfold safe_byte; lia).
  cbn. auto.
Qed.

Definition mode_inv (m : mmode) (s : bytes) : Prop :=
  match m with
  | MCopy n => Forall safe_byte (firstn n s)
  | _ => True
  end.

Lemma after_rune_inv copy s : mode_inv (after_rune copy (snd (decode_rune s))) (tl s).
Proof.
  pose proof (decode_cont s) as H. unfold after_rune.
  destruct (snd (decode_rune s)) as [|[|k]]; [exact I..|]. destruct copy; [exact H | exact I].
Qed.

Lemma marshal_body_run s : forall m, mode_inv m s -> stays (marshal_body m s).
Proof.
  induction s as [|b t IH]; intros m Hinv; [intros k st; reflexivity|].
  (* MCopy 0 and MDrop 0 are handled as MNorm *)
  assert (Hnorm : stays (marshal_body MNorm (b :: t))).
  { cbn [marshal_body]. destruct (N.ltb_spec b 128) as [Hlt|Hge].
    - destruct (html_safe b) eqn:Hs.
      + apply stays_cons; [apply html_safe_safe, Hs | apply IH, I].
      + apply stays_app; [apply esc_ascii_run, Hlt | apply IH, I].
    - pose proof (fun copy => after_rune_inv copy (b :: t)) as Hrune.
      destruct (decode_rune (b :: t)) as [c size].
      destruct ((c =? RuneError) && Nat.eqb size 1).
      + apply stays_app; [apply u_escape_run; reflexivity | apply IH, I].
      + destruct ((c =? 8232) || (c =? 8233)).
        * apply stays_app; [|apply IH, Hrune].
          apply u_escape_run; try reflexivity. apply hexdigit_hex, N.mod_lt. discriminate.
        * apply stays_cons; [unfold safe_byte; lia | apply IH, Hrune]. }
  destruct m as [|[|n]|[|n]]; cbn [marshal_body]; try exact Hnorm.
  - (* copying the rest of a rune *)
    cbn [mode_inv firstn] in Hinv. inversion Hinv as [|? ? Hb Ht]; subst.
    apply stays_cons; [exact Hb|]. apply IH. destruct n; cbn; [exact I | exact Ht].
  - (* dropping the rest of U+2028 / U+2029 *)
    apply IH. destruct n; exact I.
Qed.

(* the states in which a JSON string may begin, and where its closing quote leads *)
Definition string_start (q : jstate) : option (bool * list frame) :=
  match q with
  | (MValue, st) | (MArrStart, st) => Some (false, st)
  | (MObjStart, st) | (MKey, st) => Some (true, st)
  | _ => None
  end.

Definition string_end (k : bool) (st : list frame) : jstate := (if k then MColon else MAfter, st).

Lemma open_quote q k st : string_start q = Some (k, st) -> jstep q 34 = Some (MStr k SPlain, st).
Proof.
  destruct q as [[] st0]; cbn; intros H; inversion H; subst; reflexivity.
Qed.

Lemma quoted_run body q k st :
  stays body -> string_start q = Some (k, st) -> jrun (34 :: body ++ [34]) q = Some (string_end k st).
Proof.
  intros Hb Hq. cbn [jrun]. rewrite (open_quote _ _ _ Hq).
  apply (jrun_app_some _ _ _ _ _ (Hb k st)). reflexivity.
Qed.

Lemma fast_path_safe s : existsb needs_marshal s = false -> Forall safe_byte s.
Proof.
  induction s as [|c s IH]; cbn [existsb]; intros H; [constructor|].
  apply orb_false_iff in H. destruct H as [Hc Hs]. constructor; [|apply IH; exact Hs].
  unfold needs_marshal in Hc. unfold safe_byte. lia.
Qed.

Lemma marshal_string_run s q k st :
  string_start q = Some (k, st) -> jrun (marshal_string s) q = Some (string_end k st).
Proof. apply quoted_run, marshal_body_run, I. Qed.

Lemma json_string_run s q k st :
  string_start q = Some (k, st) -> jrun (json_string s) q = Some (string_end k st).
Proof.
  unfold json_string. destruct (existsb needs_marshal s) eqn:E.
  - apply marshal_string_run.
  - apply quoted_run, safe_run, fast_path_safe, E.
Qed.

Lemma json_string_fast s :
  existsb needs_marshal s = false -> json_string s = 34 :: s ++ [34].
Proof. intros H. unfold json_string. rewrite H. reflexivity. Qed.
