(* C17 — the RESP printer's output re-parses to the value printed, with nothing left over. *)
From Coq Require Import ZifyN ZifyNat ZifyBool DecimalN.
From T38 Require Import Base.Bytes Base.ListFacts Model.RespOut.
Open Scope N_scope.

Lemma uint_roundtrip u : uint_of_bytes (bytes_of_uint u) = Some u.
Proof. induction u; cbn [bytes_of_uint uint_of_bytes]; try rewrite IHu; reflexivity. Qed.

Lemma parse_print_N n : parse_N (print_N n) = Some n.
Proof. unfold parse_N, print_N. rewrite uint_roundtrip, DecimalN.Unsigned.of_to. reflexivity. Qed.

Definition digit_byte (c : N) : Prop := 48 <= c <= 57.

Lemma uint_digits u : Forall digit_byte (bytes_of_uint u).
Proof. induction u; cbn [bytes_of_uint]; constructor; auto; unfold digit_byte; lia. Qed.

Lemma print_N_digits n : Forall digit_byte (print_N n).
Proof. apply uint_digits. Qed.

Lemma print_N_nonempty p : print_N (Npos p) <> [].
Proof.
  intros E. pose proof (parse_print_N (Npos p)) as H. rewrite E in H. cbn in H. discriminate.
Qed.

Lemma parse_int_digits b : b <> [] -> Forall digit_byte b ->
  parse_int b = match parse_N b with Some n => Some (Z.of_N n) | None => None end.
Proof.
  intros Hne Hd. destruct b as [|c r]; [congruence|]. inversion Hd; subst.
  unfold parse_int. destruct (N.eqb_spec c 45); [unfold digit_byte in *; lia | reflexivity].
Qed.

Lemma parse_print_int z : parse_int (print_int z) = Some z.
Proof.
  destruct z as [|p|p]; cbn [print_int].
  - reflexivity.
  - rewrite parse_int_digits by (auto using print_N_nonempty, print_N_digits).
    rewrite parse_print_N. reflexivity.
  - cbn [parse_int]. change (45 =? 45) with true. cbn iota. rewrite parse_print_N. reflexivity.
Qed.

Definition not_cr (c : N) : Prop := c <> 13.

Lemma print_N_nocr n : Forall not_cr (print_N n).
Proof. eapply Forall_impl; [|apply print_N_digits]. unfold digit_byte, not_cr. intros; lia. Qed.

Lemma print_int_nocr z : Forall not_cr (print_int z).
Proof.
  destruct z; cbn [print_int]; try apply print_N_nocr. constructor; [discriminate | apply print_N_nocr].
Qed.

Lemma read_line_app l rest :
  Forall not_cr l -> read_line (l ++ 13 :: 10 :: rest) = Some (l, rest).
Proof.
  induction 1 as [|c l Hc _ IH]; cbn [app read_line].
  - reflexivity.
  - destruct (N.eqb_spec c 13); [contradiction|]. cbn [andb]. rewrite IH. reflexivity.
Qed.

Lemma line_ok_nocr l : line_ok l = true -> Forall not_cr l.
Proof.
  unfold line_ok. rewrite forallb_forall, Forall_forall. intros H c Hc. specialize (H c Hc).
  unfold not_cr. lia.
Qed.

Definition print_all (l : list rval) : bytes :=
  (fix go (l : list rval) : bytes := match l with [] => [] | x :: r => resp_print x ++ go r end) l.

Definition wf_all (l : list rval) : bool :=
  (fix all (l : list rval) : bool := match l with [] => true | x :: r => resp_wf x && all r end) l.

Definition depth_all (l : list rval) : nat :=
  (fix mx (l : list rval) : nat := match l with [] => O | x :: r => Nat.max (resp_depth x) (mx r) end) l.

Lemma parse_int_print_N n : parse_int (print_N n) = Some (Z.of_N n).
Proof. destruct n as [|p]; [reflexivity|]. exact (parse_print_int (Zpos p)). Qed.

Lemma parse_elems_all f l :
  (forall v, resp_wf v = true -> forall rest, (resp_depth v <= f)%nat ->
             resp_parse_fuel f (resp_print v ++ rest) = Some (v, rest)) ->
  forall rest, wf_all l = true -> (depth_all l <= f)%nat ->
  parse_elems (resp_parse_fuel f) (length l) (print_all l ++ rest) = Some (l, rest).
Proof.
  intros Hf rest. induction l as [|x l IH]; intros Hwf Hd; [reflexivity|].
  cbn [wf_all] in Hwf. apply andb_true_iff in Hwf. destruct Hwf as [Hwx Hwl].
  cbn [depth_all] in Hd.
  cbn [length parse_elems print_all]. rewrite <- app_assoc.
  rewrite (Hf x Hwx) by lia.
  fold (print_all l). rewrite (IH Hwl) by (unfold depth_all in *; lia). reflexivity.
Qed.

Lemma resp_roundtrip_fuel fuel : forall v, resp_wf v = true -> forall rest,
  (resp_depth v <= fuel)%nat -> resp_parse_fuel fuel (resp_print v ++ rest) = Some (v, rest).
Proof.
  induction fuel as [|f IH]; intros v Hwf rest Hf; [destruct v; cbn in Hf; lia|].
  destruct v as [s|s|z|s| | |l].
  (* simple string, error: a well-formed line is read back and passes the parser's own test *)
  1-2: (cbn [resp_print resp_wf] in *; cbn [app resp_parse_fuel]; unfold crlf; rewrite <- app_assoc; cbn [app];
        rewrite read_line_app by (apply line_ok_nocr; exact Hwf);
        cbn [N.eqb Pos.eqb]; rewrite Hwf; reflexivity).
  - (* integer *)
    cbn [resp_print]. cbn [app resp_parse_fuel]. unfold crlf. rewrite <- app_assoc. cbn [app].
    rewrite read_line_app by apply print_int_nocr.
    cbn [N.eqb Pos.eqb].
    rewrite parse_print_int. reflexivity.
  - (* bulk *)
    cbn [resp_print]. cbn [app resp_parse_fuel]. unfold crlf. rewrite <- !app_assoc. cbn [app].
    rewrite read_line_app by apply print_N_nocr.
    cbn [N.eqb Pos.eqb].
    rewrite parse_int_print_N.
    destruct (Z.eqb_spec (Z.of_N (N.of_nat (length s))) (-1)); [lia|].
    destruct (Z.ltb_spec (Z.of_N (N.of_nat (length s))) 0); [lia|].
    replace (Z.to_nat (Z.of_N (N.of_nat (length s)))) with (length s) by lia.
    rewrite firstn_app_exact, Nat.eqb_refl, skipn_app_exact.
    reflexivity.
  - reflexivity.
  - reflexivity.
  - (* array: the elements are parsed with one unit of fuel less, and are one level less deep *)
    cbn [resp_print]. fold (print_all l). cbn [app resp_parse_fuel]. unfold crlf. rewrite <- !app_assoc. cbn [app].
    rewrite read_line_app by apply print_N_nocr.
    cbn [N.eqb Pos.eqb].
    rewrite parse_int_print_N.
    destruct (Z.eqb_spec (Z.of_N (N.of_nat (length l))) (-1)); [lia|].
    destruct (Z.ltb_spec (Z.of_N (N.of_nat (length l))) 0); [lia|].
    replace (Z.to_nat (Z.of_N (N.of_nat (length l)))) with (length l) by lia.
    cbn [resp_wf] in Hwf. fold (wf_all l) in Hwf. cbn [resp_depth] in Hf. fold (depth_all l) in Hf.
    rewrite (parse_elems_all f l IH rest Hwf) by lia. reflexivity.
Qed.

Lemma print_nonempty v : (1 <= length (resp_print v))%nat.
Proof. destruct v; cbn [resp_print length]; lia. Qed.

(* every level of nesting prints at least one byte *)
Lemma depth_le_length n : forall v, (length (resp_print v) <= n)%nat -> (resp_depth v <= n)%nat.
Proof.
  induction n as [|n IH]; intros v Hv; [pose proof (print_nonempty v); lia|].
  destruct v as [s|s|z|s| | |l]; cbn [resp_depth]; try lia.
  cbn [resp_print length] in Hv. fold (print_all l) in Hv. fold (depth_all l). rewrite !app_length in Hv.
  assert (H : (length (print_all l) <= n)%nat) by lia. clear Hv.
  induction l as [|x l IHl]; cbn [depth_all print_all] in *; [lia|]. rewrite app_length in H.
  fold (depth_all l). fold (print_all l) in H. specialize (IH x). lia.
Qed.

Theorem resp_roundtrip_proof : forall v,
  resp_wf v = true -> forall rest, resp_parse_fuel (S (length (resp_print v ++ rest))) (resp_print v ++ rest) = Some (v, rest).
Proof.
  intros v Hwf rest. apply resp_roundtrip_fuel; [exact Hwf|].
  rewrite app_length. pose proof (depth_le_length _ v (le_n _)). lia.
Qed.

Theorem resp_valid_proof : forall v, resp_wf v = true -> resp_parse (resp_print v) = Some (v, []).
Proof.
  intros v Hwf. unfold resp_parse. pose proof (resp_roundtrip_proof v Hwf []) as H.
  rewrite app_nil_r in H. exact H.
Qed.

(* what resp.ErrorValue / resp.SimpleStringValue hand to the printer is always a single line *)
Lemma form_single_line_ok s : line_ok (form_single_line s) = true.
Proof.
  unfold line_ok, form_single_line. rewrite forallb_forall. intros c Hc.
  apply in_map_iff in Hc. destruct Hc as (x & <- & _).
  destruct (N.ltb_spec x 32); lia.
Qed.

