(* C17 — both renderings of a scanWriter result project onto the same abstract result. *)
From Coq Require Import ZifyN ZifyNat ZifyBool Sorted.
From T38 Require Import Base.Bytes Model.RespOut Model.JsonScan Proofs.JsonRespProofs.
Open Scope N_scope.

Lemma map_opt_map {A B C} (f : B -> option C) (g : A -> B) (h : A -> C) l :
  (forall x, In x l -> f (g x) = Some (h x)) -> map_opt f (map g l) = Some (map h l).
Proof.
  induction l as [|x l IH]; intros H; [reflexivity|].
  cbn [map map_opt]. rewrite (H x) by (left; reflexivity). rewrite IH by (intros y Hy; apply H; right; exact Hy).
  reflexivity.
Qed.

Definition raw_pair (p : bytes * tval) : bytes * bytes := (fst p, traw (snd p)).

Lemma pairs_of_flat fs : pairs_of (flat_pairs fs) = Some (map raw_pair fs).
Proof. induction fs as [|[n v] fs IH]; [reflexivity|]. cbn [flat_pairs pairs_of]. rewrite IH. reflexivity. Qed.

Lemma getv_notin n fs : ~ In n (map fst fs) -> getv n fs = tzero.
Proof.
  induction fs as [|[k v] fs IH]; intros H; [reflexivity|].
  cbn [getv]. destruct (bytes_eqb_spec n k) as [->|_].
  - destruct H. left. reflexivity.
  - apply IH. intros Hin. apply H. right. exact Hin.
Qed.

Lemma covers_in fs names : covers fs names -> forall k, In k (map fst fs) -> In k names.
Proof.
  induction 1 as [names|fs n ns _ IH|n v fs ns _ IH]; intros k Hk.
  - destruct Hk.
  - right. apply IH; exact Hk.
  - cbn in Hk. destruct Hk as [<-|Hk]; [left; reflexivity | right; apply IH; exact Hk].
Qed.

Lemma zip_no_fields names :
  filter nonzero (combine names (map (fun n => getv n []) names)) = [].
Proof. induction names as [|n ns IH]; [reflexivity|]. cbn [map combine filter getv]. exact IH. Qed.

Lemma fields_zip fs names :
  covers fs names -> NoDup names ->
  filter nonzero (combine names (map (fun n => getv n fs) names)) = filter nonzero fs.
Proof.
  induction 1 as [names|fs n ns Hc IH|n v fs ns Hc IH]; intros Hnd.
  - apply zip_no_fields.
  - inversion Hnd as [|? ? Hn Hns]; subst.
    cbn [map combine filter].
    rewrite (getv_notin n fs) by (intros Hin; apply Hn; eapply covers_in; eauto).
    change (nonzero (n, tzero)) with false. cbn iota. apply IH; exact Hns.
  - inversion Hnd as [|? ? Hn Hns]; subst.
    assert (E : map (fun m => getv m ((n, v) :: fs)) ns = map (fun m => getv m fs) ns).
    { apply map_ext_in. intros m Hm. cbn [getv]. destruct (bytes_eqb_spec m n) as [->|_]; [contradiction | reflexivity]. }
    cbn [map combine].
    replace (getv n ((n, v) :: fs)) with v by (cbn [getv]; rewrite bytes_eqb_refl; reflexivity).
    cbn [filter].
    rewrite E, (IH Hns). reflexivity.
Qed.

(* the same on the JSON tree: values printed with tjson, zero test on the printed value *)
Lemma json_zip_g (g : bytes -> tval) names :
  map_opt jpair (filter (fun p => negb (jzero (snd p))) (combine names (map (fun n => tjson (g n)) names))) =
  Some (map raw_pair (filter nonzero (combine names (map g names)))).
Proof.
  induction names as [|n ns IH]; [reflexivity|].
  cbn [map combine filter]. unfold nonzero at 1. cbn [snd].
  assert (Ez : jzero (tjson (g n)) = is_zero (g n)) by (destruct (g n); reflexivity).
  rewrite Ez. destruct (is_zero (g n)); cbn [negb].
  - exact IH.
  - cbn [map_opt map]. rewrite IH.
    unfold jpair, raw_pair. cbn [fst snd]. destruct (g n); reflexivity.
Qed.

Definition eff_names (r : scanres) : list bytes :=
  if fields_output r && negb (match sr_names r with [] => true | _ => false end) then sr_names r else [].

Lemma resp_item_proj r it : proj_ritem (sr_out r) (resp_item r it) = Some (abs_item r it).
Proof.
  unfold resp_item, proj_ritem, abs_item.
  destruct (sr_out r) eqn:Eo; unfold fields_output; rewrite Eo.
  - destruct (show_dist it); reflexivity.
  - (* count: no list is rendered, the item functions follow the objects arm *)
    destruct (show_dist it); reflexivity.
  - destruct (negb (sr_nofields r)); destruct (filter nonzero (it_fields it)) as [|p l] eqn:Ef;
      destruct (show_dist it); cbn [app];
      try rewrite pairs_of_flat; reflexivity.
Qed.

Lemma jget_id m v : jget k_id ((k_id, v) :: m) = Some v.
Proof. reflexivity. Qed.

(* the repaired cell lookup (scan of the name-ordered list with early exit) finds what a plain
   lookup finds, because an object's field list is a sub-list of the byte-ordered name list *)
Lemma get_stored_getv fs names : covers fs names -> names_sorted names ->
  forall n, get_stored n fs = getv n fs.
Proof.
  induction 1 as [names|fs n0 ns Hc IH|n0 v fs ns Hc IH]; intros Hs n.
  - reflexivity.
  - apply IH. inversion Hs; assumption.
  - inversion Hs as [|? ? Hs' Hall]; subst. cbn [get_stored getv].
    destruct (bytes_eqb_spec n0 n) as [->|Hne].
    + rewrite bytes_eqb_refl. reflexivity.
    + destruct (bytes_eqb_spec n n0) as [E|_]; [destruct Hne; symmetry; exact E|].
      destruct (bytes_ltb n0 n) eqn:L; [apply IH; exact Hs'|].
      (* n is not above n0, and every later name is *)
      symmetry. apply getv_notin. intros Hin.
      apply (covers_in _ _ Hc) in Hin. rewrite Forall_forall in Hall. rewrite (Hall _ Hin) in L. discriminate.
Qed.

Lemma json_fields_zip fs names :
  covers fs names -> NoDup names -> names_sorted names ->
  map_opt jpair (filter (fun p => negb (jzero (snd p)))
                        (combine names (map (fun n => tjson (get_stored n fs)) names))) =
  Some (map raw_pair (filter nonzero fs)).
Proof.
  intros Hc Hnd Hs. rewrite (map_ext _ _ (fun n => f_equal tjson (get_stored_getv fs names Hc Hs n))).
  rewrite (json_zip_g (fun n => getv n fs) names), (fields_zip fs names Hc Hnd). reflexivity.
Qed.

Lemma json_item_proj r it :
  NoDup (sr_names r) -> covers (it_fields it) (sr_names r) -> names_sorted (sr_names r) ->
  proj_jitem (sr_out r) (eff_names r) (json_item r it) = Some (abs_item r it).
Proof.
  intros Hnd Hc Hj. unfold json_item, proj_jitem, abs_item, eff_names.
  destruct (sr_out r) eqn:Eo; unfold fields_output; rewrite Eo.
  - destruct (show_dist it); reflexivity.
  - cbn [andb app]. destruct (show_dist it); destruct (it_obj it); reflexivity.
  - destruct (negb (sr_nofields r)) eqn:Enf; cbn [andb].
    + destruct (sr_names r) as [|n0 ns] eqn:En.
      * cbn [negb app]. inversion Hc; subst.
        destruct (show_dist it); destruct (it_obj it); reflexivity.
      * cbn [negb app]. rewrite <- En in *.
        assert (Hz := json_fields_zip _ _ Hc Hnd Hj).
        assert (Ho : jraw (tjson (it_obj it)) = Some (traw (it_obj it))) by (destruct (it_obj it); reflexivity).
        destruct (show_dist it); cbn -[map_opt filter combine jzero]; rewrite Hz, Ho; reflexivity.
    + cbn [app]. destruct (show_dist it); destruct (it_obj it); reflexivity.
Qed.

Theorem modes_agree_proof : forall r, wf_res r ->
  proj_json (sr_out r) (render_json r) = Some (abs_of r) /\
  proj_resp (sr_out r) (render_resp r) = Some (abs_of r).
Proof.
  intros r (Hnd & Hcov & Hjp). rewrite Forall_forall in Hcov. split.
  - (* JSON *)
    assert (Hitems : map_opt (proj_jitem (sr_out r) (eff_names r)) (map (json_item r) (sr_items r)) =
                     Some (map (abs_item r) (sr_items r))).
    { apply map_opt_map. intros it Hin. apply json_item_proj; [exact Hnd | apply Hcov; exact Hin | exact Hjp]. }
    unfold render_json, proj_json, abs_of.
    unfold eff_names in Hitems.
    destruct (sr_out r) eqn:Eo.
    + (* ids: no field names *)
      unfold fields_output in *. rewrite Eo in *. cbn [andb app] in *.
      cbn -[map_opt proj_jitem]. rewrite Hitems. reflexivity.
    + unfold fields_output. rewrite Eo. cbn [andb app]. reflexivity.
    + destruct (fields_output r && negb match sr_names r with [] => true | _ :: _ => false end) eqn:Ec.
      * cbn -[map_opt proj_jitem].
        rewrite (map_opt_map jstr JStr (fun s => s)) by (intros; reflexivity). rewrite map_id.
        rewrite Hitems. reflexivity.
      * cbn -[map_opt proj_jitem]. rewrite Hitems. reflexivity.
  - (* RESP *)
    assert (Hitems : map_opt (proj_ritem (sr_out r)) (map (resp_item r) (sr_items r)) =
                     Some (map (abs_item r) (sr_items r))).
    { apply map_opt_map. intros it _. apply resp_item_proj. }
    unfold render_resp, proj_resp, abs_of.
    destruct (sr_out r) eqn:Eo.
    + rewrite Hitems. rewrite N2Z.id. reflexivity.
    + rewrite N2Z.id. reflexivity.
    + rewrite Hitems. rewrite N2Z.id. reflexivity.
Qed.

Definition zero_dist_result : scanres :=
  {| sr_out := OIds; sr_nofields := false; sr_names := [];
     sr_items := [ {| it_id := [97]; it_obj := TTok [123; 125]; it_fields := []; it_jpath := []; it_distout := true;
                      it_dist := [48]; it_dist_pos := false |} ];
     sr_count := 1; sr_cursor := 0 |}.

(* the variant that tests dist > 0 only in the JSON ids arm loses a requested distance of exactly 0:
   the two modes then convey different results *)
Definition render_json_dropzero (r : scanres) : jval :=
  JObj [(k_ok, JTok t_true); (k_ids, JArr (map (json_item_dropzero r) (sr_items r)));
        (k_count, JNum (sr_count r)); (k_cursor, JNum (sr_cursor r))].

(* Finding C17-scan-json-path-field (repaired in /repo: 903e555).  Before the repair the JSON arm of
   writeFilled filled the positional "fields" array with opts.obj.Fields().Get(name), and List.Get
   answers a dotted name j.p from inside a JSON-valued field j; the RESP arm lists the stored fields.  With
     SET fleet b FIELD props.speed 5 POINT 1 1 ; SET fleet truck1 FIELD props {"speed":7} POINT 2 2
   SCAN fleet OBJECTS told a JSON client that truck1 has props.speed = 7, and a RESP client that it
   has no such field.  The pinned arm is json_item_pinned; the result below is well-formed, the
   repaired renderings agree on it (modes_agree_proof), the pinned JSON rendering does not. *)
Definition t5 : tval := TTok [53].
Definition t7 : tval := TTok [55].
Definition n_props : bytes := [112; 114; 111; 112; 115].
Definition n_props_speed : bytes := [112; 114; 111; 112; 115; 46; 115; 112; 101; 101; 100].
Definition v_props : tval := TTok [123; 34; 115; 112; 101; 101; 100; 34; 58; 55; 125].
Definition json_path_result : scanres :=
  {| sr_out := OObjects; sr_nofields := false; sr_names := [n_props; n_props_speed];
     sr_items := [ {| it_id := [98]; it_obj := TTok [123; 125]; it_fields := [(n_props_speed, t5)]; it_jpath := [];
                      it_distout := false; it_dist := []; it_dist_pos := false |};
                   {| it_id := [116]; it_obj := TTok [123; 125]; it_fields := [(n_props, v_props)];
                      it_jpath := [(n_props_speed, t7)];
                      it_distout := false; it_dist := []; it_dist_pos := false |} ];
     sr_count := 2; sr_cursor := 0 |}.

Definition render_json_pinned (r : scanres) : jval :=
  JObj ([(k_ok, JTok t_true)] ++
        (if fields_output r && negb (match sr_names r with [] => true | _ => false end)
         then [(k_fields, JArr (map JStr (sr_names r)))] else []) ++
        (match sr_out r with
         | OIds => [(k_ids, JArr (map (json_item_pinned r) (sr_items r)))]
         | OObjects => [(k_objects, JArr (map (json_item_pinned r) (sr_items r)))]
         | OCount => []
         end) ++
        [(k_count, JNum (sr_count r)); (k_cursor, JNum (sr_cursor r))]).

Lemma json_path_result_wf : wf_res json_path_result.
Proof.
  split; [|split].
  - repeat constructor; cbn; intuition discriminate.
  - constructor; [apply cov_skip, cov_take, cov_nil|].
    constructor; [apply cov_take, cov_nil | constructor].
  - constructor; [constructor; [constructor | constructor] | constructor; [reflexivity | constructor]].
Qed.

