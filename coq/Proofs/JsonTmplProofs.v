(* C17 — soundness of the template checker: a template accepted by tmpl_ok only has
   instances (under well-typed hole fills, any choice of branches, any number of loop
   iterations) that are valid JSON documents. *)
From Coq Require Import ZifyN ZifyNat ZifyBool.
From T38 Require Import Base.Bytes Base.Utf8 Model.Json Model.Templates Proofs.JsonProofs.
Open Scope N_scope.

Lemma frames_eqb_eq a b : frames_eqb a b = true -> a = b.
Proof.
  revert b; induction a as [|[] a IH]; intros [|[] b]; cbn; try discriminate; auto;
    intros H; f_equal; apply IH; exact H.
Qed.

Lemma numst_eqb_eq a b : numst_eqb a b = true -> a = b.
Proof. destruct a, b; cbn; try discriminate; reflexivity. Qed.

Lemma strst_eqb_eq a b : strst_eqb a b = true -> a = b.
Proof.
  destruct a, b; cbn; try discriminate; try reflexivity.
  intros H. apply Nat.eqb_eq in H. subst; reflexivity.
Qed.

Lemma mode_eqb_eq a b : mode_eqb a b = true -> a = b.
Proof.
  destruct a, b; cbn; try discriminate; try reflexivity.
  - intros H. apply andb_true_iff in H. destruct H as [H1 H2].
    apply Bool.eqb_prop in H1. apply strst_eqb_eq in H2. subst; reflexivity.
  - intros H. apply numst_eqb_eq in H. subst; reflexivity.
  - intros H. apply bytes_eqb_eq in H. subst; reflexivity.
Qed.

Lemma jstate_eqb_eq a b : jstate_eqb a b = true -> a = b.
Proof.
  destruct a as [ma sa], b as [mb sb]. unfold jstate_eqb. cbn [fst snd].
  intros H. apply andb_true_iff in H. destruct H as [H1 H2].
  apply mode_eqb_eq in H1. apply frames_eqb_eq in H2. subst; reflexivity.
Qed.

(* a number has no terminator.  The checker's state q stands for the concrete state qc: identical, or the checker thinks a
   value has been completed while the concrete automaton still sits in a terminal number state *)
Definition sim (q qc : jstate) : Prop :=
  qc = q \/ exists st n, q = (MAfter, st) /\ qc = (MNum n, st) /\ num_terminal n = true.

Lemma sim_refl q : sim q q.
Proof. left; reflexivity. Qed.

Lemma step_after_stops st c q' n :
  step_after st c = Some q' -> num_terminal n = true -> num_step n c = None.
Proof.
  intros H Hn.
  assert (Hc : c = 32 \/ c = 9 \/ c = 10 \/ c = 13 \/ c = 44 \/ c = 125 \/ c = 93).
  { unfold step_after in H. destruct (is_ws c) eqn:W.
    - unfold is_ws in W. repeat (apply orb_true_iff in W; destruct W as [W|W]);
        apply N.eqb_eq in W; auto 10.
    - destruct st as [|[] r]; try discriminate.
      + destruct (N.eqb_spec c 44); auto 10. destruct (N.eqb_spec c 125); auto 10. discriminate.
      + destruct (N.eqb_spec c 44); auto 10. destruct (N.eqb_spec c 93); auto 10. discriminate. }
  destruct n; try discriminate;
    repeat (destruct Hc as [Hc|Hc]; [subst; reflexivity|]); subst; reflexivity.
Qed.

(* one byte brings the two together: a byte that may follow a completed value ends a pending number *)
Lemma step_sim q qc c q' : sim q qc -> jstep q c = Some q' -> jstep qc c = Some q'.
Proof.
  intros [->|(st & n & -> & -> & Hn)] H; [exact H|].
  cbn [jstep] in *. rewrite (step_after_stops _ _ _ _ H Hn), Hn. exact H.
Qed.

Definition runs (v : bytes) (q q' : jstate) : Prop :=
  forall qc, sim q qc -> exists qc', jrun v qc = Some qc' /\ sim q' qc'.

Lemma run_sim s q q' : jrun s q = Some q' -> runs s q q'.
Proof.
  intros H qc Hs. destruct s as [|c s]; cbn [jrun] in *.
  - inversion H; subst. exists qc; split; [reflexivity | exact Hs].
  - destruct (jstep q c) as [q1|] eqn:E; [|discriminate].
    rewrite (step_sim _ _ _ _ Hs E). exists q'. split; [exact H | apply sim_refl].
Qed.

Lemma runs_app a b q q1 q2 : runs a q q1 -> runs b q1 q2 -> runs (a ++ b) q q2.
Proof.
  intros Ha Hb qc Hs. destruct (Ha qc Hs) as (qc1 & R1 & S1). destruct (Hb qc1 S1) as (qc2 & R2 & S2).
  exists qc2. split; [exact (jrun_app_some _ _ _ _ _ R1 R2) | exact S2].
Qed.

Lemma runs_valid v : runs v jstart (MAfter, []) -> valid_json v = true.
Proof.
  intros H. destruct (H jstart (sim_refl _)) as (qc & R & [->|(st & n & E & -> & Hn)]);
    unfold valid_json; rewrite R; [reflexivity|].
  inversion E; subst. exact Hn.
Qed.

(* a JSON value as far as the automaton is concerned: from any state that expects a value it leads
   to "value completed" (up to a pending terminal number state) with the same stack *)
Definition json_value (v : bytes) : Prop :=
  forall q q', hole_value q = Some q' -> exists qc', jrun v q = Some qc' /\ sim q' qc'.

Inductive inst : tmpl -> bytes -> Prop :=
| ILit s : inst (Lit s) s
| IStr s : inst HStr (json_string s)
| IInt v : is_int_text v = true -> inst HInt v
| IFloat v : inst HFloat v                      (* anything, NaN and +Inf included *)
| IBool (b : bool) : inst HBool (if b then [116; 114; 117; 101] else [102; 97; 108; 115; 101])
| IDur v : string_safe v = true -> inst HDur v
| IRaw v : string_safe v = true -> inst HRaw v
| IJson v : json_value v -> inst HJson v
| ISeq a b x y : inst a x -> inst b y -> inst (Seq a b) (x ++ y)
| IAltL a b x : inst a x -> inst (Alt a b) x
| IAltR a b y : inst b y -> inst (Alt a b) y
| IStar0 a : inst (Star a) []
| IStarS a x y : inst a x -> inst (Star a) y -> inst (Star a) (x ++ y).

Lemma hole_value_start q q' :
  hole_value q = Some q' -> exists st, (q = (MValue, st) \/ q = (MArrStart, st)) /\ q' = (MAfter, st).
Proof.
  destruct q as [[] st]; cbn; intros H; inversion H; subst; exists st; auto.
Qed.

Lemma string_safe_Forall v : string_safe v = true -> Forall safe_byte v.
Proof.
  unfold string_safe. rewrite forallb_forall, Forall_forall. intros H c Hc.
  specialize (H c Hc). unfold safe_byte. lia.
Qed.

Lemma digit_neqb c k : is_digit c = true -> is_digit k = false -> (c =? k) = false.
Proof. intros Hc Hk. destruct (N.eqb_spec c k) as [->|_]; [congruence | reflexivity]. Qed.

Definition num_start (m : mode) : Prop := m = MValue \/ m = MArrStart \/ m = MNum NMinus.

(* every byte these modes test for before the digits is not a digit *)
Lemma first_digit_step m st c : num_start m -> is_digit c = true ->
  jstep (m, st) c = Some (MNum (if c =? 48 then NZero else NInt), st).
Proof.
  intros Hm Hd.
  destruct Hm as [ -> | [ -> | -> ] ]; cbn [jstep num_step]; unfold is_ws, step_value;
    rewrite ?(digit_neqb c) by (exact Hd || reflexivity); cbn [orb]; rewrite Hd;
    destruct (c =? 48); reflexivity.
Qed.

Lemma digits_run n r st : n = NInt \/ n = NFrac ->
  forallb is_digit r = true -> jrun r (MNum n, st) = Some (MNum n, st).
Proof.
  intros Hn. induction r as [|c r IH]; cbn [forallb jrun]; intros H; [reflexivity|].
  apply andb_true_iff in H. destruct H as [Hc Hr].
  replace (jstep (MNum n, st) c) with (Some (MNum n, st)); [exact (IH Hr)|].
  destruct Hn as [ -> | -> ]; cbn [jstep num_step]; rewrite Hc; reflexivity.
Qed.

Lemma nat_text_run v st m : num_start m -> is_nat_text v = true ->
  exists n, jrun v (m, st) = Some (MNum n, st) /\ (n = NZero \/ n = NInt).
Proof.
  intros Hm H. destruct v as [|c r]; [discriminate|]. cbn [is_nat_text] in H. cbn [jrun].
  destruct (c =? 48) eqn:E0.
  - destruct r; [|discriminate]. apply N.eqb_eq in E0. subst c.
    exists NZero. rewrite (first_digit_step m st 48 Hm eq_refl). auto.
  - apply andb_true_iff in H. destruct H as [Hc Hr].
    assert (Hd : is_digit c = true) by (unfold is_digit; lia).
    exists NInt. rewrite (first_digit_step m st c Hm Hd), E0. split; [apply digits_run; auto | auto].
Qed.

Lemma signed_number_value (body : bytes -> bool) :
  (forall u st m, num_start m -> body u = true ->
                  exists n, jrun u (m, st) = Some (MNum n, st) /\ num_terminal n = true) ->
  forall c r, body (if c =? 45 then r else c :: r) = true -> json_value (c :: r).
Proof.
  intros Hb c r H q q' Hq. destruct (hole_value_start _ _ Hq) as (st & Hm & ->).
  assert (Hgo : exists n, jrun (c :: r) q = Some (MNum n, st) /\ num_terminal n = true).
  { destruct (N.eqb_spec c 45) as [->|_].
    - destruct (Hb r st (MNum NMinus)) as (n & Hr & Hn); [right; right; reflexivity | exact H |].
      exists n. split; [|exact Hn]. destruct Hm as [ -> | -> ]; exact Hr.
    - destruct Hm as [ -> | -> ]; apply Hb; try exact H; [left | right; left]; reflexivity. }
  destruct Hgo as (n & Hr & Hn). exists (MNum n, st). split; [exact Hr|].
  right. exists st, n. auto.
Qed.

Lemma int_text_value v : is_int_text v = true -> json_value v.
Proof.
  destruct v as [|c r]; [discriminate|]. cbn [is_int_text]. intros H.
  apply (signed_number_value is_nat_text); [|destruct (c =? 45); exact H].
  intros u st m Hm Hu. destruct (nat_text_run u st m Hm Hu) as (n & Hr & [ -> | -> ]); eauto.
Qed.

Lemma exact_run_value v :
  (forall q st, q = (MValue, st) \/ q = (MArrStart, st) -> jrun v q = Some (MAfter, st)) -> json_value v.
Proof.
  intros Hv q q' Hq. destruct (hole_value_start _ _ Hq) as (st & Hm & ->).
  exists (MAfter, st). split; [exact (Hv q st Hm) | apply sim_refl].
Qed.

Lemma bool_text_value (b : bool) :
  json_value (if b then [116; 114; 117; 101] else [102; 97; 108; 115; 101]).
Proof. apply exact_run_value. intros q st [ -> | -> ]; destruct b; reflexivity. Qed.

Lemma string_token_value v :
  (forall q k st, string_start q = Some (k, st) -> jrun v q = Some (string_end k st)) -> json_value v.
Proof.
  intros Hv. apply exact_run_value. intros q st Hm.
  apply (Hv q false st). destruct Hm as [ -> | -> ]; reflexivity.
Qed.

Lemma json_string_value s : json_value (json_string s).
Proof. apply string_token_value, json_string_run. Qed.

Lemma value_hole_run v q q' : json_value v -> hole_value q = Some q' -> runs v q q'.
Proof.
  (* only "value completed" stands for anything but itself, and no value may start there *)
  intros Hv Hq qc [->|(st & n & -> & _)]; [exact (Hv _ _ Hq) | discriminate Hq].
Qed.

Lemma runs_value v : (forall q q', hole_value q = Some q' -> runs v q q') -> json_value v.
Proof. intros H q q' Hq. exact (H q q' Hq q (sim_refl q)). Qed.

Lemma string_hole_run s q q' : hole_string q = Some q' -> runs (json_string s) q q'.
Proof.
  intros Hq. apply run_sim.
  assert (E : exists k st, string_start q = Some (k, st) /\ q' = string_end k st).
  { destruct q as [[] st]; inversion Hq; subst; eexists _, _; split; reflexivity. }
  destruct E as (k & st & E & ->). apply json_string_run, E.
Qed.

Lemma text_hole_run v q q' : string_safe v = true -> hole_text q = Some q' -> runs v q q'.
Proof.
  intros Hv Hq. apply run_sim.
  destruct q as [[| | | | |k []| | |] st]; inversion Hq; subst. apply safe_run, string_safe_Forall, Hv.
Qed.

Lemma trun_alt a b q q' : trun (Alt a b) q = Some q' -> trun a q = Some q' /\ trun b q = Some q'.
Proof.
  cbn [trun]. destruct (trun a q) as [x|]; [|discriminate]. destruct (trun b q) as [y|]; [|discriminate].
  destruct (jstate_eqb x y) eqn:E; [|discriminate]. apply jstate_eqb_eq in E. subst y.
  intros H. inversion H; subst. auto.
Qed.

Lemma trun_star a q q' : trun (Star a) q = Some q' -> q' = q /\ trun a q = Some q.
Proof.
  cbn [trun]. destruct (trun a q) as [x|]; [|discriminate].
  destruct (jstate_eqb x q) eqn:E; [|discriminate]. apply jstate_eqb_eq in E. subst x.
  intros H. inversion H; subst. auto.
Qed.

Lemma trun_sound t v : inst t v -> forall q q', trun t q = Some q' -> runs v q q'.
Proof.
  induction 1 as [s|s|v Hv|v|b|v Hv|v Hv|v Hv|a b x y Ha IHa Hb IHb|a b x Ha IHa|a b y Hb IHb|a|a x y Ha IHa Hs IHs];
    intros q q' Ht.
  - (* Lit *) apply run_sim, Ht.
  - (* HStr *) apply string_hole_run, Ht.
  - (* HInt *) exact (value_hole_run _ _ _ (int_text_value _ Hv) Ht).
  - (* HFloat *) discriminate.
  - (* HBool *) exact (value_hole_run _ _ _ (bool_text_value b) Ht).
  - (* HDur *) exact (text_hole_run _ _ _ Hv Ht).
  - (* HRaw *) exact (text_hole_run _ _ _ Hv Ht).
  - (* HJson *) exact (value_hole_run _ _ _ Hv Ht).
  - (* Seq *)
    cbn [trun] in Ht. destruct (trun a q) as [q1|] eqn:E1; [|discriminate].
    exact (runs_app _ _ _ _ _ (IHa _ _ E1) (IHb _ _ Ht)).
  - (* Alt, left *) apply IHa, (trun_alt _ _ _ _ Ht).
  - (* Alt, right *) apply IHb, (trun_alt _ _ _ _ Ht).
  - (* Star, no iteration *) destruct (trun_star _ _ _ Ht) as [-> _]. apply (run_sim []). reflexivity.
  - (* Star, one more iteration: the loop starts again in the state it was entered in *)
    destruct (trun_star _ _ _ Ht) as [-> E1].
    exact (runs_app _ _ _ _ _ (IHa _ _ E1) (IHs _ _ Ht)).
Qed.

(* what each of the checker's tests (whole reply, members, elements) establishes *)
Lemma checked_runs t q q' v :
  match trun t q with Some x => jstate_eqb x q' | None => false end = true -> inst t v -> runs v q q'.
Proof.
  intros Hok Hi. destruct (trun t q) as [x|] eqn:E; [|discriminate].
  apply jstate_eqb_eq in Hok. subst x. exact (trun_sound t v Hi _ _ E).
Qed.

Theorem tmpl_ok_sound_proof : forall t,
  tmpl_ok t = true -> forall v, inst t v -> valid_json v = true.
Proof. intros t Hok v Hi. exact (runs_valid v (checked_runs t _ _ v Hok Hi)). Qed.

(* fragments: a helper that appends members to an open object / elements to an open array keeps
   the enclosing structure and every string literal balanced *)
Theorem tmpl_members_sound_proof : forall t,
  tmpl_members_ok t = true -> forall v, inst t v ->
  exists qc, jrun v (MAfter, [FObj]) = Some qc /\ sim (MAfter, [FObj]) qc.
Proof. intros t Hok v Hi. exact (checked_runs t _ _ v Hok Hi _ (sim_refl _)). Qed.

Theorem tmpl_elems_sound_proof : forall t,
  tmpl_elems_ok t = true -> forall v, inst t v ->
  exists qc, jrun v (MAfter, [FArr]) = Some qc /\ sim (MAfter, [FArr]) qc.
Proof. intros t Hok v Hi. exact (checked_runs t _ _ v Hok Hi _ (sim_refl _)). Qed.

Lemma tmpl_head_prefix t v : inst t v -> forall s, tmpl_head t = Some s -> hasPrefix s v.
Proof.
  induction 1 as [s|s|v Hv|v|b|v Hv|v Hv|v Hv|a b x y Ha IHa Hb IHb|a b x Ha IHa|a b y Hb IHb|a|a x y Ha IHa Hs IHs];
    cbn [tmpl_head]; intros s0 Hs0; try discriminate.
  - inversion Hs0; subst. exists []. rewrite app_nil_r. reflexivity.
  - destruct (IHa _ Hs0) as [r Hr]. exists (r ++ y). rewrite Hr, app_assoc. reflexivity.
Qed.

Theorem has_ok_head_sound_proof : forall t,
  has_ok_head t = true -> forall v, inst t v ->
  hasPrefix ok_true_prefix v \/ hasPrefix ok_false_prefix v.
Proof.
  intros t H v Hi. unfold has_ok_head in H.
  destruct (tmpl_head t) as [s|] eqn:E; [|discriminate].
  destruct (tmpl_head_prefix t v Hi s E) as [r Hr].
  apply orb_true_iff in H. destruct H as [H|H]; apply hasPrefixb_spec in H; destruct H as [r' Hr'];
    [left|right]; exists (r' ++ r); rewrite Hr, Hr', app_assoc; reflexivity.
Qed.

(* a fragment accepted by frag_ok is, for every instance, a legal continuation of a JSON text in
   at least one of the listed contexts *)
Theorem frag_ok_sound_proof : forall t,
  frag_ok t = true ->
  exists q q', In q frag_starts /\
    forall v, inst t v -> exists qc', jrun v q = Some qc' /\ sim q' qc'.
Proof.
  intros t H. unfold frag_ok in H. apply existsb_exists in H. destruct H as (q & Hin & Hq).
  destruct (trun t q) as [q'|] eqn:E; [|discriminate].
  exists q, q'. split; [exact Hin|]. intros v Hi.
  exact (trun_sound t v Hi _ _ E _ (sim_refl _)).
Qed.
