(* C17 — the WebSocket frame written for a payload decodes back to that payload, for every length. *)
From Coq Require Import ZifyN ZifyNat ZifyBool.
From T38 Require Import Base.Bytes Base.ListFacts Model.WsFrame.
Open Scope N_scope.

Lemma be_val_be_bytes k : forall n acc,
  be_val (be_bytes k n) acc = acc * 256 ^ N.of_nat k + n mod 256 ^ N.of_nat k.
Proof.
  induction k as [|k IH]; intros n acc.
  - cbn [be_bytes be_val]. change (N.of_nat 0) with 0. rewrite N.pow_0_r, N.mod_1_r. lia.
  - cbn [be_bytes be_val]. rewrite IH.
    replace (N.of_nat (S k)) with (N.succ (N.of_nat k)) by lia.
    rewrite N.pow_succ_r by lia.
    set (B := 256 ^ N.of_nat k).
    assert (HB : B <> 0) by (apply N.pow_nonzero; lia).
    replace (256 * B) with (B * 256) by lia.
    rewrite (N.mod_mul_r n B 256) by lia. ring.
Qed.

Lemma be_bytes_length k n : length (be_bytes k n) = k.
Proof. induction k; cbn; auto. Qed.

Lemma firstn_be k n p : firstn k (be_bytes k n ++ p) = be_bytes k n.
Proof. rewrite <- (be_bytes_length k n) at 1. apply firstn_app_exact. Qed.

Lemma skipn_be k n p : skipn k (be_bytes k n ++ p) = p.
Proof. rewrite <- (be_bytes_length k n) at 1. apply skipn_app_exact. Qed.

(* the 16- and 64-bit arms of ws_decode, after the two header bytes: a k-byte length that is not
   below the least length [least] that needs this form, then exactly that many bytes *)
Definition ext_arm (k : nat) (least : N) (r : bytes) : option bytes :=
  if (length r <? k)%nat then None
  else let n := be_val (firstn k r) 0 in
       let p := skipn k r in
       if n <? least then None else if N.of_nat (length p) =? n then Some p else None.

Lemma ext_length_read k least n p : N.of_nat (length p) = n -> n < 256 ^ N.of_nat k -> least <= n ->
  ext_arm k least (be_bytes k n ++ p) = Some p.
Proof.
  intros Hp Hn Hl. unfold ext_arm. rewrite firstn_be, skipn_be, be_val_be_bytes, N.mod_small by exact Hn.
  replace (length (be_bytes k n ++ p) <? k)%nat with false
    by (symmetry; apply Nat.ltb_ge; rewrite app_length, be_bytes_length; lia).
  cbn [N.mul N.add]. destruct (N.ltb_spec n least); [lia|]. rewrite Hp, N.eqb_refl. reflexivity.
Qed.

(* Go's len() is an int: below 2^63 *)
Theorem ws_frame_roundtrip_proof : forall payload,
  N.of_nat (length payload) < 2 ^ 63 -> ws_decode (ws_frame payload) = Some payload.
Proof.
  intros p Hlen. unfold ws_frame, ws_header.
  set (n := N.of_nat (length p)) in *.
  destruct (N.leb_spec n 125) as [H1|H1].
  - cbn [app ws_decode]. change (129 =? 129) with true. cbn [negb].
    destruct (N.leb_spec n 125); [|lia]. fold n. rewrite N.eqb_refl. reflexivity.
  - destruct (N.leb_spec n 65535) as [H2|H2].
    + change (ext_arm 2 126 (be_bytes 2 n ++ p) = Some p).
      apply ext_length_read; [reflexivity | change (256 ^ N.of_nat 2) with 65536 |]; lia.
    + change (ext_arm 8 65536 (be_bytes 8 n ++ p) = Some p).
      assert (H64 : 2 ^ 63 < 256 ^ N.of_nat 8) by (vm_compute; reflexivity).
      apply ext_length_read; [reflexivity | |]; lia.
Qed.

(* the off-by-one variant (<= 126 in the first test) does not round-trip: a 126 byte payload *)
Definition ws_header_126 (n : N) : bytes :=
  if n <=? 126 then [129; n]
  else if n <=? 65535 then 129 :: 126 :: be_bytes 2 n
  else 129 :: 127 :: be_bytes 8 n.

