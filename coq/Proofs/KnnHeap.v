(* C13 — the transcribed binary heap (Model/Knn.v heap_push / heap_pop) is a correct min-queue:
   queue_ok heap_inv heap_push heap_pop.  Array-heap invariant through sift_up / sift_down. *)
From Coq Require Import List NArith ZArith Bool Lia ZifyN ZifyNat ZifyBool Sorted Permutation PeanoNat.
From T38 Require Import Model.Cursor Model.Knn Proofs.CursorProofs Proofs.KnnProofs.
Import ListNotations.

Section Heap.
  Context {I R : Type}.
  Notation qnode := (@qnode I R).
  Notation queue := (@queue I R).

  Definition kz (l : queue) (i : nat) : Z :=
    match nth_error l i with Some x => fst x | None => 0%Z end.

  Lemma key_at_some (l : queue) i : (i < length l)%nat -> key_at l i = Some (kz l i).
  Proof.
    intros H. unfold key_at, kz. destruct (nth_error l i) eqn:E; [reflexivity|].
    apply nth_error_None in E. lia.
  Qed.
  Lemma key_at_none (l : queue) i : (length l <= i)%nat -> key_at l i = None.
  Proof. intros H. unfold key_at. apply nth_error_None in H. now rewrite H. Qed.

  Lemma set_nth_length (l : queue) i x : length (set_nth l i x) = length l.
  Proof. revert i. induction l as [|y r IH]; intros [|i]; cbn; auto. Qed.

  Lemma nth_error_set_nth (l : queue) i x j :
    (i < length l)%nat ->
    nth_error (set_nth l i x) j = if Nat.eqb j i then Some x else nth_error l j.
  Proof.
    revert i j. induction l as [|y r IH]; intros i j H; [cbn in H; lia|].
    destruct i as [|i], j as [|j]; cbn [set_nth nth_error Nat.eqb]; try reflexivity.
    apply IH. cbn in H. lia.
  Qed.

  Lemma swap_nth_length (l : queue) i j : length (swap_nth l i j) = length l.
  Proof.
    unfold swap_nth. destruct (nth_error l i), (nth_error l j); try reflexivity.
    now rewrite !set_nth_length.
  Qed.

  Lemma nth_error_swap (l : queue) i j k :
    (i < length l)%nat -> (j < length l)%nat ->
    nth_error (swap_nth l i j) k =
      if Nat.eqb k j then nth_error l i else if Nat.eqb k i then nth_error l j else nth_error l k.
  Proof.
    intros Hi Hj. unfold swap_nth.
    destruct (nth_error l i) as [a|] eqn:Ei; [|apply nth_error_None in Ei; lia].
    destruct (nth_error l j) as [b|] eqn:Ej; [|apply nth_error_None in Ej; lia].
    rewrite nth_error_set_nth by (rewrite set_nth_length; lia).
    destruct (Nat.eqb k j) eqn:E1; [reflexivity|].
    rewrite nth_error_set_nth by lia. reflexivity.
  Qed.

  Lemma kz_swap (l : queue) i j k :
    (i < length l)%nat -> (j < length l)%nat ->
    kz (swap_nth l i j) k = if Nat.eqb k j then kz l i else if Nat.eqb k i then kz l j else kz l k.
  Proof.
    intros Hi Hj. unfold kz. rewrite nth_error_swap by assumption.
    destruct (Nat.eqb k j); [reflexivity|]. destruct (Nat.eqb k i); reflexivity.
  Qed.

  (* overwriting the entry a at i with b: trade an a for a b *)
  Lemma set_nth_perm_cons : forall (l : queue) i a b,
    nth_error l i = Some a -> Permutation (b :: l) (a :: set_nth l i b).
  Proof.
    induction l as [|y r IH]; intros [|i] a b H; try discriminate; cbn [nth_error set_nth] in *.
    - injection H as ->. apply perm_swap.
    - etransitivity; [apply perm_swap|]. etransitivity; [apply perm_skip, (IH i a b H) | apply perm_swap].
  Qed.

  Lemma set_nth_perm_swap : forall (l : queue) i j a b,
    nth_error l i = Some a -> nth_error l j = Some b ->
    Permutation (set_nth (set_nth l i b) j a) l.
  Proof.
    intros l i j a b Hi Hj.
    assert (Hj' : nth_error (set_nth l i b) j = Some b).
    { rewrite nth_error_set_nth by (apply nth_error_Some; congruence).
      destruct (Nat.eqb j i); [reflexivity | exact Hj]. }
    apply (Permutation_cons_inv (a := b)).
    etransitivity; [symmetry; exact (set_nth_perm_cons _ j b a Hj')|].
    symmetry. exact (set_nth_perm_cons l i a b Hi).
  Qed.

  Lemma swap_nth_perm (l : queue) i j : Permutation (swap_nth l i j) l.
  Proof.
    unfold swap_nth. destruct (nth_error l i) as [a|] eqn:Ei; [|reflexivity].
    destruct (nth_error l j) as [b|] eqn:Ej; [|reflexivity].
    now apply set_nth_perm_swap.
  Qed.

  Lemma sift_up_perm : forall fuel (l : queue) i, Permutation (sift_up fuel l i) l.
  Proof.
    induction fuel as [|fuel IH]; intros l i; cbn [sift_up]; [reflexivity|].
    destruct (Nat.eqb i 0); [reflexivity|].
    destruct (key_at l (Nat.div (i - 1) 2)); [|reflexivity].
    destruct (key_at l i); [|reflexivity].
    destruct (z0 <? z)%Z; [|reflexivity].
    rewrite IH. apply swap_nth_perm.
  Qed.

  (* one comparison of pop's loop: the candidate c replaces s when it exists and its key is not larger *)
  Definition pick (l : queue) (c s : nat) : nat :=
    match key_at l c, key_at l s with
    | Some kc, Some ks => if (kc <=? ks)%Z then c else s
    | _, _ => s
    end.

  (* the index one round of the loop settles on: i or one of its children *)
  Definition smallest (l : queue) (i : nat) : nat := pick l (i * 2 + 2) (pick l (i * 2 + 1) i).

  Lemma sift_down_S fuel (l : queue) i :
    sift_down (S fuel) l i =
    if Nat.eqb (smallest l i) i then l else sift_down fuel (swap_nth l (smallest l i) i) (smallest l i).
  Proof. reflexivity. Qed.

  Lemma pick_spec (l : queue) c s : (s < length l)%nat ->
    (kz l (pick l c s) <= kz l s)%Z /\
    ((c < length l)%nat -> (kz l (pick l c s) <= kz l c)%Z) /\
    (pick l c s = s \/ pick l c s = c /\ c < length l)%nat.
  Proof.
    intros Hs. unfold pick. rewrite (key_at_some l s Hs).
    destruct (le_lt_dec (length l) c) as [Hc|Hc]; [rewrite (key_at_none l c Hc); lia|].
    rewrite (key_at_some l c Hc). destruct (Z.leb_spec (kz l c) (kz l s)); lia.
  Qed.

  Lemma smallest_spec (l : queue) i : (i < length l)%nat ->
    let s := smallest l i in
    (kz l s <= kz l i)%Z /\
    ((i * 2 + 1 < length l)%nat -> (kz l s <= kz l (i * 2 + 1))%Z) /\
    ((i * 2 + 2 < length l)%nat -> (kz l s <= kz l (i * 2 + 2))%Z) /\
    (s = i \/ (s = i * 2 + 1 \/ s = i * 2 + 2) /\ s < length l)%nat.
  Proof.
    intros Hin. unfold smallest. cbv zeta.
    destruct (pick_spec l (i * 2 + 1) i Hin) as (A1 & A2 & A3).
    set (s1 := pick l (i * 2 + 1) i) in *.
    destruct (pick_spec l (i * 2 + 2) s1) as (B1 & B2 & B3); lia.
  Qed.

  Lemma smallest_out (l : queue) i : (length l <= i)%nat -> smallest l i = i.
  Proof.
    intros H. unfold smallest, pick. now rewrite (key_at_none l (i * 2 + 1)), (key_at_none l (i * 2 + 2)) by lia.
  Qed.

  Lemma sift_down_perm : forall fuel (l : queue) i, Permutation (sift_down fuel l i) l.
  Proof.
    induction fuel as [|fuel IH]; intros l i; [reflexivity|].
    rewrite sift_down_S. destruct (Nat.eqb (smallest l i) i); [reflexivity|].
    rewrite IH. apply swap_nth_perm.
  Qed.

  Definition parent (j : nat) : nat := Nat.div (j - 1) 2.
  Definition heap_inv (l : queue) : Prop :=
    forall j, (0 < j < length l)%nat -> (kz l (parent j) <= kz l j)%Z.

  Lemma parent_lt j : (0 < j)%nat -> (parent j < j)%nat.
  Proof. unfold parent. lia. Qed.

  Lemma heap_root_min (l : queue) : heap_inv l -> forall j, (j < length l)%nat -> (kz l 0 <= kz l j)%Z.
  Proof.
    intros H j. induction j as [j IH] using lt_wf_ind. intros Hj.
    destruct (Nat.eq_dec j 0) as [->|Hn]; [lia|].
    assert (Hp : (parent j < j)%nat) by (apply parent_lt; lia).
    specialize (IH (parent j) Hp ltac:(lia)). specialize (H j ltac:(lia)). lia.
  Qed.

  (* heap everywhere except that entry i may be smaller than its parent; its children are
     already above its parent *)
  Definition up_inv (l : queue) (i : nat) : Prop :=
    (forall j, (0 < j < length l)%nat -> j <> i -> (kz l (parent j) <= kz l j)%Z) /\
    (forall j, (0 < j < length l)%nat -> parent j = i -> (0 < i)%nat -> (kz l (parent i) <= kz l j)%Z).

  Lemma sift_up_inv : forall fuel (l : queue) i,
    (i < length l)%nat -> (i < fuel)%nat -> up_inv l i -> heap_inv (sift_up fuel l i).
  Proof.
    induction fuel as [|fuel IH]; intros l i Hi Hf [H1 H2]; [lia|].
    cbn [sift_up]. destruct (Nat.eqb_spec i 0) as [->|Hn].
    - intros j Hj. apply H1; lia.
    - fold (parent i).
      assert (Hp : (parent i < i)%nat) by (apply parent_lt; lia).
      assert (Hpl : (parent i < length l)%nat) by lia.
      rewrite (key_at_some l (parent i)) by lia. rewrite (key_at_some l i) by lia.
      destruct (Z.ltb_spec (kz l i) (kz l (parent i))) as [Hlt|Hge].
      + apply IH; [rewrite swap_nth_length; lia | lia |]. clear IH.
        split.
        * intros j Hj Hne. rewrite swap_nth_length in Hj.
          rewrite !kz_swap by assumption.
          destruct (Nat.eqb_spec j i) as [->|Hji].
          -- (* j = i: now holds the old parent's key; its parent is parent i = the moved entry *)
             destruct (Nat.eqb_spec (parent i) i); [lia|].
             rewrite Nat.eqb_refl. lia.
          -- destruct (Nat.eqb_spec j (parent i)); [lia|].
             destruct (Nat.eqb_spec (parent j) i) as [Ep|Ep].
             ++ (* parent j = i: child of i; new key at i is old parent's key *)
                specialize (H2 j Hj Ep ltac:(lia)). lia.
             ++ destruct (Nat.eqb_spec (parent j) (parent i)) as [Eq|Eq].
                ** (* sibling of i: parent now holds kz l i < old parent key <= kz l j *)
                   specialize (H1 j Hj Hji). rewrite Eq in H1. lia.
                ** apply H1; assumption.
        * intros j Hj Hpj Hpos. rewrite swap_nth_length in Hj.
          rewrite !kz_swap by assumption.
          (* j is a child of parent i; grandparent g = parent (parent i) *)
          assert (Hg : (parent (parent i) < parent i)%nat) by (apply parent_lt; exact Hpos).
          destruct (Nat.eqb_spec (parent (parent i)) i); [lia|].
          destruct (Nat.eqb_spec (parent (parent i)) (parent i)); [lia|].
          assert (Hgp : (kz l (parent (parent i)) <= kz l (parent i))%Z) by (apply H1; lia).
          destruct (Nat.eqb_spec j i) as [->|Hji]; [lia|].
          destruct (Nat.eqb_spec j (parent i)); [pose proof (parent_lt j); lia|].
          specialize (H1 j Hj Hji). rewrite Hpj in H1. lia.
      + (* no swap: the heap property holds at i too *)
        intros j Hj. destruct (Nat.eq_dec j i) as [->|Hji]; [lia|]. now apply H1.
  Qed.

  Lemma kz_app_l (q : queue) e j : (j < length q)%nat -> kz (q ++ [e]) j = kz q j.
  Proof. intros H. unfold kz. now rewrite nth_error_app1. Qed.

  Lemma heap_push_inv (q : queue) e : heap_inv q -> heap_inv (heap_push q e).
  Proof.
    intros H. unfold heap_push.
    assert (Hlen : length (q ++ [e]) = S (length q)) by (rewrite app_length; cbn; lia).
    rewrite Hlen. replace (S (length q) - 1)%nat with (length q) by lia.
    apply sift_up_inv; [lia | lia |].
    split.
    - intros j Hj Hne. rewrite Hlen in Hj.
      assert (Hp : (parent j < j)%nat) by (apply parent_lt; lia).
      rewrite !kz_app_l by lia. apply H. lia.
    - intros j Hj Hpj _. rewrite Hlen in Hj. pose proof (parent_lt j). lia.
  Qed.

  (* heap everywhere except that entry i may be larger than its children; its children are
     already above its parent *)
  Definition down_inv (l : queue) (i : nat) : Prop :=
    (forall j, (0 < j < length l)%nat -> parent j <> i -> (kz l (parent j) <= kz l j)%Z) /\
    (forall j, (0 < j < length l)%nat -> parent j = i -> (0 < i)%nat -> (kz l (parent i) <= kz l j)%Z).

  Lemma parent_child j i : (0 < j)%nat -> parent j = i <-> (j = i * 2 + 1 \/ j = i * 2 + 2)%nat.
  Proof. unfold parent. intros H. split; lia. Qed.

  Lemma sift_down_inv : forall fuel (l : queue) i,
    (length l - i <= fuel)%nat -> down_inv l i -> heap_inv (sift_down fuel l i).
  Proof.
    induction fuel as [|fuel IH]; intros l i Hf [D1 D2].
    { cbn [sift_down]. intros j Hj. apply D1; [exact Hj|]. pose proof (parent_lt j). lia. }
    rewrite sift_down_S.
    destruct (le_lt_dec (length l) i) as [Hout|Hin].
    { (* i is outside: nothing to do *)
      rewrite (smallest_out l i Hout), Nat.eqb_refl.
      intros j Hj. apply D1; [exact Hj|]. pose proof (parent_lt j). lia. }
    pose proof (smallest_spec l i Hin) as Hs. cbv zeta in Hs.
    destruct Hs as (Hmi & Hml & Hmr & Hwhich). revert Hmi Hml Hmr Hwhich.
    generalize (smallest l i). intros s2 Hmi Hml Hmr Hwhich.
    destruct (Nat.eqb_spec s2 i) as [Ei|Ei].
    - (* nothing to swap: i is not above its children *)
      subst s2. intros j Hj.
      destruct (Nat.eq_dec (parent j) i) as [Ep|Ep]; [|now apply D1].
      rewrite Ep. apply parent_child in Ep; [|lia].
      destruct Ep as [->| ->]; [apply Hml | apply Hmr]; lia.
    - destruct Hwhich as [?|[Hc Hs2in]]; [contradiction|].
      assert (Hps2 : parent s2 = i) by (apply parent_child; lia).
      assert (Hgt : (i < s2)%nat) by lia.
      apply IH; [rewrite swap_nth_length; lia|]. clear IH.
      split.
      + intros j Hj Hpj. rewrite swap_nth_length in Hj. rewrite !kz_swap by assumption.
        destruct (Nat.eqb_spec j i) as [->|Hji].
        * (* j = i > 0: its parent is untouched *)
          pose proof (parent_lt i).
          destruct (Nat.eqb_spec (parent i) i); [lia|].
          destruct (Nat.eqb_spec (parent i) s2); [lia|].
          apply (D2 s2); [lia | exact Hps2 | lia].
        * destruct (Nat.eqb_spec j s2) as [->|Hjs].
          -- rewrite Hps2, Nat.eqb_refl. destruct (Nat.eqb_spec i s2); lia.
          -- destruct (Nat.eqb_spec (parent j) i) as [Ep|Ep].
             ++ (* the sibling of s2 *)
                apply parent_child in Ep; [|lia].
                destruct Ep as [->| ->]; [apply Hml | apply Hmr]; lia.
             ++ destruct (Nat.eqb_spec (parent j) s2); [contradiction|]. now apply D1.
      + intros j Hj Hpj Hpos. rewrite swap_nth_length in Hj. rewrite !kz_swap by assumption.
        rewrite Hps2, Nat.eqb_refl.
        pose proof (parent_lt j).
        destruct (Nat.eqb_spec j i); [lia|]. destruct (Nat.eqb_spec j s2); [lia|].
        rewrite <- Hpj. apply (D1 j); lia.
  Qed.

  Lemma heap_push_perm (q : queue) e : Permutation (heap_push q e) (e :: q).
  Proof. unfold heap_push. rewrite sift_up_perm. rewrite Permutation_app_comm. reflexivity. Qed.

  Lemma heap_all_ge_root (l : queue) y : heap_inv l -> In y l -> (kz l 0 <= fst y)%Z.
  Proof.
    intros H Hy. apply In_nth_error in Hy. destruct Hy as [j Hj].
    assert (Hlt : (j < length l)%nat) by (apply nth_error_Some; congruence).
    pose proof (heap_root_min l H j Hlt) as Hr. unfold kz at 2 in Hr. now rewrite Hj in Hr.
  Qed.

  Lemma heap_pop_last (n z : qnode) (front : queue) :
    heap_pop (n :: front ++ [z]) = Some (n, sift_down (S (length front)) (z :: front) 0).
  Proof.
    unfold heap_pop. change (n :: front ++ [z]) with ((n :: front) ++ [z]). rewrite last_last. cbn [set_nth app].
    change (z :: front ++ [z]) with ((z :: front) ++ [z]). now rewrite removelast_last.
  Qed.

  Lemma heap_pop_spec (q : queue) m q' :
    heap_inv q -> heap_pop q = Some (m, q') ->
    heap_inv q' /\ Permutation q (m :: q') /\ Forall (fun y : qnode => (fst m <= fst y)%Z) q'.
  Proof.
    intros H Hp. destruct q as [|n t]; [discriminate|].
    destruct t as [|z front _] using rev_ind.
    { injection Hp as <- <-. split; [intros j Hj; cbn in Hj; lia|]. split; [reflexivity|constructor]. }
    rewrite heap_pop_last in Hp. remember (sift_down _ _ _) as s eqn:Es in Hp. (* injection would unfold it *)
    injection Hp as <- <-. subst s.
    assert (Hperm : Permutation (n :: front ++ [z]) (n :: z :: front)).
    { apply perm_skip. symmetry. apply Permutation_cons_append. }
    split; [|split].
    - (* the last entry stands at the root; everything below the first level is as it was *)
      apply sift_down_inv; [cbn [length]; lia|]. split; [|lia].
      intros j Hj Hpj. pose proof (parent_lt j).
      assert (Hkz : forall x, (1 <= x < length (z :: front))%nat -> kz (z :: front) x = kz (n :: front ++ [z]) x).
      { intros [|x] Hx; [lia|]. unfold kz. cbn [nth_error length] in *. now rewrite nth_error_app1 by lia. }
      rewrite !Hkz by lia. apply H. cbn [length] in *. rewrite app_length. cbn [length]. lia.
    - rewrite Hperm. apply perm_skip. symmetry. apply sift_down_perm.
    - rewrite Forall_forall. intros y Hy. apply (heap_all_ge_root _ y H).
      eapply Permutation_in; [symmetry; exact Hperm|]. right.
      eapply Permutation_in; [apply sift_down_perm|exact Hy].
  Qed.

  Theorem heap_queue_ok : queue_ok heap_inv heap_push heap_pop.
  Proof.
    split; [|split; [|split]].
    - intros j Hj. cbn in Hj. lia.
    - intros q e H. split; [now apply heap_push_inv | apply heap_push_perm].
    - intros q _ H. destruct q; [reflexivity | discriminate].
    - intros q m q' H Hp. now apply heap_pop_spec.
  Qed.
End Heap.
