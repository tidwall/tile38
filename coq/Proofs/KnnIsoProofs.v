(* C13 — no mutation of a collection can interleave with a kNN traversal (Model/KnnIso.v), proved
   over the regenerated tables for EVERY command string and every sub-command of every script
   variant; and what that buys: under any schedule of lock-protected writers and NEARBY traversals,
   each traversal runs on one tree — the tree after a complete prefix of the log — so the theorems
   of Props/C13.v apply to it. *)
From Coq Require Import String List Bool ZArith Sorted Permutation.
From T38 Require Import Base.ListFacts Model.Tables Gen.LockTable Gen.Dispatch Gen.ScriptTables Gen.Mutators Model.Gate
  Model.KnnIso.
From T38 Require Import Model.Cursor Model.Knn Proofs.KnnProofs Model.Conc Proofs.ConcProofs.
From T38 Require Import Proofs.GateProofs.
Import ListNotations.
Open Scope string_scope.

Lemma lift_dispatch (hs : list handler) (P : string -> bool) :
  forallb P (map h_cmd hs) = true ->
  (forall c, find_handler hs c = None -> P c = true) ->
  forall c, P c = true.
Proof.
  intros Hall Hnone. apply (GateProofs.lift_dispatch hs P Hall). intros c _. apply Hnone.
Qed.

(* whatever arm a command falls into: if the arm logs, writeAOF (fence evaluation included) is
   isolated under the arm's lock *)
Lemma lock_arms_writeaof_isolated :
  forallb (fun a => if a_write a then handler_isolated (a_lock a) "writeAOF" else true)
          (t_default lock_table :: t_arms lock_table) = true.
Proof. vm_compute. reflexivity. Qed.

Lemma cmd_isolated_all : forall c, cmd_isolated c = true.
Proof.
  apply (lift_dispatch dispatch).
  - vm_compute. reflexivity.
  - intros c Hn. unfold cmd_isolated. rewrite Hn. cbn [andb].
    exact (arm_of_all lock_table _ lock_arms_writeaof_isolated c).
Qed.

(* the readable form: a mutation site reachable from the handler of c is under the exclusive lock, a
   traversal site under at least the shared lock, and that lock is held for the whole handler *)
Lemma cmd_sites_isolated c h m :
  find_handler dispatch c = Some h -> In m (fn_effects (h_fn h)) ->
  let held := held_throughout (a_lock (arm_of lock_table c)) (h_fn h) in
  (is_index_mut m = true -> is_excl (ctx_max held (m_ctx m)) = true) /\
  (is_traversal m = true -> at_least_shared (ctx_max held (m_ctx m)) = true).
Proof.
  intros Hh Hm held. pose proof (cmd_isolated_all c) as H. unfold cmd_isolated in H.
  rewrite Hh in H. apply andb_true_iff in H as [H _].
  unfold handler_isolated in H. rewrite forallb_forall in H. specialize (H m Hm).
  unfold site_isolated in H. apply andb_true_iff in H as [H1 H2]. fold held in H1, H2.
  split; intros E; [rewrite E in H1; exact H1 | rewrite E in H2; exact H2].
Qed.

(* the goroutines that do change collections (expiry sweep, follower) are seen by the table: not vacuous *)
Lemma goroutines_isolated_nonvacuous :
  existsb is_index_mut (fn_effects "backgroundExpiring") = true /\
  existsb is_index_mut (fn_effects "follow") = true.
Proof. vm_compute. split; reflexivity. Qed.

Lemma script_arms_writeaof_isolated :
  forallb (fun tl => forallb (fun a => if a_write a then handler_isolated (lock_max (snd tl) (a_lock a)) "writeAOF" else true)
                             (t_default (fst tl) :: t_arms (fst tl))) script_variants_held = true.
Proof. vm_compute. reflexivity. Qed.

Lemma script_cmd_isolated_all :
  forall t outer, In (t, outer) script_variants_held -> forall c, script_cmd_isolated t outer c = true.
Proof.
  intros t outer Ht. apply (lift_dispatch dispatch_script).
  - cbn in Ht. destruct Ht as [E|[E|[E|[]]]]; inversion E; subst; vm_compute; reflexivity.
  - intros c Hn. unfold script_cmd_isolated. rewrite Hn.
    destruct (in_strs c script_deny); [reflexivity|].
    destruct (a_reject (arm_of t c)) eqn:Er; try reflexivity. cbn [andb].
    pose proof script_arms_writeaof_isolated as H. rewrite forallb_forall in H.
    specialize (H _ Ht). cbn [fst snd] in H. exact (arm_of_all t _ H c).
Qed.

Lemma script_run_isolated t outer c e l w fn :
  In (t, outer) script_variants_held -> script_gate t c e = SRun l w fn ->
  handler_isolated (lock_max outer l) fn = true.
Proof.
  intros Ht Hg. apply script_gate_run in Hg as (Ed & Er & _ & -> & _ & h & Ef & ->).
  pose proof (script_cmd_isolated_all t outer Ht c) as H.
  unfold script_cmd_isolated in H. rewrite Ef, Ed, Er in H.
  apply andb_true_iff in H as [H _]. exact H.
Qed.

Section OneTree.
Variables I R : Type.
Variable d : I -> Z.
Variable lb : R -> Z.
Variable qinv : @queue I R -> Prop.
Variable qpush : @queue I R -> @qnode I R -> @queue I R.
Variable qpop : @queue I R -> option (@qnode I R * @queue I R).
Hypothesis Hq : queue_ok qinv qpush qpop.
Hypothesis Hnn : forall i, (0 <= d i)%Z.

(* the index of one collection, single-object updates of it (Collection.Set / Delete, an expiry), a
   write command = a sequence of them applied inside one exclusive section, a NEARBY = n visits of
   the tree inside one shared section *)
Variable micro : Type.
Variable apply : option (@tree I R) -> micro -> option (@tree I R).
Variable s0 : option (@tree I R).
Hypothesis H0 : root_ok d lb s0.
Hypothesis Hstep : forall s m, root_ok d lb s -> root_ok d lb (apply s m).

Lemma seq_state_ok l : root_ok d lb (seq_state _ micro apply s0 l).
Proof.
  unfold seq_state. apply fold_left_inv; [|exact H0]. intros s ms _. apply fold_left_inv. intros s' m _. apply Hstep.
Qed.

Lemma concurrent_nearby_one_tree prog sched :
  let g := Conc.run _ micro apply (Conc.init _ micro s0 prog) sched in
  forall seen, In seen (Conc.finished _ _ g) ->
  exists k, (k <= length (Conc.log _ _ g))%nat /\
    let t := seq_state _ micro apply s0 (firstn k (Conc.log _ _ g)) in
    (forall x, In x seen -> x = t) /\
    exists l, knn d lb qpush qpop t = Done l /\
              Permutation (map fst l) (root_items t) /\ emitted_ok d l /\ dist_sorted l.
Proof.
  cbn zeta. intros seen Hs.
  destruct (linearizable _ micro apply s0 prog sched) as [_ [J _]]. cbn zeta in J.
  destruct (J seen Hs) as [k [Hk Hx]]. exists k. split; [exact Hk|]. split; [exact Hx|].
  eapply knn_sorted; [exact Hq | exact Hnn | apply seq_state_ok].
Qed.
End OneTree.
