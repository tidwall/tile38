(* C13 — lemmas about Model/Knn.v: the best-first traversal emits every item once, in
   non-decreasing distance; the radius cut and LIMIT of cmdNearby are exact on that order. *)
From Coq Require Import List NArith ZArith Bool Lia ZifyN ZifyNat ZifyBool Sorted Permutation.
From T38 Require Import Base.ListFacts Model.Cursor Model.Knn Proofs.CursorProofs.
Import ListNotations.

Section KnnProofs.
  Context {I R : Type}.
  Variable d : I -> Z.      (* dist_item: the distance of an item (DISTANCE prints it) *)
  Variable lb : R -> Z.     (* dist_rect: the key a node rectangle gets in the queue *)

  Notation tree := (@tree I R).
  Notation qelem := (@qelem I R).
  Notation qnode := (@qnode I R).
  Notation queue := (@queue I R).

  Lemma pop_min_none (q : queue) : pop_min q = None -> q = [].
  Proof.
    destruct q as [|x r]; [reflexivity|]. cbn [pop_min].
    destruct (pop_min r) as [[m r']|]; [|discriminate].
    destruct (fst x <=? fst m)%Z; discriminate.
  Qed.

  Lemma pop_min_spec : forall (q : queue) m q',
    pop_min q = Some (m, q') ->
    Permutation q (m :: q') /\ Forall (fun y => (fst m <= fst y)%Z) q'.
  Proof.
    induction q as [|x r IH]; intros m q' H; [discriminate|].
    cbn [pop_min] in H. destruct (pop_min r) as [[m0 r']|] eqn:E.
    - destruct (IH m0 r' eq_refl) as [Hp Hf].
      destruct (fst x <=? fst m0)%Z eqn:C; injection H as <- <-.
      + split; [reflexivity|].
        rewrite Forall_forall in *. intros y Hy.
        assert (Hy' : In y (m0 :: r')) by (eapply Permutation_in; eauto).
        destruct Hy' as [<-|Hy']; [lia|]. specialize (Hf y Hy'). lia.
      + split.
        * etransitivity; [apply perm_skip; exact Hp|]. apply perm_swap.
        * constructor; [lia|exact Hf].
    - injection H as <- <-. apply pop_min_none in E. subst r. split; [reflexivity|constructor].
  Qed.

  Definition queue_ok (qinv : queue -> Prop)
      (qpush : queue -> qnode -> queue) (qpop : queue -> option (qnode * queue)) : Prop :=
    qinv [] /\
    (forall q e, qinv q -> qinv (qpush q e) /\ Permutation (qpush q e) (e :: q)) /\
    (forall q, qinv q -> qpop q = None -> q = []) /\
    (forall q m q', qinv q -> qpop q = Some (m, q') ->
       qinv q' /\ Permutation q (m :: q') /\ Forall (fun y : qnode => (fst m <= fst y)%Z) q').

  Lemma list_queue_ok : queue_ok (fun _ => True) list_push pop_min.
  Proof.
    split; [exact Logic.I|split; [|split]].
    - intros q e _. split; [exact Logic.I|]. unfold list_push. rewrite Permutation_app_comm. reflexivity.
    - intros q _. apply pop_min_none.
    - intros q m q' _ H. split; [exact Logic.I|]. now apply pop_min_spec.
  Qed.

  Variable qinv : queue -> Prop.
  Variable qpush : queue -> qnode -> queue.
  Variable qpop : queue -> option (qnode * queue).
  Hypothesis Hq : queue_ok qinv qpush qpop.

  Notation knn_order := (knn_order d lb qpush qpop).
  Notation knn_loop := (knn_loop d lb qpush qpop).
  Notation push_all := (push_all qpush).

  Lemma push_all_perm : forall es (q : queue),
    qinv q -> qinv (push_all q es) /\ Permutation (push_all q es) (es ++ q).
  Proof.
    destruct Hq as (_ & Hpush & _).
    induction es as [|e es IH]; intros q Hi; cbn [Knn.push_all fold_left app]; [split; [exact Hi|reflexivity]|].
    fold (push_all (qpush q e) es). destruct (Hpush q e Hi) as [Hi' Hp].
    destruct (IH _ Hi') as [Hi'' Hp']. split; [exact Hi''|].
    rewrite Hp', Hp. symmetry. apply Permutation_middle.
  Qed.

  Definition under (e : qelem) : list I :=
    match e with QItem i => [i] | QNode t => items_of t end.
  Definition q_items (q : queue) : list I := flat_map (fun ke : qnode => under (snd ke)) q.

  Lemma items_of_node (cs : list (R * tree)) :
    items_of (Node cs) = flat_map (fun rc => items_of (snd rc)) cs.
  Proof. induction cs as [|rc cs IH]; [reflexivity|]. cbn in *. now rewrite IH. Qed.

  Lemma tsize_node (cs : list (R * tree)) :
    tsize (Node cs) = S (list_sum (map (fun rc => tsize (snd rc)) cs)).
  Proof.
    induction cs as [|rc cs IH]; [reflexivity|]. cbn in *. injection IH as IH. now rewrite IH.
  Qed.

  Lemma qsize_cons (ke : qnode) (q : queue) : qsize (ke :: q) = (esize (snd ke) + qsize q)%nat.
  Proof. reflexivity. Qed.

  Lemma qsize_app (a b : queue) : qsize (a ++ b) = (qsize a + qsize b)%nat.
  Proof. unfold qsize. rewrite map_app. apply list_sum_app. Qed.

  Lemma qsize_perm (a b : queue) : Permutation a b -> qsize a = qsize b.
  Proof. intros H. unfold qsize. now rewrite H. Qed.

  Lemma q_items_app (a b : queue) : q_items (a ++ b) = q_items a ++ q_items b.
  Proof. unfold q_items. apply flat_map_app. Qed.

  Lemma q_items_perm (a b : queue) : Permutation a b -> Permutation (q_items a) (q_items b).
  Proof. intros H. unfold q_items. now apply Permutation_flat_map. Qed.

  Definition expand (t : tree) : list qnode :=
    match t with
    | Leaf its => map (fun ri => (d (snd ri), QItem (snd ri))) its
    | Node cs => map (fun rc => (lb (fst rc), QNode (snd rc))) cs
    end.

  Lemma knn_order_S fuel (q : queue) :
    knn_order (S fuel) q =
    match qpop q with
    | None => Done []
    | Some ((k, QItem i), q') =>
        match knn_order fuel q' with Done l => Done ((i, k) :: l) | OutOfFuel => OutOfFuel end
    | Some ((_, QNode t), q') => knn_order fuel (push_all q' (expand t))
    end.
  Proof. cbn [Knn.knn_order]. destruct (qpop q) as [[[k [i|[its|cs]]] q']|]; reflexivity. Qed.

  Lemma knn_loop_S {S : Type} fuel (q : queue) (iter : S -> I -> Z -> S * bool) s :
    knn_loop (Datatypes.S fuel) q iter s =
    match qpop q with
    | None => Done s
    | Some ((k, QItem i), q') =>
        let '(s', keep) := iter s i k in if keep then knn_loop fuel q' iter s' else Done s'
    | Some ((_, QNode t), q') => knn_loop fuel (push_all q' (expand t)) iter s
    end.
  Proof. cbn [Knn.knn_loop]. destruct (qpop q) as [[[k [i|[its|cs]]] q']|]; reflexivity. Qed.

  Lemma expand_size t : S (qsize (expand t)) = tsize t.
  Proof.
    destruct t as [its|cs]; [|rewrite tsize_node]; unfold qsize, expand; rewrite map_map; cbn [snd esize tsize];
      [|reflexivity].
    f_equal. induction its as [|x r IH]; simpl; [reflexivity | now rewrite IH].
  Qed.

  Lemma expand_items t : q_items (expand t) = items_of t.
  Proof.
    destruct t as [its|cs]; [|rewrite items_of_node]; unfold q_items, expand.
    - induction its as [|x r IH]; cbn [map flat_map snd under app items_of] in *; [|rewrite IH]; reflexivity.
    - induction cs as [|x r IH]; cbn [map flat_map snd under]; [|rewrite IH]; reflexivity.
  Qed.

  (* the hypothesis on the keys: a node's key is a lower bound for every item under it *)
  Inductive lb_ok : tree -> Prop :=
  | lb_leaf its : lb_ok (Leaf its)
  | lb_node cs :
      Forall (fun rc : R * tree =>
                (forall i, In i (items_of (snd rc)) -> (lb (fst rc) <= d i)%Z) /\ lb_ok (snd rc)) cs ->
      lb_ok (Node cs).

  Definition e_ok (ke : qnode) : Prop :=
    match snd ke with
    | QItem i => fst ke = d i
    | QNode t => lb_ok t /\ forall i, In i (items_of t) -> (fst ke <= d i)%Z
    end.

  (* a lower bound of the keys in the queue is a lower bound of the distances of all items still to come *)
  Lemma q_items_ge (q : queue) b i :
    Forall e_ok q -> Forall (fun y : qnode => (b <= fst y)%Z) q -> In i (q_items q) -> (b <= d i)%Z.
  Proof.
    unfold q_items. rewrite !Forall_forall, in_flat_map. intros Hok Hb ([k e] & Hke & Hu).
    specialize (Hok _ Hke). specialize (Hb _ Hke). unfold e_ok in Hok. cbn [fst snd] in *.
    destruct e as [j|t]; [destruct Hu as [<-|[]] | apply Hok in Hu]; lia.
  Qed.

  Lemma expand_ok k t : e_ok (k, QNode t) -> Forall e_ok (expand t).
  Proof.
    intros [Hlb _]. apply Forall_forall. intros ke Hke.
    destruct Hlb as [its|cs Hcs]; apply in_map_iff in Hke as (x & <- & Hx); [reflexivity|].
    rewrite Forall_forall in Hcs. destruct (Hcs x Hx) as [H1 H2]. split; assumption.
  Qed.

  Definition emitted_ok (l : list (I * Z)) : Prop := Forall (fun p => snd p = d (fst p)) l.
  Definition dist_sorted (l : list (I * Z)) : Prop := StronglySorted (fun a b => (snd a <= snd b)%Z) l.

  Lemma knn_order_spec : forall fuel (q : queue),
    qinv q -> Forall e_ok q -> (qsize q < fuel)%nat ->
    exists l, knn_order fuel q = Done l /\
              Permutation (map fst l) (q_items q) /\ emitted_ok l /\ dist_sorted l.
  Proof.
    induction fuel as [|fuel IH]; intros q Hi Hok Hf; [lia|].
    destruct Hq as (_ & _ & Hnone & Hpop).
    rewrite knn_order_S. destruct (qpop q) as [[[k e] q']|] eqn:E.
    - destruct (Hpop _ _ _ Hi E) as (Hi' & Hp & Hmin).
      assert (Hok' : Forall e_ok ((k, e) :: q')) by (eapply Permutation_Forall; eauto).
      inversion Hok' as [|? ? He Hq']; subst.
      pose proof (qsize_perm _ _ Hp) as Hsz. rewrite qsize_cons in Hsz. cbn [snd] in Hsz.
      assert (Hitems : Permutation (q_items q) (under e ++ q_items q')) by exact (q_items_perm _ _ Hp).
      destruct e as [i|t]; cbn [esize] in Hsz.
      + (* an item leaves the queue: it is emitted with its key *)
        destruct (IH q' Hi' Hq') as (l & Hl & Hperm & Hem & Hs); [lia|].
        rewrite Hl. exists ((i, k) :: l). split; [reflexivity|]. split; [|split].
        * cbn [map fst]. rewrite Hitems. cbn [under app]. now apply perm_skip.
        * constructor; [exact He | exact Hem].
        * constructor; [exact Hs|].
          rewrite Forall_forall. intros p Hp'. cbn [snd].
          rewrite (proj1 (Forall_forall _ _) Hem p Hp'). apply (q_items_ge q' k _ Hq' Hmin).
          eapply Permutation_in; [exact Hperm|]. now apply in_map.
      + (* a node is replaced by what lies directly under it *)
        destruct (push_all_perm (expand t) q' Hi') as [Hi2 Hp2].
        destruct (IH (push_all q' (expand t)) Hi2) as (l & Hl & Hperm & Hem & Hs).
        { eapply Permutation_Forall; [symmetry; exact Hp2|].
          apply Forall_app. split; [exact (expand_ok k t He) | exact Hq']. }
        { rewrite (qsize_perm _ _ Hp2), qsize_app. pose proof (expand_size t). lia. }
        exists l. split; [exact Hl|]. split; [|split; assumption].
        rewrite Hperm, (q_items_perm _ _ Hp2), q_items_app, expand_items, Hitems. reflexivity.
    - apply (Hnone _ Hi) in E. subst q. exists []. repeat split; constructor.
  Qed.

  (* the caller's iterator sees exactly that order, until it says stop *)
  Fixpoint run_until {S : Type} (f : S -> I -> Z -> S * bool) (l : list (I * Z)) (s : S) : S :=
    match l with
    | [] => s
    | (i, k) :: r => let '(s', keep) := f s i k in if keep then run_until f r s' else s'
    end.

  Lemma knn_loop_run {S : Type} (f : S -> I -> Z -> S * bool) : forall fuel (q : queue) l s,
    knn_order fuel q = Done l -> knn_loop fuel q f s = Done (run_until f l s).
  Proof.
    induction fuel as [|fuel IH]; intros q l s H; [discriminate|].
    rewrite knn_order_S in H. rewrite knn_loop_S.
    destruct (qpop q) as [[[k [i|t]] q']|]; [| now apply IH |].
    - destruct (knn_order fuel q') as [l'|] eqn:E; [|discriminate]. injection H as <-.
      cbn [run_until]. destruct (f s i k) as [s' keep]. destruct keep; [|reflexivity].
      now apply IH.
    - injection H as <-. reflexivity.
  Qed.

  (* Collection.Nearby + cmdNearby + pushObject over that order = the pagination skeleton of C11 *)
  Lemma run_nearby_iter test maxd limit offset : forall l count w,
    snd (run_until (nearby_iter test maxd limit offset) l (count, w)) =
    iterate test (radius_stop maxd) limit offset l count w.
  Proof.
    induction l as [|[i k] r IH]; intros count w; [reflexivity|].
    cbn [run_until Cursor.iterate]. unfold nearby_iter at 1. cbn [fst snd].
    destruct (count + 1 <=? offset)%N; [apply IH|]. rewrite !next_step_eq.
    destruct (radius_stop maxd (i, k)); [reflexivity|].
    destruct (push_object test limit (sw_step w 1) (i, k)) as [w' keep].
    destruct keep; [apply IH | reflexivity].
  Qed.

  Definition root_items (root : option tree) : list I :=
    match root with None => [] | Some t => items_of t end.
  Definition root_ok (root : option tree) : Prop :=
    match root with None => True | Some t => lb_ok t end.

  Hypothesis Hnn : forall i, (0 <= d i)%Z.   (* distances are not negative (the root's key is 0) *)

  Lemma start_spec root : root_ok root ->
    let q := start_queue qpush root in qinv q /\ Forall e_ok q /\ Permutation (q_items q) (root_items root).
  Proof.
    destruct Hq as (H0 & Hpush & _). destruct root as [t|]; cbn [start_queue root_ok root_items]; intros H.
    - destruct (Hpush [] (0%Z, QNode t) H0) as [Hi Hp]. split; [exact Hi|]. split.
      + eapply Permutation_Forall; [symmetry; exact Hp|]. repeat constructor; [exact H | intros i _; apply Hnn].
      + rewrite (q_items_perm _ _ Hp). cbn. now rewrite app_nil_r.
    - repeat constructor. exact H0.
  Qed.

  Theorem knn_sorted root :
    root_ok root ->
    exists l, knn d lb qpush qpop root = Done l /\
              Permutation (map fst l) (root_items root) /\ emitted_ok l /\ dist_sorted l.
  Proof.
    intros H. unfold knn. destruct (start_spec root H) as (Hi & Hok & Hit).
    destruct (knn_order_spec _ _ Hi Hok (Nat.lt_succ_diag_r _)) as (l & H1 & H2 & H34).
    exists l. rewrite <- Hit. auto.
  Qed.

  Theorem nearby_query_page test root maxd cursor limit l :
    knn d lb qpush qpop root = Done l ->
    nearby_query d lb qpush qpop test root maxd cursor limit = Done (page test (radius_stop maxd) l cursor limit).
  Proof.
    unfold knn, nearby_query. intros H.
    rewrite (knn_loop_run _ _ _ _ _ H).
    pose proof (run_nearby_iter test maxd limit cursor l 0%N (sw_step (mkSW 0 0 false []) cursor)) as E.
    destruct (run_until _ l _) as [c w]. cbn [snd] in E. subst w. reflexivity.
  Qed.
  Lemma Permutation_filter {A} (f : A -> bool) (l1 l2 : list A) :
    Permutation l1 l2 -> Permutation (filter f l1) (filter f l2).
  Proof.
    induction 1 as [|x l1 l2 H IH|x y l|l1 l2 l3 H1 IH1 H2 IH2]; cbn [filter].
    - constructor.
    - destruct (f x); [now apply perm_skip | exact IH].
    - destruct (f x), (f y); try reflexivity. apply perm_swap.
    - etransitivity; eauto.
  Qed.

  Lemma map_fst_filter (r : Z) (l : list (I * Z)) :
    emitted_ok l -> map fst (filter (fun e => (snd e <=? r)%Z) l) = filter (fun i => (d i <=? r)%Z) (map fst l).
  Proof.
    induction 1 as [|p l Hp Hl IH]; [reflexivity|]. cbn [filter map]. rewrite <- Hp.
    destruct (snd p <=? r)%Z; cbn [map]; now rewrite IH.
  Qed.

  Section Query.
  Let all : I * Z -> bool := fun _ => true.

  (* LIMIT k, no radius, no filters: k items, none of the others is closer than any of them *)
  Theorem k_closest (root : option tree) k max_dist :
    root_ok root -> (1 <= k)%N -> (max_dist <= 0)%Z ->
    exists l res c,
      knn d lb qpush qpop root = Done l /\ nearby_query d lb qpush qpop all root max_dist 0 k = Done (res, c) /\
      Permutation (map fst l) (root_items root) /\ emitted_ok l /\
      res = firstn (N.to_nat k) l /\
      dist_sorted res /\
      (forall x y, In x res -> In y (skipn (N.to_nat k) l) -> (snd x <= snd y)%Z).
  Proof.
    intros Hok Hk Hm.
    destruct (knn_sorted root Hok) as (l & Hl & Hp & He & Hs).
    exists l. rewrite (nearby_query_page all root max_dist 0%N k l Hl).
    destruct (page all (radius_stop max_dist) l 0 k) as [res c] eqn:Ep.
    exists res, c. split; [exact Hl|]. split; [reflexivity|]. split; [exact Hp|]. split; [exact He|].
    assert (Hres : res = firstn (N.to_nat k) l).
    { (* no radius: the early exit never fires, and nothing is filtered *)
      pose proof (page_firstn all (radius_stop max_dist) l 0 k Hk) as H. rewrite Ep in H. cbn [fst] in H. rewrite H.
      unfold unlimited, rest_at. cbn [N.to_nat skipn]. rewrite until_stop_none, filter_all; auto.
      intros e _. unfold radius_stop. destruct (0 <? max_dist)%Z eqn:E; [lia|reflexivity]. }
    split; [exact Hres|].
    rewrite <- (firstn_skipn (N.to_nat k) l), <- Hres in Hs. destruct (SS_app_inv _ _ _ Hs) as (H1 & _ & H2). exact (conj H1 H2).
  Qed.

  (* a positive radius: the reply is exactly the items whose distance does not exceed it *)
  Theorem radius_exact (root : option tree) r limit :
    root_ok root -> (0 < r)%Z ->
    exists l,
      knn d lb qpush qpop root = Done l /\
      unlimited all (radius_stop r) l = filter (fun e => (snd e <=? r)%Z) l /\
      Permutation (map fst (unlimited all (radius_stop r) l))
                  (filter (fun i => (d i <=? r)%Z) (root_items root)) /\
      ((N.of_nat (length l) < limit)%N ->
       nearby_query d lb qpush qpop all root r 0 limit = Done (filter (fun e => (snd e <=? r)%Z) l, 0%N)).
  Proof.
    intros Hok Hr.
    destruct (knn_sorted root Hok) as (l & Hl & Hp & He & Hs).
    exists l. split; [exact Hl|].
    assert (Hu : unlimited all (radius_stop r) l = filter (fun e => (snd e <=? r)%Z) l).
    { unfold unlimited.
      rewrite (until_stop_monotone (fun a b : I * Z => (snd a <= snd b)%Z) (radius_stop r) l Hs).
      - rewrite filter_filter. apply filter_ext. intros e. unfold radius_stop, all.
        rewrite andb_true_r. destruct (0 <? r)%Z eqn:E; [|lia]. cbn [andb]. lia.
      - unfold radius_stop. intros x y Hxy Hx. lia. }
    split; [exact Hu|]. split.
    - rewrite Hu, (map_fst_filter r l He). apply Permutation_filter. exact Hp.
    - intros Hlim. rewrite (nearby_query_page all root r 0%N limit l Hl).
      rewrite (page_big_limit all (radius_stop r) l limit Hlim). now rewrite Hu.
  Qed.
  End Query.
End KnnProofs.
