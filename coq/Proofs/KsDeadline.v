(* Replaying a log at another frozen clock: same objects, same fields, same has-deadline flags
   (deadline values may differ), provided no argument of a logged command, read as seconds, lands
   exactly on deadline 0 (= "no deadline") at either clock. *)
From Coq Require Import String.
From Coq Require Import ZifyN ZifyNat ZifyBool Lia.
From T38 Require Import Base.Bytes Base.SMap Base.ListFacts Model.Field Model.Object Model.Glob Model.Spec Model.Keyspace
  Proofs.KsField Proofs.KsInv Proofs.KsRefine Proofs.KsProgram Proofs.KsReplay.
From T38 Require Model.Replay.

Definition flagz (z : Z) : Z := if (z =? 0)%Z then 0%Z else 1%Z.
Definition er_obj (o : obj) : obj := mkObj (o_id o) (o_geo o) (flagz (o_ex o)) (o_fields o).
Definition er_col (c : col) : col := smap_map er_obj c.
Definition er (s : state) : state := smap_map er_col s.

Definition erq (q : req) : req :=
  match q with
  | QSet k i f ex nx xx rs g => QSet k i f (flagz ex) nx xx rs g
  | QExpire k i ex => QExpire k i (flagz ex)
  | _ => q
  end.

Lemma flagz_idem z : flagz (flagz z) = flagz z.
Proof. unfold flagz. destruct (z =? 0)%Z; reflexivity. Qed.

Lemma flagz_zero z : (flagz z =? 0)%Z = (z =? 0)%Z.
Proof. unfold flagz. destruct (z =? 0)%Z; reflexivity. Qed.

Lemma er_get s k : get k (er s) = option_map er_col (get k s).
Proof. apply get_map. Qed.
Lemma er_set s k c : er (set k c s) = set k (er_col c) (er s).
Proof. apply set_map. Qed.
Lemma er_del s k : er (del k s) = del k (er s).
Proof. apply del_map. Qed.
Lemma erc_get c id : get id (er_col c) = option_map er_obj (get id c).
Proof. apply get_map. Qed.
Lemma erc_set c id o : er_col (set id o c) = set id (er_obj o) (er_col c).
Proof. apply set_map. Qed.
Lemma erc_del c id : er_col (del id c) = del id (er_col c).
Proof. apply del_map. Qed.
Lemma erc_length c : length (er_col c) = length c.
Proof. apply smap_map_length. Qed.

Lemma er_store_col s key c : er (store_col s key c) = store_col (er s) key (er_col c).
Proof.
  unfold store_col. rewrite erc_length. destruct (length c =? 0)%nat; [apply er_del | apply er_set].
Qed.

Lemma er_find s key id : find (er s) key id = option_map er_obj (find s key id).
Proof. unfold find. rewrite er_get. destruct (get key s); cbn; [apply erc_get | reflexivity]. Qed.

Lemma er_fold_del ids : forall c, er_col (fold_left (fun c id => del id c) ids c) = fold_left (fun c id => del id c) ids (er_col c).
Proof. induction ids as [|i ids IH]; intros c; cbn [fold_left]; [reflexivity|]. rewrite IH, erc_del. reflexivity. Qed.

Lemma er_keys_state (s : state) : keys (er s) = keys s.
Proof. apply keys_map. Qed.
Lemma erc_keys (c : col) : keys (er_col c) = keys c.
Proof. apply keys_map. Qed.

Lemma er_range_scan pat incl (c : col) : range_scan pat incl (er_col c) = er_col (range_scan pat incl c).
Proof. apply map_range_scan. Qed.

Lemma er_filter_keys (P : bytes -> bool) (c : col) :
  keys (filter (fun io => P (fst io)) (er_col c)) = keys (filter (fun io => P (fst io)) c).
Proof. rewrite !keys_filter, erc_keys. reflexivity. Qed.

Section Deadline.
Variable O : oracle.

(* what a request leaves behind: the state (seen through f) and whether the command is logged *)
Definition left_by (f : state -> state) (x : state * reply * bool) : state * bool := (f (fst (fst x)), snd x).

(* closes a branch in which both handlers have answered: the erasure goes through what was stored *)
Ltac er_done :=
  cbn [option_map];
  lazymatch goal with |- Some (left_by _ (_, _, _)) = Some (left_by _ (_, _, _)) => idtac end;
  unfold left_by; cbn [fst snd];
  rewrite ?er_store_col, ?er_set, ?erc_set, ?er_del, ?erc_del, ?er_fold_del;
  unfold er_obj; cbn [o_id o_geo o_ex o_fields]; reflexivity.

Lemma er_reenter e e0 (s : state) key (c : col) id o json :
  get key s = Some c -> get id c = Some o ->
  Some (left_by (fun s => s) (reenter_set O e0 (er s) key id json)) = Some (left_by er (reenter_set O e s key id json)).
Proof.
  intros Ek Eid. rewrite (reenter_existing O e s key c id o json Ek Eid).
  rewrite (reenter_existing O e0 (er s) key (er_col c) id (er_obj o) json);
    [| rewrite er_get, Ek; reflexivity | rewrite erc_get, Eid; reflexivity].
  destruct (o_mkgeo O GK_OBJECT [json]); er_done.
Qed.

(* Every handler commutes with the erasure: same control flow, same "updated" flag, and the state it
   returns from the erased state is the erasure of the state it returns (replies may differ: TTL).
   Each case: push [er] through the lookups, follow the branches, push [er] through the stores. *)
Lemma er_commutes e e0 s q :
  e_hookkeys e0 = e_hookkeys e ->
  option_map (left_by (fun s => s)) (run_req O true e0 (er s) (erq q)) =
  option_map (left_by er) (run_req O true e s q).
Proof.
  intros Hh.
  req_cases q;
    cbn [run_req erq];
    unfold find, cmd_set, cmd_fset, cmd_del, cmd_pdel, cmd_drop, cmd_rename, cmd_expire, cmd_persist, cmd_jset, cmd_jdel;
    rewrite ?er_get;
    try (destruct (get key s) as [c|] eqn:Ek; cbn [option_map]; rewrite ?erc_get;
         [try (destruct (get id c) as [o|] eqn:Eid; cbn [option_map er_obj o_id o_geo o_ex o_fields])|]);
    try (solve [er_done]).
  - (* SET *) destruct ((xx || nx) && nx); er_done.
  - destruct ((xx || nx) && xx); er_done.
  - destruct xx; [er_done|]. cbn [get]. rewrite andb_false_r. er_done.
  - (* FSET *) destruct (fold_left (fset_step O) fields (o_fields o, 0%Z)). er_done.
  - destruct xx; cbn [negb]; [rewrite andb_false_r|]; er_done.
  - (* DEL *) destruct erron404; er_done.
  - destruct erron404; er_done.
  - (* PDEL *) rewrite er_range_scan. change (map fst ?x) with (keys x). rewrite er_filter_keys. er_done.
  - (* RENAME *)
    unfold hook_guard. rewrite Hh.
    destruct (if existsb _ _ then _ else _); [er_done|].
    destruct (get newkey s); destruct nx; cbn [option_map negb]; er_done.
  - (* PERSIST *) rewrite flagz_zero. destruct (negb (o_ex o =? 0)%Z); er_done.
  - (* JSET *)
    destruct (o_sjson_set O raw (g_text (o_geo o)) path val) as [json'|msg]; [|er_done].
    destruct (g_spatial (o_geo o)); [|er_done]. exact (er_reenter e e0 s key c id o json' Ek Eid).
  - destruct (o_sjson_set O raw [] path val); er_done.
  - cbn [get]. destruct (o_sjson_set O raw [] path val); er_done.
  - (* JDEL *)
    destruct (o_sjson_del O (g_text (o_geo o)) path) as [json'|msg]; [|er_done].
    destruct (bytes_eqb json' (g_text (o_geo o))); [er_done|].
    destruct (g_spatial (o_geo o)); [|er_done]. exact (er_reenter e e0 s key c id o json' Ek Eid).
  - destruct (o_sjson_del O [] path) as [json'|msg]; [|er_done]. destruct (bytes_eqb json' []); er_done.
  - (* SCAN *)
    rewrite erc_keys.
    destruct (out =? OUT_COUNT); [destruct (glob_everything globs); [er_done|]|];
      destruct (scan_select _ _ _ _ _ _); er_done.
  - (* JGET *) destruct (o_jget O (g_text (o_geo o)) path raw); er_done.
Qed.

Definition ex_ok (e e' : env) (x : bytes) : Prop :=
  wrap64 (e_now e + o_dur O x) <> 0%Z /\ wrap64 (e_now e' + o_dur O x) <> 0%Z.

(* the side condition: no argument of the command, read as a number of seconds, lands exactly on
   deadline 0 (= "no deadline") at either clock *)
Definition clock_ok (e e' : env) (args : list bytes) : Prop := Forall (ex_ok e e') args.

Definition env_sim (e e' : env) : Prop :=
  e_follower e = e_follower e' /\ e_caughtup e = e_caughtup e' /\ e_readonly e = e_readonly e' /\
  e_hookkeys e = e_hookkeys e'.

Definition er_st (a : setst) : setst :=
  let '(mkSetSt fl ex nx xx ret wf kind prec o) := a in mkSetSt fl (flagz ex) nx xx ret wf kind prec o.
Definition er_res (r : setres) : setres := match r with SetDone a => SetDone (er_st a) | _ => r end.
Definition er_parsed (p : parsed) : parsed := match p with PReq q => PReq (erq q) | _ => p end.
Definition er_dres (d : dres) : dres := match d with DReq c w q => DReq c w (erq q) | _ => d end.

Lemma ex_flag e e' z : ex_ok e e' z ->
  flagz (wrap64 (e_now e + o_dur O z)) = flagz (wrap64 (e_now e' + o_dur O z)).
Proof.
  intros [H1 H2]. unfold flagz. apply Z.eqb_neq in H1, H2. rewrite H1, H2. reflexivity.
Qed.

Ltac strip HF := first [ exact HF | let H' := fresh in pose proof (Forall_inv_tail HF) as H'; strip H' ].

(* No test of the loop reads the clock or the deadline collected so far, so both loops take the same
   branch at every test; they end in the same error, or go on with the same tail of arguments from
   states that still differ in the deadline only (after EX by ex_flag). *)
Lemma set_loop_sim e e' fuel : forall rest a b,
  clock_ok e e' rest -> er_st a = er_st b ->
  er_res (set_loop O fuel e rest a) = er_res (set_loop O fuel e' rest b).
Proof.
  induction fuel as [|fuel IH]; intros rest a b HF Hs; [reflexivity|].
  destruct rest as [|x tl]; [cbn [set_loop er_res]; rewrite Hs; reflexivity|].
  destruct a as [af aex anx axx aret awf akind aprec aobj], b as [bf bex bnx bxx bret bwf bkind bprec bobj].
  injection Hs as -> Hex -> -> -> -> -> -> ->.
  cbn [set_loop ss_fields ss_ex ss_nx ss_xx ss_ret ss_wf ss_kind ss_prec ss_obj]. unfold geo_or_err.
  repeat match goal with
    | |- context [match (match ?x with _ => _ end) with _ => _ end] => destruct x
    | |- context [match ?x with _ => _ end] => destruct x
    end;
    try reflexivity;
    (apply IH; [first [strip HF | exact (incl_Forall (incl_skipn _ _) HF)] | cbn [er_st]; rewrite ?Hex; try reflexivity]).
  rewrite (ex_flag e e' _ (Forall_inv (Forall_inv_tail HF))). reflexivity.
Qed.

Lemma parse_set_sim e e' args : clock_ok e e' args -> er_parsed (parse_set O e args) = er_parsed (parse_set O e' args).
Proof.
  intros HF. unfold parse_set. destruct args as [|a0 [|key [|id rest]]]; [reflexivity..|].
  pose proof (set_loop_sim e e' (S (length rest)) rest set_init set_init ltac:(strip HF) eq_refl) as H.
  destruct (set_loop O (S (length rest)) e rest set_init) as [a|m|], (set_loop O (S (length rest)) e' rest set_init) as [b|m'|];
    try discriminate H; [|injection H as ->; reflexivity | reflexivity].
  destruct a as [af aex anx axx aret awf akind aprec aobj], b as [bf bex bnx bxx bret bwf bkind bprec bobj].
  injection H as -> Hex -> -> -> -> -> -> ->. cbn [ss_fields ss_ex ss_nx ss_xx ss_ret ss_wf ss_kind ss_prec ss_obj].
  destruct bobj; cbn [er_parsed erq]; [rewrite Hex|]; reflexivity.
Qed.

Lemma parse_expire_sim e e' args : clock_ok e e' args -> er_parsed (parse_expire O e args) = er_parsed (parse_expire O e' args).
Proof.
  intros HF. unfold parse_expire.
  destruct args as [|a0 [|key [|id [|sv [|x l]]]]]; try reflexivity.
  destruct (o_float_ok O sv); cbn [er_parsed erq]; [|reflexivity].
  rewrite (ex_flag e e' sv); [reflexivity|].
  exact (Forall_inv (Forall_inv_tail (Forall_inv_tail (Forall_inv_tail HF)))).
Qed.

(* only the SET and EXPIRE arms read the clock *)
Lemma parse_cmd_clock e e' c args : bytes_eqb c c_set = false -> bytes_eqb c c_expire = false ->
  parse_cmd O e c args = parse_cmd O e' c args.
Proof. unfold parse_cmd. intros -> ->. reflexivity. Qed.

Lemma parse_cmd_sim e e' c args : clock_ok e e' args -> er_parsed (parse_cmd O e c args) = er_parsed (parse_cmd O e' c args).
Proof.
  intros HF. destruct (bytes_eqb c c_set) eqn:Es; [unfold parse_cmd; rewrite Es; apply parse_set_sim, HF|].
  destruct (bytes_eqb c c_expire) eqn:Ee; [|rewrite (parse_cmd_clock e e' c args Es Ee); reflexivity].
  apply bytes_eqb_eq in Ee as ->. exact (parse_expire_sim e e' args HF).
Qed.

Lemma dispatch_sim e e' args : env_sim e e' -> clock_ok e e' args -> er_dres (dispatch O e args) = er_dres (dispatch O e' args).
Proof.
  intros [Ha [Hb [Hc Hd]]] HF. unfold dispatch. destruct args as [|a0 rest]; [reflexivity|].
  rewrite Ha, Hb, Hc.
  destruct (match arm_of (lower a0) with ArmWrite => _ | ArmRead => _ | ArmOther => None end); [reflexivity|].
  pose proof (parse_cmd_sim e e' (lower a0) (a0 :: rest) HF) as H.
  destruct (parse_cmd O e (lower a0) (a0 :: rest)), (parse_cmd O e' (lower a0) (a0 :: rest));
    try discriminate H; [injection H as H; cbn; rewrite H; reflexivity | injection H as ->; reflexivity | reflexivity..].
Qed.

(* One step seen through the erasure is a function of the erased state and the erased request: what the
   handler does to them, at any clock e0 with the same hook keys. *)
Lemma ks_exec_er e e0 s c : e_hookkeys e0 = e_hookkeys e ->
  er (fst (ks_exec O e s c)) =
  match er_dres (dispatch O e c) with
  | DReq _ _ q => match run_req O true e0 (er s) q with Some (t, _, _) => t | None => er s end
  | DOut _ => er s
  end.
Proof.
  intros Hh. unfold ks_exec, exec. destruct (dispatch O e c) as [cn w q|r0]; [|reflexivity]. cbn [er_dres].
  pose proof (er_commutes e e0 s q Hh) as C.
  destruct (run_req O true e s q) as [[[s1 r1] u1]|], (run_req O true e0 (er s) (erq q)) as [[[t1 r2] u2]|];
    try discriminate C; [injection C as -> _|]; reflexivity.
Qed.

Theorem ks_deadline_kept e e' log : env_sim e e' -> Forall (clock_ok e e') log ->
  forall s s', er s = er s' ->
  er (Replay.replay state (ks_exec O e) log s) = er (Replay.replay state (ks_exec O e') log s').
Proof.
  intros Hes. induction log as [|c log IH]; intros HF s s' Hs; [exact Hs|].
  unfold Replay.replay in *. cbn [fold_left]. unfold Replay.step at 2 4.
  apply IH; [exact (Forall_inv_tail HF)|].
  rewrite (ks_exec_er e e s c eq_refl), (ks_exec_er e' e s' c (proj2 (proj2 (proj2 Hes)))).
  rewrite (dispatch_sim e e' c Hes (Forall_inv HF)), Hs. reflexivity.
Qed.

End Deadline.

(* what "equal after erasing deadline values" means: same keys, same ids, and for every object the
   same geometry, the same fields and the same has-deadline flag *)
Theorem er_meaning s s' : er s = er s' ->
  keys s = keys s' /\
  forall key id,
    match find s key id, find s' key id with
    | Some o, Some o' => o_id o = o_id o' /\ o_geo o = o_geo o' /\ o_fields o = o_fields o' /\
                         ((o_ex o =? 0)%Z = (o_ex o' =? 0)%Z)
    | None, None => True
    | _, _ => False
    end.
Proof.
  intros H. split.
  - rewrite <- (er_keys_state s), <- (er_keys_state s'), H. reflexivity.
  - intros key id. pose proof (er_find s key id) as F1. pose proof (er_find s' key id) as F2.
    rewrite H in F1. rewrite F1 in F2.
    destruct (find s key id) as [o|]; destruct (find s' key id) as [o'|]; cbn in F2; try discriminate; auto.
    inversion F2 as [[Hi Hg He Hf]]. repeat split; auto.
    unfold flagz in He. destruct (o_ex o =? 0)%Z; destruct (o_ex o' =? 0)%Z; auto; discriminate.
Qed.

(* the side condition is satisfiable, and deadline values really differ *)
Definition dl_log : list (list bytes) :=
  [ [kw_SET; w_k; w_a; w_FIELD; w_speed; w_1; w_EX; w_1; w_POINT; w_1; w_1];
    [Spec.bs "EXPIRE"; w_k; w_a; w_1];
    [kw_SET; w_g; w_b; w_STRING; w_speed] ].

Example deadline_kept_nonvacuous :
  env_sim (toy_env 5) (toy_env 1000) /\
  Forall (clock_ok toy_oracle (toy_env 5) (toy_env 1000)) dl_log /\
  Replay.replay state (ks_exec toy_oracle (toy_env 5)) dl_log [] <>
  Replay.replay state (ks_exec toy_oracle (toy_env 1000)) dl_log [] /\
  er (Replay.replay state (ks_exec toy_oracle (toy_env 5)) dl_log []) =
  er (Replay.replay state (ks_exec toy_oracle (toy_env 1000)) dl_log []).
Proof.
  split; [repeat split|]. split.
  - unfold dl_log, clock_ok, ex_ok. repeat constructor; vm_compute; discriminate.
  - split; [vm_compute; discriminate | vm_compute; reflexivity].
Qed.
