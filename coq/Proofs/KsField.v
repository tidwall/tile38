(* field.List (Model/Field.v) against the plain field map of the specification (Model/Spec.v):
   the scanning loops of Set and Get with their early exits compute sf_set / sf_get on every
   name-sorted list; read-back; the pinned Get does not (finding F2). *)
From Coq Require Import String.
From Coq Require Import ZifyN ZifyNat ZifyBool Sorted.
From T38 Require Import Base.Bytes Base.SMap Model.Field Model.Object Model.Glob Model.Spec.

Lemma value_same_eq a b : value_same a b = true -> a = b.
Proof.
  unfold value_same. intros H. apply andb_true_iff in H. destruct H as [Hk Hd].
  apply N.eqb_eq in Hk. apply bytes_eqb_eq in Hd. destruct a, b; cbn in *; subst; reflexivity.
Qed.

Lemma value_same_refl a : value_same a a = true.
Proof. unfold value_same. rewrite N.eqb_refl, bytes_eqb_refl. reflexivity. Qed.

Lemma bfield_idem v : bfield (bfield v) = bfield v.
Proof.
  unfold bfield.
  destruct (v_kind v =? KNull) eqn:E1; [reflexivity|].
  destruct (v_kind v =? KFalse) eqn:E2; [reflexivity|].
  destruct (v_kind v =? KTrue) eqn:E3; [reflexivity|].
  rewrite E1, E2, E3. reflexivity.
Qed.

Theorem fl_set_spec l f : msorted l -> fl_set l f = sf_set l f.
Proof.
  destruct f as [n v]. unfold sf_set. cbn [fst snd].
  induction l as [|[name v0] rest IH]; intros Hs.
  - cbn. destruct (is_zero v); reflexivity.
  - cbn [fl_set fst snd get del set].
    destruct (cmp_cases n name) as [[Hc [Hlt Hne]]|[[Hc <-]|[Hc [Hgt Hne]]]]; rewrite Hc.
    + pose proof (get_lt_head n name v0 rest Hs Hlt) as Hg. cbn [get] in Hg. rewrite Hne in Hg. rewrite Hlt, Hne, Hg.
      destruct (is_zero v); [rewrite (del_absent n rest Hg)|]; reflexivity.
    + rewrite ltb_irrefl, bytes_eqb_refl. reflexivity.
    + rewrite (ltb_asym _ _ Hgt), (eqb_sym name n), Hne, (IH (msorted_tail _ _ Hs)).
      destruct (is_zero v); [reflexivity|].
      destruct (get n rest) as [p|]; [|reflexivity].
      destruct (value_same (bfield p) v); reflexivity.
Qed.

Lemma sf_set_sorted l f : msorted l -> msorted (sf_set l f).
Proof.
  intros Hs. unfold sf_set. destruct (is_zero (snd f)); [apply msorted_del; exact Hs|].
  destruct (get (fst f) l) as [p|]; [|apply msorted_set; exact Hs].
  destruct (value_same (bfield p) (snd f)); [exact Hs | apply msorted_set; exact Hs].
Qed.

Lemma fold_fl_set_spec fs : forall l, msorted l -> fold_left fl_set fs l = fold_left sf_set fs l /\ msorted (fold_left fl_set fs l).
Proof.
  induction fs as [|f fs IH]; intros l Hs; cbn.
  - split; [reflexivity | exact Hs].
  - rewrite fl_set_spec by exact Hs. apply IH. apply sf_set_sorted; exact Hs.
Qed.

Definition nozero (l : flist) : Prop := Forall (fun f => is_zero (snd f) = false) l.

Lemma Forall_fl_set (Q : field -> Prop) l f :
  msorted l -> Forall Q l -> (is_zero (snd f) = false -> Q f) -> Forall Q (fl_set l f).
Proof.
  destruct f as [n v]. cbn [snd]. intros Hs Hl Hf. rewrite fl_set_spec by exact Hs. unfold sf_set. cbn [fst snd].
  destruct (is_zero v); [apply Forall_del, Hl|]. specialize (Hf eq_refl).
  destruct (get n l) as [p|]; [destruct (value_same (bfield p) v); [exact Hl|]|]; apply Forall_set; assumption.
Qed.

Lemma split_dot_app name j p : split_dot name = Some (j, p) -> name = j ++ DOT :: p.
Proof.
  revert j p. induction name as [|c r IH]; cbn; intros j p H; [discriminate|].
  destruct (c =? DOT) eqn:E.
  - inversion H; subst. apply N.eqb_eq in E. subst. reflexivity.
  - destruct (split_dot r) as [[j' p']|]; [|discriminate].
    inversion H; subst. cbn. f_equal. apply IH. reflexivity.
Qed.

Lemma split_dot_lt name j p : split_dot name = Some (j, p) -> bytes_ltb j name = true.
Proof.
  intros H. apply split_dot_app in H. subst. apply ltb_cmp.
  rewrite <- (app_nil_r j) at 1. rewrite bytes_cmp_app_same. reflexivity.
Qed.

Section Get.
Variable O : foracle.

Lemma fl_get_loop_exact j p name l : msorted l -> fl_get_loop O false j p name l = sf_exact l name.
Proof.
  induction l as [|[fname v] rest IH]; intros Hs; [reflexivity|].
  cbn [fl_get_loop]. rewrite andb_false_r. unfold sf_exact.
  destruct (bytes_ltb name fname) eqn:Hlt.
  - rewrite (get_lt_head _ _ _ _ Hs Hlt). reflexivity.
  - cbn [get]. rewrite (eqb_sym name fname).
    destruct (bytes_eqb fname name); [reflexivity | apply IH, (msorted_tail _ _ Hs)].
Qed.

(* the JSON-path branch can fire at the entry jname only, which sorts before name: the dotted
   loop is that entry's answer if it has one, else the exact-name loop *)
Lemma fl_get_loop_json j p name l : msorted l -> bytes_ltb j name = true ->
  fl_get_loop O true j p name l =
  match (match get j l with Some v => if v_kind v =? KJSON then fo_gjson O (v_data v) p else None | None => None end) with
  | Some r => (name, bfield r)
  | None => fl_get_loop O false j p name l
  end.
Proof.
  intros Hs Hj. induction l as [|[fname v] rest IH]; [reflexivity|].
  pose proof (msorted_inv _ _ _ Hs) as [Hr Hall]. specialize (IH Hr).
  cbn [fl_get_loop get]. rewrite (eqb_sym j fname), andb_false_r, andb_true_r.
  destruct (bytes_eqb fname j) eqn:Efj.
  - apply bytes_eqb_eq in Efj. subst fname. rewrite (get_below _ _ Hall) in IH. rewrite andb_true_r, IH.
    destruct (v_kind v =? KJSON); [destruct (fo_gjson O (v_data v) p)|]; reflexivity.
  - rewrite andb_false_r, IH.
    destruct (get j rest) as [w|] eqn:Eg; [|reflexivity].
    destruct (v_kind w =? KJSON); [|reflexivity]. destruct (fo_gjson O (v_data w) p); [|reflexivity].
    (* jname is stored behind fname and name sorts behind jname: neither early exit is taken *)
    apply get_in_keys in Eg. rewrite Forall_forall in Hall.
    pose proof (ltb_trans _ _ _ (Hall _ Eg) Hj) as Hlt.
    rewrite (ltb_asym _ _ Hlt), (ltb_eqb_false _ _ Hlt). reflexivity.
Qed.

Theorem fl_get_spec l name : msorted l -> fl_get O l name = sf_get O l name.
Proof.
  intros Hs. unfold fl_get, sf_get.
  destruct (split_dot name) as [[j p]|] eqn:E; [|apply fl_get_loop_exact, Hs].
  rewrite fl_get_loop_json, fl_get_loop_exact by (try eapply split_dot_lt; eassumption).
  destruct (get j l) as [v|]; [destruct (v_kind v =? KJSON); [destruct (fo_gjson O (v_data v) p)|]|]; reflexivity.
Qed.

(* a JSON-valued field jname that answers the path hides the field literally called jname.path *)
Definition shadowed (l : flist) (name : bytes) : bool :=
  match split_dot name with
  | Some (j, p) =>
      match get j l with
      | Some w => (v_kind w =? KJSON) && (match fo_gjson O (v_data w) p with Some _ => true | None => false end)
      | None => false
      end
  | None => false
  end.

Lemma sf_get_unshadowed l name : shadowed l name = false -> sf_get O l name = sf_exact l name.
Proof.
  unfold shadowed, sf_get. destruct (split_dot name) as [[j p]|]; [|reflexivity].
  destruct (get j l) as [w|]; [|reflexivity].
  destruct (v_kind w =? KJSON); [|reflexivity].
  destruct (fo_gjson O (v_data w) p); [discriminate | reflexivity].
Qed.

Lemma sf_set_get_other l n v k : k <> n -> get k (sf_set l (n, v)) = get k l.
Proof.
  intros Hk. unfold sf_set. cbn [fst snd]. destruct (is_zero v); [apply get_del_other; exact Hk|].
  destruct (get n l) as [q|]; [destruct (value_same (bfield q) v); [reflexivity|]|]; apply get_set_other; exact Hk.
Qed.

Lemma shadowed_sf_set l n v : shadowed (sf_set l (n, v)) n = shadowed l n.
Proof.
  unfold shadowed. destruct (split_dot n) as [[j p]|] eqn:E; [|reflexivity].
  rewrite sf_set_get_other by (apply ltb_neq; eapply split_dot_lt; exact E). reflexivity.
Qed.

Lemma fl_get_set_same l n v : msorted l -> shadowed l n = false ->
  fl_get O (fl_set l (n, v)) n = if is_zero v then zero_field else (n, bfield v).
Proof.
  intros Hs Hsh.
  rewrite fl_set_spec by exact Hs.
  rewrite fl_get_spec by (apply sf_set_sorted; exact Hs).
  rewrite sf_get_unshadowed by (rewrite shadowed_sf_set; exact Hsh).
  unfold sf_exact, sf_set. cbn [fst snd]. destruct (is_zero v).
  - rewrite get_del_same by exact Hs. reflexivity.
  - destruct (get n l) as [q|] eqn:Eg; [destruct (value_same (bfield q) v) eqn:Es|]; rewrite ?get_set_same; try reflexivity.
    (* the stored value is kept when it already shows as v *)
    rewrite Eg. apply value_same_eq in Es. rewrite <- Es, bfield_idem. reflexivity.
Qed.

Theorem field_readback l n v :
  msorted l -> is_zero v = false -> shadowed l n = false ->
  fl_get O (fl_set l (n, v)) n = (n, bfield v).
Proof. intros Hs Hz Hsh. rewrite fl_get_set_same, Hz by assumption. reflexivity. Qed.

Theorem field_other_untouched l n v m :
  msorted l -> m <> n -> shadowed l m = false -> (forall j p, split_dot m = Some (j, p) -> j <> n) ->
  fl_get O (fl_set l (n, v)) m = fl_get O l m.
Proof.
  intros Hs Hne Hsh Hj.
  rewrite fl_set_spec by exact Hs.
  rewrite !fl_get_spec by (try apply sf_set_sorted; exact Hs).
  unfold sf_get, sf_exact. rewrite (sf_set_get_other l n v m Hne).
  destruct (split_dot m) as [[j p]|] eqn:E; [|reflexivity].
  rewrite (sf_set_get_other l n v j (Hj j p eq_refl)). reflexivity.
Qed.

End Get.

(* finding F2: the pinned Get loses a stored dotted field behind a JSON-valued neighbour *)
Definition f2_name : bytes := Eval compute in bs "props.speed".
Definition f2_meta : bytes := Eval compute in bs "props.meta".
Definition f2_json : bytes := Eval compute in bs "{""x"":1}".
Definition f2_list : flist := [ (f2_meta, mkValue KJSON f2_json); (f2_name, mkValue KNumber [53]) ].

Lemma f2_list_sorted : msorted f2_list.
Proof. repeat constructor. Qed.
