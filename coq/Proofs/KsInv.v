(* The state invariant of the handler model and the algebra of the abstraction [abs]. *)
From Coq Require Import ZifyN ZifyNat ZifyBool Sorted.
From T38 Require Import Base.Bytes Base.SMap Model.Field Model.Object Model.Glob Model.Spec Model.Keyspace.

Definition obj_ok (io : bytes * obj) : Prop := o_id (snd io) = fst io /\ msorted (o_fields (snd io)).
Definition col_ok (kc : bytes * col) : Prop := snd kc <> [] /\ msorted (snd kc) /\ Forall obj_ok (snd kc).
Definition inv (s : state) : Prop := msorted s /\ Forall col_ok s.

Lemma inv_nil : inv [].
Proof. split; [apply msorted_nil | constructor]. Qed.

Lemma inv_get s k c : inv s -> get k s = Some c -> c <> [] /\ msorted c /\ Forall obj_ok c.
Proof. intros [_ HF] Hg. exact (Forall_get col_ok k s c HF Hg). Qed.

Lemma inv_obj s k c id o : inv s -> get k s = Some c -> get id c = Some o -> o_id o = id /\ msorted (o_fields o).
Proof.
  intros Hi Hk Hid. destruct (inv_get _ _ _ Hi Hk) as [_ [_ HF]].
  exact (Forall_get obj_ok id c o HF Hid).
Qed.

Lemma inv_set s k c : inv s -> col_ok (k, c) -> inv (set k c s).
Proof. intros [Hs HF] Hc. split; [apply msorted_set; exact Hs | apply Forall_set; assumption]. Qed.

Lemma inv_del s k : inv s -> inv (del k s).
Proof. intros [Hs HF]. split; [apply msorted_del; exact Hs | apply Forall_del; exact HF]. Qed.

Lemma col_ok_set k c id o :
  msorted c -> Forall obj_ok c -> o_id o = id -> msorted (o_fields o) -> col_ok (k, set id o c).
Proof.
  intros Hs HF Hid Hf. split; [apply set_nonempty|]. split; [apply msorted_set; exact Hs|].
  apply Forall_set; [exact HF | split; assumption].
Qed.

Lemma col_ok_new k id o : o_id o = id -> msorted (o_fields o) -> col_ok (k, set id o []).
Proof. intros. apply col_ok_set; [apply msorted_nil | constructor | assumption | assumption]. Qed.

Lemma abs_get s k : get k (abs s) = option_map abs_col (get k s).
Proof. apply get_map. Qed.

Lemma abs_set s k c : abs (set k c s) = set k (abs_col c) (abs s).
Proof. apply set_map. Qed.

Lemma abs_del s k : abs (del k s) = del k (abs s).
Proof. apply del_map. Qed.

Lemma absc_get c id : get id (abs_col c) = option_map abs_obj (get id c).
Proof. apply get_map. Qed.

Lemma absc_set c id o : abs_col (set id o c) = set id (abs_obj o) (abs_col c).
Proof. apply set_map. Qed.

Lemma absc_del c id : abs_col (del id c) = del id (abs_col c).
Proof. apply del_map. Qed.

Lemma abs_sorted s : msorted s -> msorted (abs s).
Proof. apply msorted_map. Qed.

Lemma absc_sorted c : msorted c -> msorted (abs_col c).
Proof. apply msorted_map. Qed.

Lemma absc_length c : length (abs_col c) = length c.
Proof. apply smap_map_length. Qed.

Lemma abs_keys s : keys (abs s) = keys s.
Proof. apply keys_map. Qed.

Lemma absc_keys c : keys (abs_col c) = keys c.
Proof. apply keys_map. Qed.

Lemma abs_lookup s key id : lookup (abs s) key id = option_map abs_obj (find s key id).
Proof.
  unfold lookup, find. rewrite abs_get. destruct (get key s) as [c|]; cbn; [apply absc_get | reflexivity].
Qed.

Lemma abs_col_of s key : col_of (abs s) key = abs_col (match get key s with Some c => c | None => [] end).
Proof. unfold col_of. rewrite abs_get. destruct (get key s); reflexivity. Qed.

Lemma abs_put s key id o :
  put (abs s) key id (abs_obj o) = abs (set key (set id o (match get key s with Some c => c | None => [] end)) s).
Proof. unfold put. rewrite abs_col_of, abs_set, absc_set. reflexivity. Qed.

Lemma abs_store_col s key c : abs (store_col s key c) = match abs_col c with [] => del key (abs s) | c' => set key c' (abs s) end.
Proof.
  unfold store_col. destruct c as [|[i o] r]; cbn [length Nat.eqb abs_col smap_map map].
  - apply abs_del.
  - rewrite abs_set. reflexivity.
Qed.

Lemma store_col_inv s key c : inv s -> msorted c -> Forall obj_ok c -> inv (store_col s key c).
Proof.
  intros Hi Hs HF. unfold store_col. destruct c as [|x r]; cbn [length Nat.eqb].
  - apply inv_del; exact Hi.
  - apply inv_set; [exact Hi|]. split; [discriminate | split; assumption].
Qed.

Lemma store_col_same s key c : inv s -> get key s = Some c -> store_col s key c = s.
Proof.
  intros Hi Ek. unfold store_col. destruct c as [|x c']; [destruct (proj1 (inv_get _ _ _ Hi Ek)); reflexivity|].
  apply set_same; [exact (proj1 Hi) | exact Ek].
Qed.
