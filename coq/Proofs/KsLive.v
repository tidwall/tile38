(* Corollaries of the keyspace invariant (Proofs/KsInv.v, Proofs/KsProgram.v: C01) that
   property C19 needs at the server level: in every state reachable by keyspace commands — refused,
   malformed and negative ones included — the registered collections are exactly the keys from which
   GET retrieves at least one object, so KEYS *, TYPE and the collection count (s.cols.Len() =
   SERVER num_collections) equal their recomputation from the retrievable objects. *)
From Coq Require Import String.
From Coq Require Import ZifyN ZifyNat ZifyBool Sorted.
From T38 Require Import Base.Bytes Base.ListFacts Base.SMap Model.Field Model.Object Model.Glob Model.Spec Model.Keyspace
  Proofs.GlobProofs Proofs.KsField Proofs.KsInv Proofs.KsRefine Proofs.KsProgram.

Definition has_object (c : col) : bool := match c with [] => false | _ => true end.
Definition live_keys (s : state) : list bytes := keys (filter (fun kc : bytes * col => has_object (snd kc)) s).

Lemma keys_get {V} k (m : smap V) : In k (keys m) <-> exists v, get k m = Some v.
Proof.
  split; [apply in_keys_get | intros [v H]; exact (get_in_keys k m v H)].
Qed.

Section Live.
Variable O : oracle.

(* what is retrievable from key k: GET k id answers an object for some id (find = cmdGet's lookup) *)
Definition retrievable_from (s : state) (k : bytes) : Prop := exists id o, find s k id = Some o.

Theorem registered_iff_retrievable s : Reach O s -> forall k, In k (keys s) <-> retrievable_from s k.
Proof.
  intros Hr k. unfold retrievable_from, find. split.
  - intros Hin. apply keys_get in Hin as [c Hg]. pose proof (nonempty_cols O s Hr k c Hg) as Hne.
    destruct c as [|[id o] r]; [contradiction|]. exists id, o. rewrite Hg. cbn. rewrite bytes_eqb_refl. reflexivity.
  - intros (id & o & H). destruct (get k s) as [c|] eqn:Hg; [|discriminate]. apply keys_get. eauto.
Qed.

Lemma live_all_forall (s : state) : Forall col_ok s -> filter (fun kc : bytes * col => has_object (snd kc)) s = s.
Proof.
  intros HF. induction HF as [|kc l Hk HF IH]; cbn; [reflexivity|].
  destruct Hk as [Hne _]. destruct kc as [k c]. cbn [snd] in *. destruct c as [|x c]; [contradiction|].
  cbn [has_object]. rewrite IH. reflexivity.
Qed.

Lemma live_all s : Reach O s -> filter (fun kc : bytes * col => has_object (snd kc)) s = s.
Proof. intros Hr. apply live_all_forall. exact (proj2 (reach_inv O s Hr)). Qed.

Theorem live_keys_all s : Reach O s -> live_keys s = keys s /\ length s = length (live_keys s).
Proof.
  intros Hr. unfold live_keys. rewrite (live_all s Hr). split; [reflexivity|]. unfold keys. rewrite map_length. reflexivity.
Qed.

Lemma filter_true {A} (f : A -> bool) l : (forall x, f x = true) -> filter f l = l.
Proof. intros H. apply filter_all. intros x _. apply H. Qed.

(* KEYS * (the request dispatch produces for it) lists exactly the keys holding a retrievable object *)
Theorem keys_star_listing e s : Reach O s ->
  run_req O true e s (QKeys [STAR]) = Some (s, RArr (map RBulk (live_keys s)), false).
Proof.
  intros Hr. cbn [run_req]. unfold range_scan.
  change (unlimited (parse [STAR] false)) with true. cbv iota.
  rewrite filter_true; [|intros k; unfold matchesb; rewrite match_star; reflexivity].
  rewrite (proj1 (live_keys_all s Hr)). reflexivity.
Qed.

(* TYPE key: "hash" iff something is retrievable from the key, "none" otherwise *)
Theorem type_reply e s k : Reach O s ->
  (retrievable_from s k -> run_req O true e s (QType k) = Some (s, ROk str_hash, false)) /\
  (~ retrievable_from s k -> run_req O true e s (QType k) = Some (s, ROk str_none, false)).
Proof.
  intros Hr. pose proof (registered_iff_retrievable s Hr k) as Hk. cbn [run_req]. split; intros H.
  - apply Hk in H. apply keys_get in H as [c Hg]. rewrite Hg. reflexivity.
  - destruct (get k s) as [c|] eqn:Hg; [|reflexivity]. exfalso. apply H, Hk, keys_get. eauto.
Qed.

(* programs: every command line with its own environment, any argument list (so every refused,
   malformed or negative command is a step of some program) *)
Lemma run_reach p : forall s sf rs, Reach O s -> run O true s p = Some (sf, rs) -> Reach O sf.
Proof.
  induction p as [|[e args] p IH]; intros s sf rs Hr H; cbn [run] in H.
  - inversion H; subst. exact Hr.
  - destruct (exec O true e s args) as [s' r log|] eqn:Ex; [|discriminate].
    destruct (run O true s' p) as [[sf' rs']|] eqn:Er; [|discriminate]. inversion H; subst.
    eapply IH; [|exact Er]. eapply reach_step; eauto.
Qed.

Theorem program_keys_live p sf rs : run O true [] p = Some (sf, rs) ->
  (forall k, In k (keys sf) <-> retrievable_from sf k) /\
  length sf = length (live_keys sf) /\
  (forall e, run_req O true e sf (QKeys [STAR]) = Some (sf, RArr (map RBulk (live_keys sf)), false)) /\
  (forall e k, ~ retrievable_from sf k -> run_req O true e sf (QType k) = Some (sf, ROk str_none, false)).
Proof.
  intros H. pose proof (run_reach p [] sf rs (reach_init O) H) as Hr.
  split; [exact (registered_iff_retrievable sf Hr)|]. split; [exact (proj2 (live_keys_all sf Hr))|].
  split; [intros e; exact (keys_star_listing e sf Hr)|]. intros e k. exact (proj2 (type_reply e sf k Hr)).
Qed.

End Live.

Definition w_path_refused : bytes := Eval compute in bs "path cannot be empty".
(* an oracle whose sjson.Set refuses the empty path, as the pinned sjson does *)
Definition refusing_oracle : oracle :=
  mkOracle toy_foracle (fun _ => true) (fun _ => 1000000000%Z) (fun _ => None) (fun _ => None) (fun s => s)
           (fun k args => GOk (mkGeo true (concat args))) (fun _ => []) (fun _ => []) (fun _ _ => [])
           (fun _ j path v => if isempty path then OErr w_path_refused else OOk v) (fun j _ => OOk j) (fun _ _ _ => None).

Definition w_err_path_refused : bytes := Eval compute in bs "ERR path cannot be empty".
Definition w_JSET : bytes := Eval compute in bs "JSET".
Definition w_EXPIRE : bytes := Eval compute in bs "EXPIRE".
Definition w_SETw : bytes := Eval compute in bs "SET".
Definition w_p : bytes := Eval compute in bs "p".
Definition refused_prog : list step :=
  [(toy_env 5, [w_JSET; w_k; w_a; []; w_1]);                       (* refused: empty path, key does not exist *)
   (toy_env 5, [w_SETw; w_k; w_a; w_XX; w_POINT; w_1; w_1]);       (* refused: XX on a missing key *)
   (toy_env 5, [w_SETw; w_k; w_a; w_POINT; w_1]);                  (* refused: bad arguments after the key *)
   (toy_env 5, [w_FSET; w_k; w_a; w_speed; w_1]);                  (* refused: key not found *)
   (toy_env 5, [w_EXPIRE; w_k; w_a; w_1]);                         (* refused: key not found *)
   (toy_env 5, [w_JSET; w_g; w_b; w_p; w_1])].                     (* accepted *)

Lemma refused_prog_run :
  exists sf rs, run refusing_oracle true [] refused_prog = Some (sf, rs) /\ keys sf = [w_g] /\
    live_keys sf = [w_g] /\ nth 0 rs RNil = RErr w_err_path_refused /\
    nth 5 rs RNil = ROk str_OK.
Proof. eexists. eexists. split; [vm_compute; reflexivity|]. vm_compute. repeat split. Qed.
