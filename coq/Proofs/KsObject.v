(* The head codec of internal/object (Model/Object.v): makeHead / ID / Expires round trip. *)
From Coq Require Import ZifyN ZifyNat ZifyBool.
From T38 Require Import Base.Bytes Base.ListFacts Model.Object.

Lemma land_pow2_disjoint a b n : a < 2 ^ n -> N.land a (b * 2 ^ n) = 0.
Proof.
  intros Ha. apply N.bits_inj_0. intros k. rewrite N.land_spec.
  destruct (N.lt_ge_cases k n) as [Hk|Hk].
  - rewrite N.mul_pow2_bits_low by exact Hk. apply andb_false_r.
  - rewrite <- (N.mod_small a (2 ^ n)) by exact Ha.
    rewrite N.mod_pow2_bits_high by exact Hk. reflexivity.
Qed.

Lemma lor_disjoint a b n : a < 2 ^ n -> N.lor a (b * 2 ^ n) = a + b * 2 ^ n.
Proof.
  intros Ha. pose proof (land_pow2_disjoint a b n Ha) as Hl.
  rewrite <- (N.lxor_lor _ _ Hl). symmetry. apply N.add_nocarry_lxor. exact Hl.
Qed.

Lemma land_127 y : y < 128 -> N.land (y + 128) 127 = y.
Proof.
  intros Hy. change 127 with (N.ones 7). rewrite N.land_ones. change (2 ^ 7) with 128.
  replace (y + 128) with (y + 1 * 128) by lia. rewrite N.mod_add by lia. apply N.mod_small. exact Hy.
Qed.

Lemma pow_step i : 2 ^ ((i + 1) * 7) = 128 * 2 ^ (i * 7).
Proof.
  replace ((i + 1) * 7) with (7 + i * 7) by lia. rewrite N.pow_add_r. reflexivity.
Qed.

Lemma lor_septet acc m i : acc < 2 ^ (i * 7) -> acc + m * 2 ^ (i * 7) < two64 ->
  N.lor acc (N.shiftl m (i * 7) mod two64) = acc + m * 2 ^ (i * 7).
Proof.
  intros Ha Hm. rewrite N.shiftl_mul_pow2, N.mod_small by lia. apply lor_disjoint, Ha.
Qed.

Lemma uvarint_loop_last m rest i acc : m < 128 -> acc < 2 ^ (i * 7) -> acc + m * 2 ^ (i * 7) < two64 ->
  uvarint_loop (m :: rest) i acc = (acc + m * 2 ^ (i * 7), i + 1).
Proof.
  intros Hm Ha Hs. cbn [uvarint_loop]. apply N.ltb_lt in Hm as ->. rewrite lor_septet by assumption. reflexivity.
Qed.

Lemma uvarint_loop_more m rest i acc : m < 128 -> acc < 2 ^ (i * 7) -> acc + m * 2 ^ (i * 7) < two64 ->
  uvarint_loop ((m + 128) :: rest) i acc = uvarint_loop rest (i + 1) (acc + m * 2 ^ (i * 7)).
Proof.
  intros Hm Ha Hs. cbn [uvarint_loop].
  replace (m + 128 <? 128) with false by (symmetry; apply N.ltb_ge; lia).
  rewrite land_127, lor_septet by assumption. reflexivity.
Qed.

(* with x = 128 q + m: the septet m goes on top of acc without carry, and q moves up one place *)
Lemma septet_split P acc q m : acc < P -> m < 128 ->
  acc + m * P < 128 * P /\ acc + m * P + q * (128 * P) = acc + (128 * q + m) * P.
Proof. intros Ha Hm. nia. Qed.

Lemma put_uvarint_ind (P : N -> bytes -> Prop) :
  (forall x, x < 128 -> P x [x]) ->
  (forall x l, 128 <= x -> P (x / 128) l -> P x ((x mod 128 + 128) :: l)) ->
  forall fuel x, x < 128 ^ N.of_nat fuel -> (0 < fuel)%nat -> P x (put_uvarint fuel x).
Proof.
  intros H1 H2. induction fuel as [|f IH]; intros x Hx Hf; [inversion Hf|].
  cbn [put_uvarint]. destruct (N.ltb_spec x 128) as [Ex|Ex]; [exact (H1 x Ex)|].
  rewrite Nat2N.inj_succ, N.pow_succ_r' in Hx.
  apply H2, IH; [exact Ex | apply N.div_lt_upper_bound; [discriminate | exact Hx] |].
  (* x >= 128 leaves no room in one byte *)
  destruct f; [elim (N.lt_irrefl x); exact (N.lt_le_trans _ 128 _ Hx Ex) | apply Nat.lt_0_succ].
Qed.

Lemma put_uvarint_decode : forall fuel x, x < 128 ^ N.of_nat fuel -> (0 < fuel)%nat ->
  forall i acc rest, acc < 2 ^ (i * 7) -> acc + x * 2 ^ (i * 7) < two64 ->
  uvarint_loop (put_uvarint fuel x ++ rest) i acc =
    (acc + x * 2 ^ (i * 7), i + N.of_nat (length (put_uvarint fuel x))).
Proof.
  apply (put_uvarint_ind (fun x l => forall i acc rest, acc < 2 ^ (i * 7) -> acc + x * 2 ^ (i * 7) < two64 ->
    uvarint_loop (l ++ rest) i acc = (acc + x * 2 ^ (i * 7), i + N.of_nat (length l)))).
  - intros x Ex i acc rest Hacc Hsum. cbn [app]. rewrite uvarint_loop_last by assumption. reflexivity.
  - intros x l _ IH i acc rest Hacc Hsum.
    destruct (septet_split (2 ^ (i * 7)) acc (x / 128) (x mod 128) Hacc) as [Hlt Heq].
    { apply N.mod_lt. discriminate. }
    rewrite <- N.div_mod in Heq by discriminate.
    cbn [app]. rewrite uvarint_loop_more; [| apply N.mod_lt; discriminate | exact Hacc |].
    2: { apply N.le_lt_trans with (2 := Hsum). rewrite <- Heq. apply N.le_add_r. }
    rewrite IH; rewrite pow_step; [| exact Hlt | rewrite Heq; exact Hsum].
    rewrite Heq. cbn [length]. f_equal. clear. lia.
Qed.

Lemma zigzag_bound ex : int64_range ex -> zigzag ex < two64.
Proof. unfold int64_range, zigzag, two64. intros H. destruct (0 <=? ex)%Z eqn:E; lia. Qed.

Lemma zigzag_nonzero ex : ex <> 0%Z -> zigzag ex <> 0.
Proof. unfold zigzag. intros H. destruct (0 <=? ex)%Z eqn:E; lia. Qed.

Lemma unzigzag ex :
  (if N.odd (zigzag ex) then (- Z.of_N (zigzag ex / 2) - 1)%Z else Z.of_N (zigzag ex / 2)) = ex.
Proof.
  unfold zigzag. destruct (0 <=? ex)%Z eqn:E.
  - apply Z.leb_le in E.
    assert (H : Z.to_N (2 * ex) = 2 * Z.to_N ex) by lia. rewrite H.
    rewrite N.odd_mul. change (N.odd 2) with false. cbn [andb].
    rewrite N.mul_comm, N.div_mul by lia. lia.
  - apply Z.leb_gt in E.
    assert (H : Z.to_N (-2 * ex - 1) = 1 + 2 * Z.to_N (- ex - 1)) by lia. rewrite H.
    rewrite N.odd_add_mul_2. change (N.odd 1) with true. cbv iota.
    replace (1 + 2 * Z.to_N (- ex - 1)) with (Z.to_N (- ex - 1) * 2 + 1) by lia.
    rewrite (N.div_unique (Z.to_N (- ex - 1) * 2 + 1) 2 (Z.to_N (- ex - 1)) 1) by lia. lia.
Qed.

Lemma pow_128_10 : two64 <= 128 ^ N.of_nat 10.
Proof. vm_compute. discriminate. Qed.

Lemma uvarint_put_uvarint x rest : x < two64 ->
  uvarint (put_uvarint 10 x ++ rest) = (x, N.of_nat (length (put_uvarint 10 x))).
Proof.
  intros Hx. pose proof pow_128_10 as Hp. unfold uvarint.
  rewrite (put_uvarint_decode 10 x) by (cbn; lia).
  cbn [N.mul N.pow]. f_equal; lia.
Qed.

Lemma varint_put ex rest : int64_range ex ->
  varint (put_varint ex ++ rest) = (ex, N.of_nat (length (put_varint ex))).
Proof.
  intros Hr. unfold varint, put_varint.
  rewrite (uvarint_put_uvarint _ rest (zigzag_bound ex Hr)), unzigzag. reflexivity.
Qed.

Lemma put_uvarint_head f x : x <> 0 -> exists b tl, put_uvarint (S f) x = b :: tl /\ b <> 0.
Proof.
  intros Hx. cbn [put_uvarint]. destruct (x <? 128) eqn:E.
  - exists x, []. split; [reflexivity | exact Hx].
  - exists (x mod 128 + 128), (put_uvarint f (x / 128)). split; [reflexivity | lia].
Qed.

Theorem head_roundtrip kind id ex : int64_range ex ->
  head_id (make_head kind id ex) = Some id /\ head_expires (make_head kind id ex) = Some ex.
Proof.
  intros Hr. unfold make_head. destruct (ex =? 0)%Z eqn:E0.
  - apply Z.eqb_eq in E0. subst ex. split; reflexivity.
  - apply Z.eqb_neq in E0.
    pose proof (varint_put ex id Hr) as Hv.
    destruct (put_uvarint_head 9 (zigzag ex) (zigzag_nonzero ex E0)) as [b [tl [Hput Hb]]].
    unfold put_varint in *. rewrite Hput in *. cbn [app] in *.
    split.
    + cbn [head_id]. apply N.eqb_neq in Hb. rewrite Hb. rewrite Hv.
      rewrite Nat2N.id. change (b :: tl ++ id) with ((b :: tl) ++ id).
      rewrite skipn_app_exact. reflexivity.
    + cbn [head_expires]. rewrite Hv. reflexivity.
Qed.
