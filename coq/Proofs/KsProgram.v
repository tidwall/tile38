(* From single requests to command lines and programs: a request hands back the state it was given, or
   reports "updated", leaves a well-formed state and answers positively, so the invariant holds in every
   reachable state and an error / negative reply changes nothing; exec refines the specification run;
   the repaired handlers do not panic (and the pinned FSET does). *)
From Coq Require Import String.
From Coq Require Import ZifyN ZifyNat ZifyBool Sorted.
From T38 Require Import Base.Bytes Base.SMap Model.Field Model.Object Model.Glob Model.Spec Model.Keyspace
  Proofs.GlobProofs Proofs.KsField Proofs.KsInv Proofs.KsRefine.

Section Program.
Variable O : oracle.

(* a command line whose PDEL / KEYS pattern (if any) is outside the open finding C12-ff *)
Definition cmd_ok (e : env) (args : list bytes) : Prop :=
  match dispatch O e args with
  | DReq _ _ q => req_ok q
  | DOut _ => True
  end.

Fixpoint prog_ok (p : list step) : Prop :=
  match p with
  | [] => True
  | (e, args) :: p' => cmd_ok e args /\ prog_ok p'
  end.

Definition is_negative (r : reply) : bool :=
  match r with
  | RErr _ => true
  | RNil => true
  | RInt 0 => true
  | _ => false
  end.

Lemma render_negative c r : is_negative (render c r) = is_negative r.
Proof. destruct r; reflexivity. Qed.

Lemma geo_reply_pos g kind prec : is_negative (geo_reply O g kind prec) = false.
Proof.
  unfold geo_reply. destruct (kind =? RK_POINT); [reflexivity|].
  destruct (kind =? RK_BOUNDS).
  - unfold bounds_reply. destruct (o_bounds O g) as [|a [|b [|c [|d [|x l]]]]]; reflexivity.
  - destruct (kind =? RK_HASH); reflexivity.
Qed.

Lemma obj_reply_pos o wf kind prec : is_negative (obj_reply O o wf kind prec) = false.
Proof. unfold obj_reply, object_reply. destruct wf; [reflexivity | apply geo_reply_pos]. Qed.

Lemma ret_reply_pos (rs : retspec) o r : is_negative r = false ->
  is_negative (if rs_ret rs then obj_reply O o (rs_withfields rs) (rs_kind rs) (rs_prec rs) else r) = false.
Proof. intros Hr. destruct (rs_ret rs); [apply obj_reply_pos | exact Hr]. Qed.

Lemma set_obj_same (s : state) key (c : col) id o :
  inv s -> get key s = Some c -> get id c = Some o ->
  set key (set id (mkObj id (o_geo o) (o_ex o) (o_fields o)) c) s = s.
Proof.
  intros Hi Ek Eid. destruct (inv_get _ _ _ Hi Ek) as [_ [Hcs _]].
  destruct (inv_obj _ _ _ _ _ Hi Ek Eid) as [Hid _].
  assert (Ho : mkObj id (o_geo o) (o_ex o) (o_fields o) = o) by (destruct o; cbn in *; subst; reflexivity).
  rewrite Ho. rewrite (set_same id o c Hcs Eid). apply set_same; [exact (proj1 Hi) | exact Ek].
Qed.

Lemma put_effect (s : state) key id g ex fl (c : col) r :
  inv s -> get key s = Some c \/ c = [] -> msorted fl -> is_negative r = false ->
  inv (set key (set id (mkObj id g ex fl) c) s) /\ is_negative r = false.
Proof.
  intros Hi Hc Hf Hr. split; [|exact Hr]. apply inv_set; [exact Hi|]. destruct Hc as [Hc| ->].
  - destruct (inv_get _ _ _ Hi Hc) as [_ [Hs HF]]. apply col_ok_set; auto.
  - apply col_ok_new; auto.
Qed.

(* Not updated: the state that was given comes back. Updated: the state that comes back is well formed
   again, and the answer is neither an error nor nil nor 0. *)
Theorem run_req_effect e s q : inv s ->
  match run_req O true e s q with
  | Some (s', r, u) => if u then inv s' /\ is_negative r = false else s' = s
  | None => True
  end.
Proof.
  intros Hi.
  req_cases q;
    cbn [run_req];
    unfold find, cmd_set, cmd_fset, cmd_del, cmd_pdel, cmd_drop, cmd_rename, cmd_expire, cmd_persist, cmd_jset, cmd_jdel;
    try (destruct (get key s) as [c|] eqn:Ek;
         [try (destruct (get id c) as [o|] eqn:Eid; [destruct (inv_obj _ _ _ _ _ Hi Ek Eid) as [_ Hof]|])|]);
    try reflexivity.
  - (* SET *)
    destruct ((xx || nx) && nx); [reflexivity|].
    apply put_effect; [exact Hi | auto | exact (proj2 (fold_fl_set_spec fields _ Hof)) | apply ret_reply_pos; reflexivity].
  - destruct ((xx || nx) && xx); [reflexivity|].
    apply put_effect; [exact Hi | auto | exact (proj2 (fold_fl_set_spec fields _ msorted_nil)) | apply ret_reply_pos; reflexivity].
  - destruct xx; [reflexivity|]. cbn [get]. rewrite andb_false_r, (set_set key [] _ s (proj1 Hi)).
    apply put_effect; [exact Hi | auto | exact (proj2 (fold_fl_set_spec fields _ msorted_nil)) | apply ret_reply_pos; reflexivity].
  - (* FSET: updated iff some field was written *)
    destruct (fold_left (fset_step O) fields (o_fields o, 0%Z)) as [ofields n] eqn:Ef.
    destruct (fset_fold O fields _ _ _ _ Hof Ef) as [_ Hs'], (fset_count O fields _ _ _ _ Ef) as [Hle Heq].
    destruct (0 <? n)%Z eqn:En.
    + apply put_effect; [exact Hi | auto | exact Hs' | apply ret_reply_pos].
      destruct n; [discriminate En | reflexivity | discriminate En].
    + assert (n = 0%Z) by lia. subst n. rewrite (Heq eq_refl). apply set_obj_same; assumption.
  - destruct xx; cbn [negb]; [rewrite andb_false_r|]; reflexivity.
  - (* DEL *)
    destruct (inv_get _ _ _ Hi Ek) as [_ [Hcs HcF]].
    split; [apply store_col_inv; [exact Hi | apply msorted_del | apply Forall_del]; assumption | reflexivity].
  - destruct erron404; reflexivity.
  - destruct erron404; reflexivity.
  - (* PDEL: updated iff some id matched *)
    destruct (inv_get _ _ _ Hi Ek) as [_ [Hcs HcF]].
    destruct (map fst _) as [|i ids]; [exact (store_col_same s key c Hi Ek)|].
    split; [apply store_col_inv; [exact Hi | apply fold_del_ok..]; assumption | reflexivity].
  - (* DROP *) split; [apply inv_del, Hi | reflexivity].
  - (* RENAME *)
    destruct (hook_guard e key newkey); [reflexivity|].
    destruct (get newkey s); destruct nx; try reflexivity;
      (split; [apply inv_set; [repeat apply inv_del; exact Hi | exact (inv_get _ _ _ Hi Ek)] | reflexivity]).
  - (* FLUSHDB *) split; [apply inv_nil | reflexivity].
  - (* EXPIRE *) apply put_effect; auto.
  - (* PERSIST *) destruct (negb (o_ex o =? 0)%Z); [apply put_effect; auto | reflexivity].
  - (* JSET *)
    destruct (o_sjson_set O raw (g_text (o_geo o)) path val) as [json'|msg]; [|reflexivity].
    destruct (g_spatial (o_geo o)); [|apply put_effect; auto].
    rewrite (reenter_existing O e s key c id o json' Ek Eid).
    destruct (o_mkgeo O GK_OBJECT [json']); [apply put_effect; auto | reflexivity].
  - destruct (o_sjson_set O raw [] path val); [apply put_effect; [exact Hi | auto | apply msorted_nil | reflexivity] | reflexivity].
  - cbn [get]. destruct (o_sjson_set O raw [] path val); [|reflexivity].
    rewrite (set_set key [] _ s (proj1 Hi)). apply put_effect; [exact Hi | auto | apply msorted_nil | reflexivity].
  - (* JDEL *)
    destruct (o_sjson_del O (g_text (o_geo o)) path) as [json'|msg]; [|reflexivity].
    destruct (bytes_eqb json' (g_text (o_geo o))); [reflexivity|].
    destruct (g_spatial (o_geo o)); [|apply put_effect; auto].
    rewrite (reenter_existing O e s key c id o json' Ek Eid).
    destruct (o_mkgeo O GK_OBJECT [json']); [apply put_effect; auto | reflexivity].
  - destruct (o_sjson_del O [] path) as [json'|msg]; [|reflexivity].
    destruct (bytes_eqb json' []); [reflexivity | apply put_effect; [exact Hi | auto | apply msorted_nil | reflexivity]].
  - (* SCAN *)
    destruct (out =? OUT_COUNT); [destruct (glob_everything globs); [reflexivity|]|];
      destruct (scan_select _ _ _ _ _ _); reflexivity.
  - (* JGET *) destruct (o_jget O (g_text (o_geo o)) path raw); reflexivity.
Qed.

(* the command name under which parse_cmd builds a request *)
Definition req_name (q : req) : bytes :=
  match q with
  | QSet _ _ _ _ _ _ _ _ => c_set | QFset _ _ _ _ _ => c_fset | QDel _ _ _ => c_del | QPdel _ _ => c_pdel
  | QDrop _ => c_drop | QRename nx _ _ => if nx then c_renamenx else c_rename | QFlushdb => c_flushdb
  | QExpire _ _ _ => c_expire | QPersist _ _ => c_persist | QJset _ _ _ _ _ => c_jset | QJdel _ _ _ => c_jdel
  | QGet _ _ _ _ _ => c_get | QFget _ _ _ => c_fget | QExists _ _ => c_exists | QFexists _ _ _ => c_fexists
  | QTtl _ _ => c_ttl | QType _ => c_type | QKeys _ => c_keys | QScan _ _ _ _ _ _ _ => c_scan
  | QJget _ _ _ _ => c_jget
  end.

(* Each arm of parse_cmd builds requests of one constructor only. The arms are walked in order: in the
   arm of name n, c = n, and whatever the argument parser of that arm matches on, a PReq it returns
   has the constructor whose req_name is n. *)
Lemma parse_cmd_name e c args q : parse_cmd O e c args = PReq q -> c = req_name q.
Proof.
  unfold parse_cmd, parse_set, parse_fset, parse_del, parse_expire, parse_get, parse_jset, parse_jget, parse_scan.
  repeat match goal with
  | |- (if bytes_eqb c ?n then _ else _) = _ -> _ =>
      destruct (bytes_eqb c n) eqn:E;
      [ apply bytes_eqb_eq in E; subst c;
        repeat match goal with |- context [match ?x with _ => _ end] => destruct x end;
        intros H; first [discriminate H | injection H as <-; reflexivity]
      | clear E ]
  end.
  discriminate.
Qed.

(* what handleInputCommand hands to a handler: the parsed command line, under the lock of its arm *)
Lemma dispatch_req e args c w q : dispatch O e args = DReq c w q ->
  parse_cmd O e c args = PReq q /\ w = match arm_of c with ArmWrite => true | _ => false end.
Proof.
  unfold dispatch. destruct args as [|a0 rest]; [discriminate|]. cbv zeta.
  destruct (match arm_of (lower a0) with ArmWrite => _ | ArmRead => _ | ArmOther => None end); [discriminate|].
  destruct (parse_cmd O e (lower a0) (a0 :: rest)) eqn:Ep; try discriminate.
  intros H. inversion H; subst. auto.
Qed.

(* d.updated is only ever set by a handler whose command name is in the write arm *)
Lemma updated_write_arm e s q s' r : run_req O true e s q = Some (s', r, true) -> arm_of (req_name q) = ArmWrite.
Proof.
  destruct q; cbn [run_req req_name]; try reflexivity; try (destruct nx; reflexivity); intros H; exfalso.
  - destruct (find s key id); discriminate H.
  - destruct (get key s) as [c|]; [destruct (get id c)|]; discriminate H.
  - destruct (get key s); discriminate H.
  - destruct (get key s) as [c|]; [destruct (get id c)|]; discriminate H.
  - destruct (find s key id); discriminate H.
  - destruct (get key s); discriminate H.
  - discriminate H.
  - repeat match type of H with context [match ?x with _ => _ end] => destruct x end; discriminate H.
  - destruct (find s key id) as [o|]; [destruct (o_jget O (g_text (o_geo o)) path raw)|]; discriminate H.
Qed.

(* ONE STEP of the server on a well-formed dataset: either nothing changes and nothing is logged, or
   the dataset stays well formed, the answer is positive and the command goes to the log as sent. *)
Theorem exec_effect e s args s' r log : inv s -> exec O true e s args = Done s' r log ->
  (s' = s /\ log = []) \/ (inv s' /\ is_negative r = false /\ log = [args]).
Proof.
  intros Hi. unfold exec. destruct (dispatch O e args) as [c w q|r0] eqn:Ed; [|intros [= <- _ <-]; auto].
  pose proof (run_req_effect e s q Hi) as E.
  destruct (run_req O true e s q) as [[[s1 r1] [|]]|] eqn:Er; [| |discriminate]; intros [= <- <- <-].
  - (* updated: the request comes from the write arm *)
    apply dispatch_req in Ed as [Hp ->]. rewrite (parse_cmd_name e c args q Hp), (updated_write_arm e s q s1 r1 Er).
    rewrite render_negative. right. tauto.
  - rewrite andb_false_r. auto.
Qed.

Lemma inv_exec e s args s' r log : inv s -> exec O true e s args = Done s' r log -> inv s'.
Proof.
  intros Hi H. destruct (exec_effect e s args s' r log Hi H) as [[-> _]|[Hs _]]; [exact Hi | exact Hs].
Qed.

Theorem exec_refines e s args s' r log :
  inv s -> cmd_ok e args -> exec O true e s args = Done s' r log ->
  sexec_cmd O e (abs s) args = (abs s', r) /\ inv s'.
Proof.
  intros Hi Hok H. split; [|exact (inv_exec e s args s' r log Hi H)].
  unfold exec, sexec_cmd, cmd_ok in *. destruct (dispatch O e args) as [c w q|r0]; [|injection H as <- <- _; reflexivity].
  pose proof (run_req_abs O e s q Hi Hok) as A.
  destruct (run_req O true e s q) as [[[s1 r1] u1]|]; [|discriminate]. injection H as <- <- _. injection A as <-. reflexivity.
Qed.

Theorem exec_no_panic e s args : exec O true e s args <> Panic.
Proof.
  unfold exec. destruct (dispatch O e args) as [c w q|r0]; [|discriminate].
  destruct (run_req O true e s q) as [[[s1 r1] u1]|] eqn:Er; [discriminate|].
  exfalso. exact (run_req_no_panic O e s q Er).
Qed.

Theorem negative_changes_nothing e s args s' r log :
  inv s -> exec O true e s args = Done s' r log -> is_negative r = true -> s' = s /\ log = [].
Proof.
  intros Hi H Hn. destruct (exec_effect e s args s' r log Hi H) as [E|(_ & Hp & _)]; [exact E | congruence].
Qed.

Theorem log_shape e s args s' r log :
  exec O true e s args = Done s' r log -> log = [] \/ log = [args].
Proof.
  unfold exec. destruct (dispatch O e args) as [c w q|r0]; [|intros [= _ _ <-]; auto].
  destruct (run_req O true e s q) as [[[s1 r1] u1]|]; [|discriminate]. intros [= _ _ <-]. destruct (w && u1); auto.
Qed.

Theorem run_refines p : forall s, inv s -> prog_ok p ->
  exists sf rs, run O true s p = Some (sf, rs) /\ srun O (abs s) p = (abs sf, rs) /\ inv sf.
Proof.
  induction p as [|[e args] p IH]; intros s Hi Hok.
  - exists s, []. cbn. auto.
  - destruct Hok as [Hc Hp]. cbn [run srun].
    destruct (exec O true e s args) as [s1 r1 l1|] eqn:Ex; [|exfalso; exact (exec_no_panic e s args Ex)].
    destruct (exec_refines e s args s1 r1 l1 Hi Hc Ex) as [Hs Hi1].
    destruct (IH s1 Hi1 Hp) as [sf [rs [Hr [Hsr Hif]]]].
    exists sf, (r1 :: rs). rewrite Hr, Hs, Hsr. auto.
Qed.

(* the invariant needs no side condition on patterns *)
Inductive Reach : state -> Prop :=
| reach_init : Reach []
| reach_step e s args s' r log : Reach s -> exec O true e s args = Done s' r log -> Reach s'.

Theorem reach_inv s : Reach s -> inv s.
Proof. induction 1; [apply inv_nil | eapply inv_exec; eauto]. Qed.

Theorem nonempty_cols s : Reach s -> forall k c, get k s = Some c -> c <> [].
Proof. intros Hr k c Hg. destruct (inv_get _ _ _ (reach_inv s Hr) Hg) as [H _]. exact H. Qed.

Theorem reach_well_formed s : Reach s ->
  msorted s /\ forall k c, get k s = Some c -> c <> [] /\ msorted c /\
     forall id o, get id c = Some o -> o_id o = id /\ msorted (o_fields o).
Proof.
  intros Hr. pose proof (reach_inv s Hr) as Hi. split; [exact (proj1 Hi)|].
  intros k c Hg. destruct (inv_get _ _ _ Hi Hg) as [H1 [H2 H3]]. split; [exact H1|]. split; [exact H2|].
  intros id o Ho. exact (inv_obj _ _ _ _ _ Hi Hg Ho).
Qed.

End Program.

Definition toy_foracle : foracle := mkFOracle (fun d => mkValue KString d) (fun s => s) (fun _ _ => None).
Definition toy_oracle : oracle :=
  mkOracle toy_foracle (fun _ => true) (fun _ => 1000000000%Z) (fun _ => None) (fun _ => None) (fun s => s)
           (fun k args => GOk (mkGeo true (concat args))) (fun _ => []) (fun _ => []) (fun _ _ => [])
           (fun _ j _ _ => OOk j) (fun j _ => OOk j) (fun _ _ _ => None).

Definition toy_env (now : Z) : env := mkEnv now false false false [].

Definition w_k : bytes := Eval compute in bs "k".
Definition w_g : bytes := Eval compute in bs "g".
Definition w_a : bytes := Eval compute in bs "a".
Definition w_b : bytes := Eval compute in bs "b".
Definition w_1 : bytes := Eval compute in bs "1".
Definition w_speed : bytes := Eval compute in bs "speed".
Definition w_FSET : bytes := Eval compute in bs "FSET".
Definition w_XX : bytes := Eval compute in bs "XX".
Definition w_RETURN : bytes := Eval compute in bs "RETURN".
Definition w_POINT : bytes := Eval compute in bs "POINT".
Definition w_STRING : bytes := Eval compute in bs "STRING".
Definition w_FIELD : bytes := Eval compute in bs "FIELD".
Definition w_EX : bytes := Eval compute in bs "EX".
Definition w_GET : bytes := Eval compute in bs "GET".
Definition w_missing : bytes := Eval compute in bs "missing".

(* finding F1: FSET key missingid XX RETURN f v on the pinned tree *)
Definition f1_prog_prefix : list step := [(toy_env 5, [kw_SET; w_k; w_a; w_POINT; w_1; w_1])].
Definition f1_cmd : list bytes := [w_FSET; w_k; w_missing; w_XX; w_RETURN; w_a; w_1].

(* non-vacuity: a reachable state with two collections, a string, a field-bearing point, a deadline *)
Definition demo_prog : list step :=
  [ (toy_env 5, [kw_SET; w_k; w_a; w_FIELD; w_speed; w_1; w_EX; w_1; w_POINT; w_1; w_1]);
    (toy_env 6, [kw_SET; w_g; w_b; w_STRING; w_speed]);
    (toy_env 7, [w_GET; w_k; w_a]) ].

(* the side condition of the refinement cannot be dropped (C12's open finding C12-ff seen from C01):
   PDEL k "ab\xff*" does not delete the id "ab\xff\x01", the plain map does *)
Definition w_PDEL : bytes := Eval compute in bs "PDEL".
Definition ff_id : bytes := [97; 98; 255; 1].
Definition ff_pat : bytes := [97; 98; 255; 42].
Definition ff_prog : list step :=
  [ (toy_env 5, [kw_SET; w_k; ff_id; w_STRING; w_a]); (toy_env 6, [w_PDEL; w_k; ff_pat]) ].

(* (finding C01-scan-count-cursor, repaired in /repo by 3ef88bc + a8face1: the pinned COUNT shortcut
   computes col.Count() - int(cursor), so a cursor >= 2^63 gives a count above the number of objects;
   the model is the repaired shortcut, which also honours LIMIT.) *)
