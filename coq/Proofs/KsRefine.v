(* One-step simulation: on every state satisfying the invariant, the handler model's
   ">> Operation / >> Response" phase of each request computes the plain-map specification's
   new state (through [abs]), reply and "updated" flag. *)
From Coq Require Import ZifyN ZifyNat ZifyBool Sorted.
From T38 Require Import Base.Bytes Base.ListFacts Base.SMap Model.Field Model.Object Model.Glob Model.Spec Model.Keyspace
  Proofs.GlobProofs Proofs.KsField Proofs.KsInv.

(* what a client and the log see of a handler's result, on the plain map *)
Definition abs_out (x : state * reply * bool) : sstate * reply * bool := (abs (fst (fst x)), snd (fst x), snd x).

(* the cases of a request, with one set of argument names for every walk over [run_req] *)
Ltac req_cases q :=
  destruct q as [key id fields ex nx xx rs g|key id xx rs fields|key id erron404|key pat|key|nx key newkey| |key id ex|key id
                 |key id path val raw|key id path|key id wf kind prec|key id fname|key id|key id fname|key id|key|pat
                 |key cursor limit globs desc out nofields|key id path raw].

Section Refine.
Variable O : oracle.

Lemma fset_fold fields : forall l n l' n', msorted l ->
  fold_left (fset_step O) fields (l, n) = (l', n') ->
  fold_left (sf_fset_step (o_f O)) fields (l, n) = (l', n') /\ msorted l'.
Proof.
  induction fields as [|f fs IH]; intros l n l' n' Hs H; cbn [fold_left] in *.
  - inversion H; subst. split; [reflexivity | exact Hs].
  - assert (Hstep : fset_step O (l, n) f = sf_fset_step (o_f O) (l, n) f).
    { unfold fset_step, sf_fset_step. rewrite (fl_get_spec (o_f O) l (fst f) Hs), (fl_set_spec l f Hs).
      destruct (value_same _ _); reflexivity. }
    rewrite Hstep in H. unfold sf_fset_step in *.
    destruct (value_same _ _); apply IH in H; try exact H; [exact Hs | apply sf_set_sorted; exact Hs].
Qed.

(* FSET counts the fields it writes: a count that did not move means a list that did not change *)
Lemma fset_count fields : forall l n l' n',
  fold_left (fset_step O) fields (l, n) = (l', n') -> (n <= n')%Z /\ (n' = n -> l' = l).
Proof.
  induction fields as [|f fs IH]; intros l n l' n' H; cbn [fold_left] in H.
  - inversion H; subst. split; [lia | reflexivity].
  - unfold fset_step at 2 in H. destruct (negb _); apply IH in H; [lia | exact H].
Qed.

(* range-limited iteration (PDEL, KEYS) = C12's range_select *)
Lemma keys_drop_below {V} lo (m : smap V) : keys (Keyspace.drop_below lo m) = GlobProofs.drop_below lo (keys m).
Proof.
  unfold keys. induction m as [|[k v] r IH]; cbn; [reflexivity|].
  destruct (bytes_ltb k lo); [exact IH | reflexivity].
Qed.

Lemma keys_take_upto {V} hi incl (m : smap V) : keys (Keyspace.take_upto hi incl m) = GlobProofs.take_upto hi incl (keys m).
Proof.
  unfold keys. induction m as [|[k v] r IH]; cbn; [reflexivity|].
  destruct (if incl then bytes_gtb k hi else bytes_geb k hi); cbn; [reflexivity | rewrite IH; reflexivity].
Qed.

Lemma keys_filter {V} (P : bytes -> bool) (m : smap V) : keys (filter (fun io => P (fst io)) m) = filter P (keys m).
Proof. symmetry. apply filter_map_comm. Qed.

Lemma map_filter_key {A B} (f : A -> B) (P : bytes -> bool) (m : smap A) :
  smap_map f (filter (fun io => P (fst io)) m) = filter (fun io => P (fst io)) (smap_map f m).
Proof. symmetry. exact (filter_map_comm (fun kv => (fst kv, f (snd kv))) (fun io => P (fst io)) m). Qed.

Lemma map_drop_below {A B} (f : A -> B) lo (m : smap A) :
  Keyspace.drop_below lo (smap_map f m) = smap_map f (Keyspace.drop_below lo m).
Proof.
  unfold smap_map. induction m as [|[k v] r IH]; cbn; [reflexivity|].
  destruct (bytes_ltb k lo); [exact IH | reflexivity].
Qed.

Lemma map_take_upto {A B} (f : A -> B) hi incl (m : smap A) :
  Keyspace.take_upto hi incl (smap_map f m) = smap_map f (Keyspace.take_upto hi incl m).
Proof.
  unfold smap_map. induction m as [|[k v] r IH]; cbn; [reflexivity|].
  destruct (if incl then bytes_gtb k hi else bytes_geb k hi); cbn; [reflexivity | rewrite IH; reflexivity].
Qed.

Lemma map_range_scan {A B} (f : A -> B) pat incl (m : smap A) :
  range_scan pat incl (smap_map f m) = smap_map f (range_scan pat incl m).
Proof.
  unfold range_scan. destruct (unlimited (parse pat false)); [reflexivity|].
  rewrite map_drop_below, map_take_upto. reflexivity.
Qed.

Lemma range_scan_keys {V} pat incl (m : smap V) :
  msorted m -> prefix_ends_ff pat = false ->
  filter (matchesb pat) (keys (range_scan pat incl m)) = filter (matchesb pat) (keys m).
Proof.
  intros Hs Hff. pose proof (range_select_exact pat incl (keys m) Hs Hff) as H.
  unfold range_select in H. unfold range_scan.
  destruct (unlimited (parse pat false)); [reflexivity|].
  rewrite keys_take_upto, keys_drop_below. exact H.
Qed.

Lemma fold_del_cons {V} ids k (v : V) : forall r,
  (forall id, In id ids -> bytes_eqb id k = false) ->
  fold_left (fun c id => del id c) ids ((k, v) :: r) = (k, v) :: fold_left (fun c id => del id c) ids r.
Proof.
  induction ids as [|i ids IH]; intros r Hne; cbn [fold_left]; [reflexivity|].
  cbn [del]. rewrite (Hne i (or_introl eq_refl)). apply IH. intros id Hin. apply Hne. right; exact Hin.
Qed.

Lemma fold_del_filter {V} (P : bytes -> bool) (m : smap V) :
  msorted m ->
  fold_left (fun c id => del id c) (filter P (keys m)) m = filter (fun io => negb (P (fst io))) m.
Proof.
  induction m as [|[k v] r IH]; intros Hs; [reflexivity|].
  pose proof (msorted_inv _ _ _ Hs) as [Hr Hall].
  cbn [keys map fst filter]. destruct (P k) eqn:Pk; cbn [negb].
  - cbn [fold_left del]. rewrite bytes_eqb_refl. apply IH; exact Hr.
  - rewrite fold_del_cons.
    + f_equal. apply IH; exact Hr.
    + intros id Hin. apply filter_In in Hin. destruct Hin as [Hin _].
      rewrite Forall_forall in Hall. rewrite eqb_sym. apply ltb_eqb_false. apply Hall. exact Hin.
Qed.

Lemma fold_del_ok ids : forall c, msorted c -> Forall obj_ok c ->
  msorted (fold_left (fun c id => del id c) ids c) /\ Forall obj_ok (fold_left (fun c id => del id c) ids c).
Proof.
  induction ids as [|i ids IH]; intros c Hs HF; cbn [fold_left]; [split; assumption|].
  apply IH; [apply msorted_del; exact Hs | apply Forall_del; exact HF].
Qed.

Lemma absc_filter (P : bytes -> bool) c :
  abs_col (filter (fun io => P (fst io)) c) = filter (fun io => P (fst io)) (abs_col c).
Proof. apply map_filter_key. Qed.

Lemma filter_keys_length {V} (P : bytes -> bool) (m : smap V) :
  length (filter (fun io => P (fst io)) m) = length (filter P (keys m)).
Proof. rewrite <- keys_filter. unfold keys. rewrite map_length. reflexivity. Qed.

Lemma isempty_length {A} (l : list A) : isempty l = (length l =? 0)%nat.
Proof. destruct l; reflexivity. Qed.

Lemma scan_pick_abs c ids : scan_pick (abs_col c) ids = smap_map abs_obj (scan_pick c ids).
Proof.
  unfold scan_pick, smap_map. induction ids as [|i ids IH]; cbn; [reflexivity|].
  rewrite absc_get. rewrite map_app, <- IH. destruct (get i c); reflexivity.
Qed.

Lemma scan_pick_ok c ids : Forall obj_ok c -> Forall obj_ok (scan_pick c ids).
Proof.
  intros HF. unfold scan_pick. induction ids as [|i ids IH]; cbn; [constructor|].
  apply Forall_app. split; [|exact IH].
  destruct (get i c) as [o|] eqn:E; [|constructor].
  constructor; [exact (Forall_get obj_ok i c o HF E) | constructor].
Qed.

Lemma scan_items out nf l : Forall obj_ok l ->
  map (scan_item_impl out nf) l = map (scan_item O out nf) (smap_map abs_obj l).
Proof.
  intros HF. unfold smap_map. rewrite map_map.
  apply map_ext_in. intros [i o] Hin. rewrite Forall_forall in HF. destruct (HF _ Hin) as [Hid _].
  cbn in Hid. unfold scan_item_impl, scan_item. cbn. rewrite Hid. reflexivity.
Qed.

Lemma count_shortcut n cursor lim :
  (if lim <? (if n <=? cursor then 0 else n - cursor) then lim else (if n <=? cursor then 0 else n - cursor)) = N.min (n - cursor) lim.
Proof. destruct (n <=? cursor) eqn:E1; destruct (lim <? _) eqn:E2; lia. Qed.

Lemma parse_reentry e key id json :
  parse_set O e [kw_SET; key; id; kw_OBJECT; json] =
  match o_mkgeo O GK_OBJECT [json] with
  | GOk g => PReq (QSet key id [] 0%Z false false (mkRet false false RK_OBJECT 0%Z) g)
  | GErr msg => PErr msg
  end.
Proof.
  unfold parse_set. cbn. destruct (o_mkgeo O GK_OBJECT [json]); reflexivity.
Qed.

(* on an object that exists: re-parse the document, keep the fields, drop the deadline *)
Lemma reenter_existing e (s : state) key (c : col) id o json :
  get key s = Some c -> get id c = Some o ->
  reenter_set O e s key id json =
  match o_mkgeo O GK_OBJECT [json] with
  | GOk g => (set key (set id (mkObj id g 0%Z (o_fields o)) c) s, ROk str_OK, true)
  | GErr msg => (s, RErr msg, false)
  end.
Proof.
  intros Ek Eid. unfold reenter_set. rewrite parse_reentry.
  destruct (o_mkgeo O GK_OBJECT [json]); [|reflexivity]. unfold cmd_set. rewrite Ek, Eid. reflexivity.
Qed.

Definition req_ok (q : req) : Prop :=
  match q with
  | QPdel _ pat => prefix_ends_ff pat = false
  | QKeys pat => prefix_ends_ff pat = false
  | _ => True
  end.

Lemma abs_out_put (s : state) key id (c : col) g ex fl r u :
  abs_out (set key (set id (mkObj id g ex fl) c) s, r, u) =
  (set key (set id (mkSObj g fl ex) (abs_col c)) (abs s), r, u).
Proof. unfold abs_out. cbn [fst snd]. rewrite abs_set, absc_set. reflexivity. Qed.

(* Each case: push [abs] through the lookups, follow the handler's branches; a branch that stores
   nothing is closed by computation, one that stores an object by abs_out_put. *)
Theorem run_req_abs e s q : inv s -> req_ok q ->
  option_map abs_out (run_req O true e s q) = Some (sexec O matchesb e (abs s) q).
Proof.
  intros Hi Hq.
  req_cases q;
    cbn [run_req sexec option_map]; unfold put, remove; rewrite ?abs_lookup, ?abs_col_of, ?abs_get, ?abs_keys;
    unfold find, mem, cmd_set, cmd_fset, cmd_del, cmd_pdel, cmd_drop, cmd_rename, cmd_expire, cmd_persist, cmd_jset, cmd_jdel;
    try apply (f_equal Some);
    try (destruct (get key s) as [c|] eqn:Ek; cbn [option_map]; rewrite ?absc_get;
         [try (destruct (get id c) as [o|] eqn:Eid; cbn [option_map abs_obj s_geo s_fields s_ex];
               [destruct (inv_obj _ _ _ _ _ Hi Ek Eid) as [_ Hof]|])|]);
    try reflexivity.
  - (* SET *)
    rewrite <- (proj1 (fold_fl_set_spec fields _ Hof)). destruct nx, xx; try reflexivity; apply abs_out_put.
  - rewrite <- (proj1 (fold_fl_set_spec fields _ msorted_nil)). destruct nx, xx; try reflexivity; apply abs_out_put.
  - destruct xx; [destruct nx; reflexivity|]. cbn [get]. rewrite andb_false_r.
    rewrite (set_set key [] _ s (proj1 Hi)), <- (proj1 (fold_fl_set_spec fields _ msorted_nil)).
    destruct nx; apply (abs_out_put s key id []).
  - (* FSET *)
    destruct (fold_left (fset_step O) fields (o_fields o, 0%Z)) as [ofields n] eqn:Ef.
    rewrite (proj1 (fset_fold fields _ _ _ _ Hof Ef)).
    cbn [option_map]. rewrite abs_out_put. reflexivity.
  - destruct xx; cbn [negb]; [rewrite andb_false_r|]; reflexivity.
  - (* DEL *)
    unfold abs_out. cbn [fst snd]. rewrite abs_store_col, absc_del. reflexivity.
  - destruct erron404; reflexivity.
  - destruct erron404; reflexivity.
  - (* PDEL: the ids found by the range-limited iteration are the matching ids *)
    destruct (inv_get _ _ _ Hi Ek) as [_ [Hcs _]].
    change (map fst ?x) with (keys x). rewrite keys_filter, (range_scan_keys pat false c Hcs Hq).
    rewrite (fold_del_filter (matchesb pat) c Hcs).
    unfold abs_out. cbn [fst snd]. rewrite abs_store_col, (absc_filter (fun k => negb (matchesb pat k)) c).
    rewrite !isempty_length, !filter_keys_length, !absc_keys.
    destruct (filter _ (abs_col c)); reflexivity.
  - (* DROP *)
    unfold abs_out. cbn [fst snd]. rewrite abs_del. reflexivity.
  - (* RENAME *)
    destruct (hook_guard e key newkey); [reflexivity|].
    destruct (get newkey s) as [c2|] eqn:En; cbn [option_map]; destruct nx; cbn [negb]; try reflexivity;
      unfold abs_out; cbn [fst snd]; rewrite abs_set, !abs_del; try reflexivity;
      (* no collection under the new key: the specification's del is idle *)
      rewrite (del_absent newkey (abs s)) by (rewrite abs_get, En; reflexivity); reflexivity.
  - (* EXPIRE *) apply abs_out_put.
  - (* PERSIST *) destruct (o_ex o =? 0)%Z; [reflexivity | apply abs_out_put].
  - (* JSET *)
    destruct (o_sjson_set O raw (g_text (o_geo o)) path val) as [json'|msg]; [|reflexivity].
    destruct (g_spatial (o_geo o)); [|apply abs_out_put].
    rewrite (reenter_existing e s key c id o json' Ek Eid).
    destruct (o_mkgeo O GK_OBJECT [json']); [apply abs_out_put | reflexivity].
  - destruct (o_sjson_set O raw [] path val); [apply abs_out_put | reflexivity].
  - cbn [get]. destruct (o_sjson_set O raw [] path val); [|reflexivity].
    rewrite (set_set key [] _ s (proj1 Hi)). apply (abs_out_put s key id []).
  - (* JDEL *)
    destruct (o_sjson_del O (g_text (o_geo o)) path) as [json'|msg]; [|reflexivity].
    destruct (bytes_eqb json' (g_text (o_geo o))); [reflexivity|].
    destruct (g_spatial (o_geo o)); [|apply abs_out_put].
    rewrite (reenter_existing e s key c id o json' Ek Eid).
    destruct (o_mkgeo O GK_OBJECT [json']); [apply abs_out_put | reflexivity].
  - destruct (o_sjson_del O [] path) as [json'|msg]; [|reflexivity].
    destruct (bytes_eqb json' []); [reflexivity | apply abs_out_put].
  - (* FGET *) rewrite (fl_get_spec (o_f O) _ fname Hof). reflexivity.
  - (* FEXISTS *) rewrite (fl_get_spec (o_f O) _ fname Hof). reflexivity.
  - (* KEYS *) rewrite (range_scan_keys pat true s (proj1 Hi) Hq). reflexivity.
  - (* SCAN *)
    rewrite absc_keys, absc_length.
    destruct (out =? OUT_COUNT); [destruct (glob_everything globs)|].
    + rewrite count_shortcut. reflexivity.
    + destruct (scan_select _ _ _ _ _ _) as [ids cur]. reflexivity.
    + destruct (scan_select _ _ _ _ _ _) as [ids cur]. rewrite scan_pick_abs.
      rewrite (scan_items out nofields _ (scan_pick_ok c ids (proj2 (proj2 (inv_get _ _ _ Hi Ek))))). reflexivity.
  - (* JGET *) destruct (o_jget O (g_text (o_geo o)) path raw); reflexivity.
Qed.

(* e.g. DEL: the emptied collection has to go *)
Lemma del_refines e s key id e404 : inv s ->
  option_map abs_out (run_req O true e s (QDel key id e404)) = Some (sexec O matchesb e (abs s) (QDel key id e404)).
Proof. intros Hi. exact (run_req_abs e s (QDel key id e404) Hi I). Qed.

(* the repaired handlers never reach the nil dereference *)
Theorem run_req_no_panic e s q : run_req O true e s q <> None.
Proof.
  destruct q; cbn [run_req]; try discriminate.
  unfold cmd_fset. destruct (get key s) as [c|]; [|discriminate].
  destruct (get id c); [|].
  - destruct (fold_left (fset_step O) fields (o_fields o, 0%Z)). discriminate.
  - destruct xx; cbn; [rewrite andb_false_r|]; discriminate.
Qed.

End Refine.
