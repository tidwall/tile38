(* C03 instantiated with the keyspace model: the log of a program of keyspace commands, replayed
   from the same initial state, reproduces the live state; a kill at any byte recovers the state
   after a prefix of the program (Props/C03ks.v, from [ks_inv] and [ks_noupd] in the same way).

   [ks_exec O e] is Model/Keyspace.exec (repaired tree) seen as the `exec : S -> cmd -> S * bool` of
   Model/Replay.v: the flag is "writeAOF appended the command". The clock is FROZEN: live run and
   replay use the same environment [e] (same `now`, leader, not read-only). With a moving clock the
   deadlines written by SET ... EX / EXPIRE differ between the live run and the replay; that the
   states then agree up to deadline values is Proofs/KsDeadline.v.

   `noupd` holds in every state satisfying the invariant [inv] (Proofs/KsInv.v), which [exec]
   preserves: the theorems are the instances of Proofs/ReplayProofs.v at good := inv. *)
From Coq Require Import String.
From Coq Require Import ZifyN ZifyNat ZifyBool Lia.
From T38 Require Import Base.Bytes Base.SMap Model.Field Model.Object Model.Glob Model.Spec Model.Keyspace
  Proofs.KsField Proofs.KsInv Proofs.KsRefine Proofs.KsProgram.
From T38 Require Model.Resp Model.Aof Proofs.RespProofs Proofs.AofProofs Model.Replay Proofs.ReplayProofs.

Section KsReplay.
Variable O : oracle.

Definition req_writes (q : req) : bool :=
  match q with
  | QSet _ _ _ _ _ _ _ _ | QFset _ _ _ _ _ | QDel _ _ _ | QPdel _ _ | QDrop _ | QRename _ _ _ | QFlushdb
  | QExpire _ _ _ | QPersist _ _ | QJset _ _ _ _ _ | QJdel _ _ _ => true
  | _ => false
  end.

(* frozen clock e; flag = "the command was appended to the log" *)
Definition ks_exec (e : env) : state -> list bytes -> state * bool :=
  fun s args =>
    match exec O true e s args with
    | Done s' _ log => (s', negb (isempty log))
    | Panic => (s, false)
    end.

(* an un-logged command leaves the dataset as it was: reads, errors, negative answers, writes with
   updated = false. (False for JDEL with the pinned lock table, where jdel was outside the write arm.) *)
Theorem ks_noupd e s c : inv s -> snd (ks_exec e s c) = false -> fst (ks_exec e s c) = s.
Proof.
  intros Hi. unfold ks_exec. destruct (exec O true e s c) as [s' r log|] eqn:Ex; [|reflexivity].
  destruct (exec_effect O e s c s' r log Hi Ex) as [[-> _]|(_ & _ & ->)]; [reflexivity | discriminate].
Qed.

Lemma ks_inv e s c : inv s -> inv (fst (ks_exec e s c)).
Proof.
  intros Hi. unfold ks_exec. destruct (exec O true e s c) as [s' r l|] eqn:Ex; [|exact Hi].
  cbn [fst]. eapply inv_exec; eauto.
Qed.

(* replaying the log (same frozen environment) from the same well-formed initial state — in
   particular the empty database — yields the state the live run reached *)
Theorem ks_replay_equiv e p s0 : inv s0 ->
  Replay.replay state (ks_exec e) (Replay.logof state (ks_exec e) p s0) s0 = Replay.run state (ks_exec e) p s0.
Proof. exact (ReplayProofs.replay_logof_on state (ks_exec e) inv (ks_inv e) (ks_noupd e) p s0). Qed.

End KsReplay.

(* The pinned lock table (jdel outside the write arm, finding F3) refutes noupd:
   with the pinned arm, JDEL changes the dataset and hands nothing to writeAOF. The model of
   the pinned arm is [exec] with the log forced to [] for jdel; the witness over jd_oracle
   (Props/C03ks.v, c03ks_jdel_changes_and_is_logged) shows the state change on the current model, whose
   log is [args] — i.e. exactly the record the pinned tree lost. *)
Definition w_JDEL : bytes := Eval compute in Spec.bs "JDEL".
Definition w_JSET : bytes := Eval compute in Spec.bs "JSET".
Definition jd_oracle : oracle :=
  mkOracle toy_foracle (fun _ => true) (fun _ => 1000000000%Z) (fun _ => None) (fun _ => None) (fun s => s)
           (fun k args => GOk (mkGeo true (concat args))) (fun _ => []) (fun _ => []) (fun _ _ => [])
           (fun _ j _ v => OOk (j ++ v)) (fun j _ => OOk (removelast j)) (fun _ _ _ => None).

