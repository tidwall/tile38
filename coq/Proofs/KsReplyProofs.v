(* C17 on the keyspace model — lemmas about Model/KsReply.v:
   - an instantiation of a template by [tfill] is an instance ([inst]) of it, hence (regenerated
     templates are all accepted by the checker) one valid JSON document;
   - the document tree printed compactly is exactly that instantiation;
   - the RESP value is well-formed;
   - both replies are projected onto the same conveyed result;
   - the RESP rendering of the step's abstract result is C01's modelled reply, and the abstract result
     of a handler is one its command can answer with (Section Handlers: one walk through the handlers,
     kres_of_ok, and one through the step function, exec_k_spec), so that one step of a connection has
     all of the above, whether a handler answered or the gate / the argument parser refused (step_modes).
   What one of the two replies carries and the other does not is stated in Props/C17ks.v. *)
From Coq Require Import String.
From Coq Require Import DecimalN.
From T38 Require Import Base.Bytes Base.ListFacts Base.Utf8 Base.SMap Model.Field Model.Object Model.Cursor Model.Spec Model.Glob Model.Keyspace.
From T38 Require Import Model.Json Model.Templates Model.KsReply.
From T38 Require Import Proofs.JsonProofs Proofs.JsonTmplProofs Proofs.JsonGenProofs Proofs.JsonRespProofs.
From T38 Require Proofs.KsField Proofs.KsRefine.
From T38 Require Model.RespOut.
From T38 Require Gen.Templates.
Local Open Scope N_scope.

(* strconv.Itoa prints an integer text *)

Lemma forallb_digits u : forallb Json.is_digit (RespOut.bytes_of_uint u) = true.
Proof. induction u; cbn [RespOut.bytes_of_uint forallb]; try rewrite IHu; reflexivity. Qed.

Lemma unorm_nat_text d : is_nat_text (RespOut.bytes_of_uint (Decimal.unorm d)) = true.
Proof.
  unfold Decimal.unorm. induction d; cbn [Decimal.nzhead]; [reflexivity | exact IHd | ..];
    cbn [RespOut.bytes_of_uint is_nat_text]; rewrite forallb_digits; reflexivity.
Qed.

Lemma print_N_nat_text n : is_nat_text (RespOut.print_N n) = true.
Proof.
  unfold RespOut.print_N.
  rewrite <- (DecimalN.Unsigned.of_to n) at 1. rewrite DecimalN.Unsigned.to_of.
  apply unorm_nat_text.
Qed.

Lemma nat_text_int v : is_nat_text v = true -> is_int_text v = true.
Proof.
  destruct v as [|c r]; [discriminate|]. cbn [is_int_text].
  destruct (N.eqb_spec c 45) as [->|_]; [discriminate | trivial].
Qed.

Lemma print_int_text z : is_int_text (RespOut.print_int z) = true.
Proof.
  destruct z as [|p|p]; [reflexivity | apply nat_text_int, print_N_nat_text | apply (print_N_nat_text (Npos p))].
Qed.

Definition fill_ok (f : fill) : Prop :=
  match f with
  | FSafe t => string_safe t = true
  | FJson t => json_value t
  | _ => True
  end.

Lemma tfill_inst t : forall fs, Forall fill_ok fs ->
  match tfill t fs with Some (v, r) => inst t v /\ Forall fill_ok r | None => True end.
Proof.
  induction t as [s| | | | | | | |a IHa b IHb|a IHa b IHb|a IHa]; intros fs Hok; cbn [tfill].
  4: exact I.
  (* a hole takes the fill at the head of the list, which has to be of its kind *)
  2-7: (destruct fs as [|[] fs']; try exact I; split; [|exact (Forall_inv_tail Hok)]).
  - split; [apply ILit | exact Hok].
  - apply IStr.
  - apply IInt, print_int_text.
  - apply (IBool b).
  - apply IDur, (Forall_inv Hok).
  - apply IJson, (Forall_inv Hok).
  - apply IRaw, (Forall_inv Hok).
  - specialize (IHa fs Hok). destruct (tfill a fs) as [[x r1]|]; [|exact I]. destruct IHa as [Hx Hr1].
    specialize (IHb r1 Hr1). destruct (tfill b r1) as [[y r2]|]; [|exact I].
    split; [apply ISeq; [exact Hx | apply IHb] | apply IHb].
  - destruct fs as [|[] fs']; try exact I; apply Forall_inv_tail in Hok.
    + specialize (IHa fs' Hok). destruct (tfill a fs') as [[x r]|]; [|exact I]. split; [apply IAltL|]; apply IHa.
    + specialize (IHb fs' Hok). destruct (tfill b fs') as [[x r]|]; [|exact I]. split; [apply IAltR|]; apply IHb.
  - destruct fs as [|[] fs']; try exact I. apply Forall_inv_tail in Hok. revert fs' Hok.
    induction n as [|n IHn]; intros fs Hok; cbn [rep_fill]; [split; [apply IStar0 | exact Hok]|].
    specialize (IHa fs Hok). destruct (tfill a fs) as [[x r1]|]; [|exact I]. destruct IHa as [Hx Hr1].
    specialize (IHn r1 Hr1). destruct (rep_fill (tfill a) n r1) as [[y r2]|]; [|exact I].
    split; [apply IStarS; [exact Hx | apply IHn] | apply IHn].
Qed.

Lemma tinst_inst t fs v : tinst t fs = Some v -> Forall fill_ok fs -> inst t v.
Proof.
  unfold tinst. intros H Hok. pose proof (tfill_inst t fs Hok) as X.
  destruct (tfill t fs) as [[x [|]]|]; try discriminate. inversion H; subst. exact (proj1 X).
Qed.

Lemma lit_value_null : json_value t_null.
Proof. apply exact_run_value. intros q st [ -> | -> ]; reflexivity. Qed.

Lemma lit_value_zero : json_value str_0.
Proof. apply int_text_value. reflexivity. Qed.

(* the unsigned part of a FormatFloat(f,'f',-1,64) text *)
Definition dec_body (u : bytes) : bool :=
  match split_dot u with
  | None => is_nat_text u
  | Some (i, f) => is_nat_text i && nonempty f && forallb Json.is_digit f
  end.

Lemma dec_body_run u st m : num_start m -> dec_body u = true ->
  exists n, jrun u (m, st) = Some (MNum n, st) /\ num_terminal n = true.
Proof.
  unfold dec_body. intros Hm H. destruct (split_dot u) as [[i f]|] eqn:E.
  - apply andb_true_iff in H. destruct H as [H Hf]. apply andb_true_iff in H. destruct H as [Hi Hne].
    rewrite (KsField.split_dot_app _ _ _ E). unfold DOT.
    destruct (nat_text_run i st m Hm Hi) as (n & Hr & Hn).
    exists NFrac. split; [|reflexivity].
    eapply jrun_app_some; [exact Hr|].
    destruct f as [|c f']; [discriminate|]. cbn [forallb] in Hf. apply andb_true_iff in Hf. destruct Hf as [Hc Hf'].
    cbn [jrun].
    assert (E1 : jstep (MNum n, st) 46 = Some (MNum NDot, st)) by (destruct Hn as [ -> | -> ]; reflexivity).
    rewrite E1. cbn [jstep num_step]. rewrite Hc. apply digits_run; auto.
  - destruct (nat_text_run u st m Hm H) as (n & Hr & [ -> | -> ]); eauto.
Qed.

Lemma dec_text_value v : is_dec_text v = true -> json_value v.
Proof.
  destruct v as [|c r]; [discriminate|]. intros H.
  apply (signed_number_value dec_body dec_body_run). exact H.
Qed.

(* appendJSONFloat: null or the FormatFloat text *)
Lemma jf_value t : float_text t = true -> json_value (jf t).
Proof.
  unfold float_text, jf. destruct (is_nonfinite t); cbn [orb]; intros H.
  - apply lit_value_null.
  - apply dec_text_value; exact H.
Qed.

Lemma marshal_string_value s : json_value (marshal_string s).
Proof. apply string_token_value, marshal_string_run. Qed.

Lemma raw_string_value s : string_safe s = true -> json_value (34 :: s ++ [34]).
Proof.
  intros Hs. apply string_token_value. intros q k st. apply quoted_run.
  intros. apply safe_run, string_safe_Forall, Hs.
Qed.

Definition jitems {A} (pr : A -> bytes) : bool -> list A -> bytes :=
  fix go (first : bool) (l : list A) : bytes :=
    match l with
    | [] => []
    | x :: r => (if first then [] else [44]) ++ pr x ++ go false r
    end.

Fixpoint jmembers (first : bool) (m : list (bytes * jv)) : bytes :=
  match m with
  | [] => []
  | p :: r => (if first then [] else [44]) ++ json_string (fst p) ++ 58 :: jprint (snd p) ++ jmembers false r
  end.

Definition member_text (p : bytes * jv) : bytes := json_string (fst p) ++ 58 :: jprint (snd p).

Lemma jprint_arr l : jprint (VArr l) = 91 :: jitems jprint true l ++ [93].
Proof. reflexivity. Qed.

Lemma jprint_obj m : jprint (VObj m) = 123 :: jmembers true m ++ [125].
Proof. reflexivity. Qed.

Lemma jmembers_items first m : jmembers first m = jitems member_text first m.
Proof.
  revert first. induction m as [|p r IH]; intros first; cbn [jmembers jitems]; [reflexivity|].
  rewrite IH. unfold member_text. rewrite <- app_assoc. reflexivity.
Qed.

Lemma jmembers_true m : m <> [] -> 44 :: jmembers true m = jmembers false m.
Proof. destruct m as [|p r]; [congruence|]. reflexivity. Qed.

Section JvInd.
Variable P : jv -> Prop.
Hypothesis HStr : forall s, P (VStr s).
Hypothesis HMStr : forall s, P (VMStr s).
Hypothesis HRaw : forall s, P (VRawStr s).
Hypothesis HTok : forall t, P (VTok t).
Hypothesis HArr : forall l, Forall P l -> P (VArr l).
Hypothesis HObj : forall m, Forall (fun p => P (snd p)) m -> P (VObj m).

Fixpoint jv_ind2 (j : jv) : P j :=
  match j with
  | VStr s => HStr s
  | VMStr s => HMStr s
  | VRawStr s => HRaw s
  | VTok t => HTok t
  | VArr l =>
      HArr l ((fix go (l : list jv) : Forall P l :=
                 match l with
                 | [] => Forall_nil _
                 | x :: r => Forall_cons x (jv_ind2 x) (go r)
                 end) l)
  | VObj m =>
      HObj m ((fix go (m : list (bytes * jv)) : Forall (fun p => P (snd p)) m :=
                 match m with
                 | [] => Forall_nil _
                 | p :: r => Forall_cons p (jv_ind2 (snd p)) (go r)
                 end) m)
  end.
End JvInd.

Fixpoint jv_wf (j : jv) : Prop :=
  match j with
  | VStr _ | VMStr _ => True
  | VRawStr s => string_safe s = true
  | VTok t => json_value t
  | VArr l => (fix all (l : list jv) : Prop := match l with [] => True | x :: r => jv_wf x /\ all r end) l
  | VObj m => (fix all (m : list (bytes * jv)) : Prop := match m with [] => True | p :: r => jv_wf (snd p) /\ all r end) m
  end.

Lemma all_conj_Forall {A} (P : A -> Prop) l :
  (fix all (l : list A) : Prop := match l with [] => True | x :: r => P x /\ all r end) l <-> Forall P l.
Proof.
  induction l as [|x r IH]; [split; auto|].
  split; [intros [Hx Hr]; constructor; [exact Hx | apply IH; exact Hr]
         | intros H; inversion H; subst; split; [assumption | apply IH; assumption]].
Qed.

Lemma jv_wf_arr l : jv_wf (VArr l) <-> Forall jv_wf l.
Proof. exact (all_conj_Forall jv_wf l). Qed.

Lemma jv_wf_obj m : jv_wf (VObj m) <-> Forall (fun p => jv_wf (snd p)) m.
Proof. exact (all_conj_Forall (fun p => jv_wf (snd p)) m). Qed.

(* Arrays and objects differ in the bracket (fr_open, fr_close), in the state after the opening
   bracket (fr_first) and in the state after a comma (fr_next). *)
Definition fr_open (fr : frame) : N := match fr with FArr => 91 | FObj => 123 end.
Definition fr_close (fr : frame) : N := match fr with FArr => 93 | FObj => 125 end.
Definition fr_first (fr : frame) : mode := match fr with FArr => MArrStart | FObj => MObjStart end.
Definition fr_next (fr : frame) : mode := match fr with FArr => MValue | FObj => MKey end.

Definition item_of (fr : frame) (x : bytes) : Prop :=
  forall st m, m = fr_first fr \/ m = fr_next fr -> runs x (m, fr :: st) (MAfter, fr :: st).

Lemma jitems_more {A} (pr : A -> bytes) fr st l : Forall (fun x => item_of fr (pr x)) l ->
  runs (jitems pr false l) (MAfter, fr :: st) (MAfter, fr :: st).
Proof.
  induction 1 as [|x r Hx _ IH]; cbn [jitems].
  - apply (run_sim []). reflexivity.
  - apply (runs_app [44] _ _ (fr_next fr, fr :: st)); [apply run_sim; destruct fr; reflexivity|].
    exact (runs_app _ _ _ _ _ (Hx st _ (or_intror eq_refl)) IH).
Qed.

Lemma bracketed_value {A} (pr : A -> bytes) fr l : Forall (fun x => item_of fr (pr x)) l ->
  json_value (fr_open fr :: jitems pr true l ++ [fr_close fr]).
Proof.
  intros Hl. apply runs_value. intros q q' Hq. destruct (hole_value_start _ _ Hq) as (st & Hm & ->).
  apply (runs_app [fr_open fr] _ _ (fr_first fr, fr :: st));
    [apply run_sim; destruct fr, Hm as [ -> | -> ]; reflexivity|].
  destruct Hl as [|x r Hx Hr]; cbn [jitems app].
  - apply run_sim. destruct fr; reflexivity.
  - rewrite <- app_assoc. apply (runs_app _ _ _ _ _ (Hx st _ (or_introl eq_refl))).
    apply (runs_app _ _ _ _ _ (jitems_more pr fr st r Hr)). apply run_sim. destruct fr; reflexivity.
Qed.

Lemma elem_item x : json_value x -> item_of FArr x.
Proof. intros Hx st m Hm. apply (value_hole_run _ _ _ Hx). destruct Hm as [ -> | -> ]; reflexivity. Qed.

Lemma member_item p : json_value (jprint (snd p)) -> item_of FObj (member_text p).
Proof.
  intros Hv st m Hm. apply (runs_app _ _ _ (MColon, FObj :: st)).
  - apply run_sim, (json_string_run _ _ true). destruct Hm as [ -> | -> ]; reflexivity.
  - apply (runs_app [58] _ _ (MValue, FObj :: st)); [apply run_sim; reflexivity|].
    apply (value_hole_run _ _ _ Hv). reflexivity.
Qed.

Theorem jprint_value : forall j, jv_wf j -> json_value (jprint j).
Proof.
  induction j as [s|s|s|t|l IH|m IH] using jv_ind2; intros Hw.
  - apply json_string_value.
  - apply marshal_string_value.
  - apply raw_string_value. exact Hw.
  - exact Hw.
  - apply (bracketed_value jprint FArr). apply jv_wf_arr in Hw.
    rewrite Forall_forall in *. intros x Hx. apply elem_item, IH; auto.
  - rewrite jprint_obj, jmembers_items. apply (bracketed_value member_text FObj). apply jv_wf_obj in Hw.
    rewrite Forall_forall in *. intros p Hp. apply member_item, IH; auto.
Qed.

Lemma json_value_valid v : json_value v -> valid_json v = true.
Proof. intros H. exact (runs_valid v (value_hole_run v jstart _ H eq_refl)). Qed.

(* well-formed results: what the libraries behind the opaque texts are trusted to produce *)

(* field.Value: ValueOf / bfield only build these shapes; a Number's data passed gjson.Valid, a JSON
   value's data is pretty.Ugly of a valid document *)
Definition value_wf (v : value) : Prop :=
  if v_kind v =? KNumber then is_nonfinite (v_data v) = true \/ json_value (v_data v)
  else if v_kind v =? KString then True
  else if v_kind v =? KTrue then v_data v = t_true
  else if v_kind v =? KFalse then v_data v = t_false
  else if v_kind v =? KNull then v_data v = t_null
  else if v_kind v =? KJSON then json_value (v_data v)
  else False.

Definition geoview_wf (gv : geoview) : Prop :=
  match gv with
  | GVObject g => g_spatial g = true -> json_value (g_text g)      (* geojson AppendJSON *)
  | GVPoint cs => (length cs = 2 \/ length cs = 3)%nat /\ forallb float_text cs = true   (* strconv.FormatFloat *)
  | GVBounds cs => length cs = 4%nat /\ forallb float_text cs = true
  | GVHash h => string_safe h = true                               (* geohash base 32 *)
  end.

Definition miss_form (rf : reply) : bool :=
  match rf with
  | RNil | RInt _ => true
  | ROk s => RespOut.line_ok s
  | _ => false
  end.

Definition kres_wf (k : kres) : Prop :=
  match k with
  | KErr cmd _ => RespOut.line_ok cmd = true       (* the name of a dispatched command *)
  | KMiss rf _ => miss_form rf = true
  | KObject gv fo =>
      geoview_wf gv /\ match fo with Some fs => Forall (fun f => value_wf (snd f)) fs | None => True end
  | KValue v => value_wf v
  | KType t => RespOut.line_ok t = true
  | _ => True
  end.

(* the function whose template writes the success document *)
Definition handler_ok (h : bytes) (k : kres) : Prop :=
  match k with
  | KOk | KInt _ => is_one_of h plain_handlers = true
  | KExists _ => h = h_exists \/ h = h_fexists
  | _ => True
  end.

Lemma nonfinite_safe t : is_nonfinite t = true -> string_safe t = true.
Proof.
  unfold is_nonfinite. intros H.
  repeat (apply orb_true_iff in H; destruct H as [H|H]); apply bytes_eqb_eq in H; subst; reflexivity.
Qed.

(* JSON() is a tree with well-formed leaves, and RESP's Data() is what a client decodes from it *)
Lemma value_jv_spec v : value_wf v -> jv_wf (value_jv v) /\ vdata (value_jv v) = Some (v_data v).
Proof.
  unfold value_wf, value_jv.
  destruct (v_kind v =? KNumber).
  { intros H. destruct (is_nonfinite (v_data v)) eqn:E; (split; [|reflexivity]); [apply nonfinite_safe, E|].
    destruct H as [H|H]; [discriminate | exact H]. }
  destruct (v_kind v =? KString); [intros _; split; [exact I | reflexivity]|].
  destruct (v_kind v =? KTrue); [intros ->; split; [exact (bool_text_value true) | reflexivity]|].
  destruct (v_kind v =? KFalse); [intros ->; split; [exact (bool_text_value false) | reflexivity]|].
  destruct (v_kind v =? KNull); [intros ->; split; [apply lit_value_null | reflexivity]|].
  destruct (v_kind v =? KJSON); [intros H; split; [exact H | reflexivity] | intros []].
Qed.

Lemma value_json_value v : value_wf v -> json_value (value_json v).
Proof. intros H. apply jprint_value, value_jv_spec, H. Qed.

Lemma geo_member_wf gv : geoview_wf gv -> jv_wf (snd (geo_member gv)).
Proof.
  destruct gv as [g|cs|cs|h]; cbn [geoview_wf geo_member snd].
  (* point, bounds: two to four coordinates, each a float text *)
  2-3: (intros [Hl Hf];
        assert (H : forall t, In t cs -> json_value (jf t))
          by (intros t Ht; apply jf_value; exact (proj1 (forallb_forall _ _) Hf t Ht));
        destruct cs as [|a [|b [|c [|d [|]]]]]; cbn [length] in Hl; try lia;
        cbn; repeat split; apply H; cbn [In]; auto).
  - unfold obj_jv. destruct (g_spatial g); [intros H; apply H; reflexivity | intros _; exact I].
  - intros H. exact H.
Qed.

Lemma fields_member_wf fo :
  match fo with Some fs => Forall (fun f => value_wf (snd f)) fs | None => True end ->
  Forall (fun p => jv_wf (snd p)) (fields_member fo).
Proof.
  destruct fo as [[|f r]|]; cbn [fields_member]; intros H; constructor; [|constructor].
  cbn [snd]. apply jv_wf_obj. rewrite Forall_forall in *. intros p Hp.
  apply in_map_iff in Hp. destruct Hp as (x & <- & Hx). cbn [snd]. apply value_jv_spec, H, Hx.
Qed.

Lemma keys_jv_wf l : jv_wf (VArr (map VMStr l)).
Proof.
  apply jv_wf_arr, Forall_forall. intros x Hx. apply in_map_iff in Hx. destruct Hx as (s & <- & _). exact I.
Qed.

Lemma json_tree_wf k d : kres_wf k -> string_safe d = true -> jv_wf (json_tree k d).
Proof.
  intros Hk Hd.
  assert (Ht : jv_wf (VTok t_true)) by exact (bool_text_value true).
  assert (Hf : jv_wf (VTok t_false)) by exact (bool_text_value false).
  (* "ok" and "elapsed" are well-formed in every document: the members between them are left *)
  destruct k as [c msg| |n|nx|rf m| |gv fo|v|b|n|t|l|[v|]]; cbn [json_tree jv_error];
    apply jv_wf_obj; repeat constructor; cbn [snd jv_ok jv_elapsed]; auto.
  - apply geo_member_wf, Hk.
  - apply Forall_app. split; [apply fields_member_wf, Hk | repeat constructor; exact Hd].
  - apply value_jv_spec, Hk.
  - destruct b; assumption.
  - apply int_text_value, print_int_text.
  - apply keys_jv_wf.
Qed.

(* Both writings of a document are brought to the same shape by computation alone: the text
   before each opaque piece consed onto it, the rest appended behind it.  For that, [tfill] and
   [jprint] are given a "rest of the text" argument.  A loop is a leaf like a hole: what it writes
   is one opaque piece ([star_fields]). *)
Definition prepend (x : bytes) (o : option (bytes * list fill)) : option (bytes * list fill) :=
  match o with Some (y, r) => Some (x ++ y, r) | None => None end.

Fixpoint tfillk (t : tmpl) (fs : list fill) (K : list fill -> option (bytes * list fill)) : option (bytes * list fill) :=
  match t with
  | Seq a b => tfillk a fs (fun r => tfillk b r K)
  | Alt a b => match fs with FL :: r => tfillk a r K | FR :: r => tfillk b r K | _ => None end
  | _ => match tfill t fs with Some (x, r) => prepend x (K r) | None => None end
  end.

Lemma prepend_app x y o : prepend x (prepend y o) = prepend (x ++ y) o.
Proof. destruct o as [[z r]|]; [cbn [prepend]; rewrite app_assoc|]; reflexivity. Qed.

Lemma tfillk_spec t : forall fs K,
  tfillk t fs K = match tfill t fs with Some (x, r) => prepend x (K r) | None => None end.
Proof.
  induction t as [s| | | | | | | |a IHa b IHb|a IHa b IHb|a IHa]; intros fs K; try reflexivity; cbn [tfillk tfill].
  - rewrite IHa. destruct (tfill a fs) as [[x r]|]; [|reflexivity].
    rewrite IHb. destruct (tfill b r) as [[y r']|]; [|reflexivity]. apply prepend_app.
  - destruct fs as [|[] fs]; try reflexivity; [apply IHa | apply IHb].
Qed.

Definition jitemsk {A} (pr : A -> bytes -> bytes) : bool -> list A -> bytes -> bytes :=
  fix go (first : bool) (l : list A) (k : bytes) : bytes :=
    match l with
    | [] => k
    | x :: r => (if first then [] else [44]) ++ pr x (go false r k)
    end.

Fixpoint jprintk (j : jv) (k : bytes) : bytes :=
  match j with
  | VRawStr s => 34 :: s ++ 34 :: k
  | VArr l => 91 :: jitemsk jprintk true l (93 :: k)
  | VObj m => 123 :: jitemsk (fun p k' => json_string (fst p) ++ 58 :: jprintk (snd p) k') true m (125 :: k)
  | _ => jprint j ++ k
  end.

Lemma jitemsk_spec {A} (pk : A -> bytes -> bytes) (pr : A -> bytes) l :
  Forall (fun x => forall k, pk x k = pr x ++ k) l ->
  forall first k, jitemsk pk first l k = jitems pr first l ++ k.
Proof.
  induction 1 as [|x r Hx _ IH]; intros first k; cbn [jitemsk jitems]; [reflexivity|].
  rewrite Hx, IH, <- !app_assoc. reflexivity.
Qed.

Lemma jprintk_spec j : forall k, jprintk j k = jprint j ++ k.
Proof.
  induction j as [s|s|s|t|l IH|m IH] using jv_ind2; intros k; try reflexivity.
  - cbn [jprintk jprint app]. rewrite <- app_assoc. reflexivity.
  - rewrite jprint_arr. cbn [jprintk app]. rewrite (jitemsk_spec _ jprint _ IH), <- app_assoc. reflexivity.
  - rewrite jprint_obj, jmembers_items. cbn [jprintk app].
    rewrite (jitemsk_spec _ member_text), <- app_assoc; [reflexivity|].
    eapply Forall_impl; [|exact IH]. intros p Hp k'. unfold member_text. rewrite Hp, <- app_assoc. reflexivity.
Qed.

Lemma doc_by_rest t fs T :
  tfillk t fs (fun r => match r with [] => Some ([], []) | _ => None end) = Some (jprintk T [], []) ->
  tinst t fs = Some (jprint T).
Proof.
  rewrite tfillk_spec, jprintk_spec, app_nil_r. unfold tinst.
  destruct (tfill t fs) as [[x [|]]|]; try discriminate. cbn [prepend]. rewrite app_nil_r.
  intros H. inversion H. reflexivity.
Qed.

(* the regenerated templates are closed terms: look them up by computation *)
Ltac eval_lookup :=
  match goal with
  | |- context [err_template] =>
      let v := eval vm_compute in err_template in change err_template with v
  | |- context [doc_template ?h] =>
      let v := eval vm_compute in (doc_template h) in change (doc_template h) with v
  | |- context [value_template ?h] =>
      let v := eval vm_compute in (value_template h) in change (value_template h) with v
  end.

Definition field_jv (f : bytes * value) : bytes * jv := (fst f, value_jv (snd f)).

Lemma jmembersk_spec first m k :
  jitemsk (fun p k' => json_string (fst p) ++ 58 :: jprintk (snd p) k') first m k = jitems member_text first m ++ k.
Proof.
  apply jitemsk_spec, Forall_forall. intros p _ k'. unfold member_text. rewrite jprintk_spec, <- app_assoc. reflexivity.
Qed.

(* buildObjectResponse writes the fields after the first in a loop: F is what the loop body does with its
   two fills, and the loop writes the members that [jprint] separates by commas *)
Lemma star_fields (F : list fill -> option (bytes * list fill)) :
  (forall n v rest, F (FStr n :: FJson v :: rest) = Some (44 :: json_string n ++ 58 :: v, rest)) ->
  forall r rest, rep_fill F (length r) (field_fills r ++ rest) = Some (jitems member_text false (map field_jv r), rest).
Proof.
  intros HF. induction r as [|f r IH]; intros rest; [reflexivity|].
  cbn [length rep_fill field_fills flat_map app map jitems].
  change (flat_map (fun f0 : bytes * value => [FStr (fst f0); FJson (value_json (snd f0))]) r) with (field_fills r).
  rewrite HF, IH. reflexivity.
Qed.

(* Both sides are computed.  What stays is a subtree X that is not known (printed as [jprintk X k] where
   the template has the fill [jprint X]) and the members of a field list that is not known ([jitemsk .. k]
   where the loop gives [jitems ..]; its body's text is associated as the Go expression is, hence app_assoc). *)
Ltac doc_eq :=
  eval_lookup; apply doc_by_rest;
  first [ reflexivity
        | lazy beta iota zeta delta [tfillk tfill prepend app];
          rewrite ?star_fields by (intros; do 3 f_equal; symmetry; apply (app_assoc _ [58]));
          cbn [jprintk jitemsk map field_jv fst snd jv_ok jv_elapsed jprint app prepend];
          rewrite ?jmembersk_spec, ?jprintk_spec; reflexivity ].

Lemma error_doc_tree msg d : error_doc msg d = Some (jprint (jv_error msg d)).
Proof. unfold error_doc. doc_eq. Qed.

Lemma plain_doc_tree h d : is_one_of h plain_handlers = true ->
  (match doc_template h with Some t => tinst t [FSafe d] | None => None end) = Some (jprint (VObj [jv_ok true; jv_elapsed d])).
Proof.
  intros Hin. apply (existsb_eqb_In _ bytes_eqb_eq) in Hin.
  unfold plain_handlers in Hin. cbn [In] in Hin.
  repeat (destruct Hin as [<-|Hin]; [doc_eq|]). destruct Hin.
Qed.

Lemma point_doc_tree cs : (length cs = 2 \/ length cs = 3)%nat -> point_doc cs = Some (jprint (point_jv cs)).
Proof.
  intros Hl. destruct cs as [|a [|b [|c [|]]]]; cbn [length] in Hl; try lia; unfold point_doc; doc_eq.
Qed.

Lemma bounds_doc_tree cs : length cs = 4%nat -> bounds_doc cs = Some (jprint (bounds_jv cs)).
Proof.
  intros Hl. destruct cs as [|a [|b [|c [|d [|]]]]]; cbn [length] in Hl; try lia; unfold bounds_doc; doc_eq.
Qed.

Lemma object_doc_tree gv fo d : geoview_wf gv ->
  json_doc h_bor (KObject gv fo) d = Some (jprint (json_tree (KObject gv fo) d)).
Proof.
  intros Hg. cbn [json_doc json_tree].
  destruct gv as [g|cs|cs|h]; cbn [geo_fills geo_member geoview_wf] in *;
    rewrite ?(point_doc_tree cs (proj1 Hg)), ?(bounds_doc_tree cs (proj1 Hg));
    destruct fo as [[|f r]|]; cbn [fields_fills fields_member app]; doc_eq.
Qed.

(* every reply document written (an instantiation of the regenerated template of its handler) is
   the compact printing of the document tree *)
Theorem json_doc_tree h k d : kres_wf k -> handler_ok h k ->
  json_doc h k d = Some (jprint (json_tree k d)).
Proof.
  intros Hk Hh.
  destruct k as [c msg| |n|nx|rf m| |gv fo|v|b|n|t|l|[v|]]; cbn [json_doc json_tree kres_wf handler_ok] in *.
  1, 4-6: apply error_doc_tree.
  1-2: (rewrite Hh; apply plain_doc_tree; exact Hh).
  - apply (object_doc_tree gv fo d). exact (proj1 Hk).
  - doc_eq.
  - destruct Hh as [-> | ->]; doc_eq.
  - doc_eq.
  - doc_eq.
  - (* the key list is written by json.Marshal: one token of the document *)
    eval_lookup.
    apply (doc_by_rest _ _ (VObj [jv_ok true; (k_keys, VTok (jprint (VArr (map VMStr l)))); jv_elapsed d])). reflexivity.
  - doc_eq.
  - doc_eq.
Qed.

Lemma lookup_named_In n names ts t : lookup_named n names ts = Some t -> In t ts.
Proof.
  revert ts. induction names as [|k names IH]; intros [|t0 ts] H; cbn [lookup_named] in H; try discriminate.
  destruct (bytes_eqb n k); [inversion H; subst; left; reflexivity | right; apply IH; exact H].
Qed.

Lemma find_err_In names ts t : find_err_template names ts = Some t -> In t ts.
Proof.
  revert ts. induction names as [|k names IH]; intros [|t0 ts] H; cbn [find_err_template] in H; try discriminate.
  match type of H with (if ?c then _ else _) = _ => destruct c end;
    [inversion H; subst; left; reflexivity | right; apply IH; exact H].
Qed.

Definition doc_instance (v : bytes) : Prop := exists t, In t Gen.Templates.templates /\ inst t v.

Lemma looked_up_instance h fs v :
  (match doc_template h with Some t => tinst t fs | None => None end) = Some v ->
  Forall fill_ok fs -> doc_instance v.
Proof.
  intros H Hok. destruct (doc_template h) as [t|] eqn:E; [|discriminate].
  exists t. split; [eapply lookup_named_In; exact E | eapply tinst_inst; eauto].
Qed.

Lemma error_doc_instance msg d v : error_doc msg d = Some v -> string_safe d = true -> doc_instance v.
Proof.
  unfold error_doc. intros H Hd. destruct err_template as [t|] eqn:E; [|discriminate].
  exists t. split; [eapply find_err_In; exact E|].
  eapply tinst_inst; [exact H|]. repeat constructor. exact Hd.
Qed.

Lemma field_fills_ok fs : Forall (fun f => value_wf (snd f)) fs -> Forall fill_ok (field_fills fs).
Proof.
  induction 1 as [|f r Hf _ IH]; cbn [field_fills flat_map app]; [constructor|].
  constructor; [exact I|]. constructor; [apply value_json_value; exact Hf | exact IH].
Qed.

Lemma fields_fills_ok fo :
  match fo with Some fs => Forall (fun f => value_wf (snd f)) fs | None => True end ->
  Forall fill_ok (fields_fills fo).
Proof.
  destruct fo as [[|f r]|]; cbn [fields_fills]; intros H.
  - repeat constructor.
  - inversion H as [|? ? Hf Hr]; subst. cbn [app].
    do 4 (constructor; [exact I|]). constructor; [apply value_json_value; exact Hf|].
    constructor; [exact I|]. apply field_fills_ok. exact Hr.
  - repeat constructor.
Qed.

Lemma geo_fills_ok gv : geoview_wf gv ->
  match geo_fills gv with Some gf => Forall fill_ok gf | None => True end.
Proof.
  (* the one fill that is not a branch choice is the printed member, or the hash itself *)
  intros Hg. pose proof (jprint_value _ (geo_member_wf gv Hg)) as Hv.
  destruct gv as [g|cs|cs|h]; cbn [geoview_wf geo_fills geo_member snd] in *;
    rewrite ?(point_doc_tree cs (proj1 Hg)), ?(bounds_doc_tree cs (proj1 Hg)); repeat constructor; assumption.
Qed.

Theorem json_doc_instance h k d v : kres_wf k -> string_safe d = true ->
  json_doc h k d = Some v -> doc_instance v.
Proof.
  intros Hk Hd H.
  assert (Hd' : Forall fill_ok [FSafe d]) by (repeat constructor; exact Hd).
  destruct k as [c msg| |n|nx|rf m| |gv fo|v0|b|n|t|l|[v0|]]; cbn [json_doc kres_wf] in *.
  1, 4-6: exact (error_doc_instance _ _ _ H Hd).
  - destruct (is_one_of h plain_handlers); [|discriminate]. exact (looked_up_instance _ _ _ H Hd').
  - destruct (is_one_of h plain_handlers); [|discriminate]. exact (looked_up_instance _ _ _ H Hd').
  - destruct Hk as [Hg Hfs]. pose proof (geo_fills_ok gv Hg) as Hgf.
    destruct (geo_fills gv) as [gf|]; [|destruct (doc_template h_bor); discriminate].
    apply (looked_up_instance h_bor (gf ++ fields_fills fo ++ [FSafe d]) v H).
    apply Forall_app. split; [exact Hgf|].
    apply Forall_app. split; [apply fields_fills_ok; exact Hfs | exact Hd'].
  - apply (looked_up_instance h_fget _ _ H). constructor; [apply value_json_value; exact Hk | exact Hd'].
  - destruct (bytes_eqb h h_exists || bytes_eqb h h_fexists); [|discriminate].
    apply (looked_up_instance h _ _ H). constructor; [exact I | exact Hd'].
  - apply (looked_up_instance h_ttl _ _ H). constructor; [exact I | exact Hd'].
  - apply (looked_up_instance h_type _ _ H). constructor; [exact I | exact Hd'].
  - apply (looked_up_instance h_keys _ _ H). constructor; [|exact Hd']. cbn [fill_ok].
    apply jprint_value, keys_jv_wf.
  - apply (looked_up_instance h_jget _ _ H). do 2 (constructor; [exact I|]). exact Hd'.
  - apply (looked_up_instance h_jget _ _ H). constructor; [exact I | exact Hd'].
Qed.

(* what "ok" says, read off the abstract result *)
Definition is_ok (k : kres) : bool :=
  match k with
  | KErr _ _ | KNada _ | KMiss _ _ | KNoPath => false
  | _ => true
  end.

Definition ok_prefix (b : bool) : bytes := if b then ok_true_prefix else ok_false_prefix.

(* one valid JSON document, an instance of a regenerated template, starting with {"ok":true or
   {"ok":false according to the result *)
Theorem json_reply_valid h k d : kres_wf k -> handler_ok h k -> string_safe d = true ->
  exists v, json_doc h k d = Some v /\ v = jprint (json_tree k d) /\
            doc_instance v /\ valid_json v = true /\ hasPrefix (ok_prefix (is_ok k)) v.
Proof.
  intros Hk Hh Hd. pose proof (json_doc_tree h k d Hk Hh) as E.
  exists (jprint (json_tree k d)). split; [exact E|]. split; [reflexivity|].
  pose proof (json_doc_instance h k d _ Hk Hd E) as Hi. split; [exact Hi|].
  destruct Hi as (t & Hin & Hinst).
  split; [exact (proj1 (all_replies_valid t _ Hin Hinst))|].
  apply hasPrefixb_spec.
  destruct k as [c msg| |n|nx|rf m| |gv fo|v0|b|n|t0|l|[v0|]]; reflexivity.
Qed.

Theorem json_tree_ok_err k d :
  exists m, json_tree k d = VObj m /\
    vget k_ok m = Some (VTok (if is_ok k then t_true else t_false)) /\
    (if is_ok k then vget k_err m = None else exists msg, vget k_err m = Some (VStr msg)).
Proof.
  destruct k as [c msg| |n|nx|rf m| |gv fo|v0|b|n|t0|l|[v0|]]; cbn [json_tree jv_error is_ok];
    eexists; (split; [reflexivity|]); (split; [reflexivity|]); try reflexivity; try (eexists; reflexivity).
  destruct gv, fo as [[|f r]|]; reflexivity.
Qed.

Lemma line_ok_app a b : RespOut.line_ok (a ++ b) = RespOut.line_ok a && RespOut.line_ok b.
Proof. unfold RespOut.line_ok. apply forallb_app. Qed.

Lemma write_err_line cmd msg : RespOut.line_ok cmd = true -> RespOut.line_ok (write_err cmd msg) = true.
Proof.
  intros Hc. unfold write_err. destruct (bytes_eqb msg err_nargs).
  - rewrite !line_ok_app, Hc. reflexivity.
  - exact (form_single_line_ok _).
Qed.

Fixpoint rvals_of (l : list reply) : option (list RespOut.rval) :=
  match l with
  | [] => Some []
  | x :: r => match rval_of x, rvals_of r with Some v, Some vs => Some (v :: vs) | _, _ => None end
  end.

Lemma rval_of_arr l : rval_of (RArr l) = match rvals_of l with Some vs => Some (RespOut.RArr vs) | None => None end.
Proof. reflexivity. Qed.

Definition reply_wf (r : reply) : Prop := exists v, rval_of r = Some v /\ RespOut.resp_wf v = true.

Lemma reply_wf_arr l : Forall reply_wf l -> reply_wf (RArr l).
Proof.
  intros H. assert (E : exists vs, rvals_of l = Some vs /\ wf_all vs = true).
  { induction H as [|x r (v & Ev & Wv) _ (vs & Evs & Wvs)]; [exists []; auto|].
    exists (v :: vs). cbn [rvals_of]. rewrite Ev, Evs. split; [reflexivity|].
    exact (andb_true_intro (conj Wv Wvs)). }
  destruct E as (vs & E & W). exists (RespOut.RArr vs). rewrite rval_of_arr, E. auto.
Qed.

Lemma bulks_wf l : Forall reply_wf (map RBulk l).
Proof.
  apply Forall_forall. intros r Hr. apply in_map_iff in Hr. destruct Hr as (b & <- & _).
  eexists; split; reflexivity.
Qed.

Lemma fields_reply_wf fs : Forall reply_wf (fields_reply fs).
Proof.
  induction fs as [|f r IH]; [constructor|]. unfold fields_reply. cbn [flat_map app].
  do 2 (constructor; [eexists; split; reflexivity|]). exact IH.
Qed.

Lemma geoview_reply_wf gv : geoview_wf gv -> reply_wf (geoview_reply gv).
Proof.
  destruct gv as [g|cs|cs|h]; cbn [geoview_wf geoview_reply].
  - intros _. eexists; split; reflexivity.
  - intros _. apply reply_wf_arr, bulks_wf.
  - intros [Hl _]. destruct cs as [|a [|b [|c [|d [|]]]]]; cbn [length] in Hl; try lia.
    eexists; split; reflexivity.
  - intros _. eexists; split; reflexivity.
Qed.

Theorem resp_reply_wf k : kres_wf k -> reply_wf (resp_reply k).
Proof.
  intros Hk.
  destruct k as [c msg| |n|nx|rf m| |gv fo|v0|b|n|t0|l|[v0|]]; cbn [resp_reply kres_wf] in *;
    try (eexists; split; reflexivity).
  - eexists; split; [reflexivity|]. apply write_err_line, Hk.
  - destruct rf; try discriminate; eexists; split; try reflexivity. exact Hk.
  - pose proof (geoview_reply_wf gv (proj1 Hk)) as H0.
    destruct fo as [[|f r]|]; [apply reply_wf_arr; constructor; [exact H0 | constructor] | | exact H0].
    apply reply_wf_arr. constructor; [exact H0|]. constructor; [|constructor].
    apply reply_wf_arr, fields_reply_wf.
  - eexists; split; [reflexivity | exact Hk].
  - apply reply_wf_arr, bulks_wf.
Qed.

(* buildObjectResponse's `switch kind` *)
Definition kind_matches (kind : N) (gv : geoview) : Prop :=
  match gv with
  | GVPoint _ => kind = RK_POINT
  | GVBounds _ => kind = RK_BOUNDS
  | GVHash _ => kind = RK_HASH
  | GVObject _ => kind <> RK_POINT /\ kind <> RK_BOUNDS /\ kind <> RK_HASH
  end.

Definition obj_fits (kind : N) (wf : bool) (gv : geoview) (fo : option flist) : Prop :=
  kind_matches kind gv /\ match fo with Some _ => wf = true | None => wf = false end.

(* which results a command (of lower-cased name c, asked as a) can answer with *)
Definition fits (c : bytes) (a : ask) (k : kres) : Prop :=
  match k with
  | KErr c' msg => c' = c /\ is_one_of msg (neg_errs a) = false
  | KOk => match a with AAck | ASet | AJdel => True | _ => False end
  | KInt n =>
      match a with
      | ACount | APersist => True
      | AFound | AJdel => n <> 0%Z
      | AObjFset _ _ => True          (* FSET .. XX RETURN on a missing id: :0 / {"ok":true} *)
      | _ => False
      end
  | KNada _ => match a with ASet | AObjSet _ _ => True | _ => False end
  | KMiss rf m =>
      match a with
      | AObjGet _ _ | AJget => rf = RNil
      | AFound | APersist => rf = RInt 0
      | ATtl => rf = RInt (-2)
      | AType => rf = ROk str_none /\ m = MissKey
      | AJdel => rf = RInt 0 /\ m = MissKey
      | _ => False
      end
  | KNoPath => a = AJdel
  | KObject gv fo =>
      match a with
      | AObjGet kind wf | AObjSet kind wf | AObjFset kind wf => obj_fits kind wf gv fo
      | _ => False
      end
  | KValue _ => a = AFget
  | KExists _ => a = AExists
  | KTtl n => a = ATtl /\ n <> (-2)%Z
  | KType t => a = AType /\ t <> str_none
  | KKeys _ => a = AKeys
  | KJget _ => a = AJget
  end.

Lemma map_opt_vdata_mstr l : map_opt vdata (map VMStr l) = Some l.
Proof. induction l as [|x r IH]; [reflexivity|]. cbn [map map_opt vdata]. rewrite IH. reflexivity. Qed.

Lemma bulks_map l : bulks (map RBulk l) = Some l.
Proof. induction l as [|x r IH]; [reflexivity|]. cbn [map bulks]. rewrite IH. reflexivity. Qed.

Lemma rpairs_fields fs : rpairs (fields_reply fs) = Some (map (fun f => (fst f, v_data (snd f))) fs).
Proof.
  induction fs as [|f r IH]; [reflexivity|].
  unfold fields_reply in *. cbn [flat_map app rpairs map]. rewrite IH. reflexivity.
Qed.

Lemma fields_pair_data fs : Forall (fun f => value_wf (snd f)) fs ->
  map_opt pair_data (map (fun f => (fst f, value_jv (snd f))) fs) = Some (map (fun f => (fst f, v_data (snd f))) fs).
Proof.
  induction 1 as [|f r Hf _ IH]; [reflexivity|].
  cbn [map map_opt]. unfold pair_data at 1. cbn [fst snd]. rewrite (proj2 (value_jv_spec _ Hf)), IH. reflexivity.
Qed.

Lemma geo_conveyed kind gv rest : geoview_wf gv -> kind_matches kind gv ->
  jgeo kind (jv_ok true :: geo_member gv :: rest) = Some (Some (conv_geo gv)) /\
  rgeo kind (geoview_reply gv) = Some (conv_geo gv).
Proof.
  destruct gv as [g|cs|cs|h]; cbn [geoview_wf kind_matches geo_member geoview_reply conv_geo].
  - intros _ (H1 & H2 & H3). apply N.eqb_neq in H1, H2, H3. unfold jgeo, rgeo. rewrite H1, H2, H3.
    split; [|reflexivity]. cbn. unfold obj_jv. destruct (g_spatial g); reflexivity.
  - intros [Hl _] ->. split; [|unfold rgeo; cbn; rewrite bulks_map; reflexivity].
    destruct cs as [|a [|b [|c [|]]]]; cbn [length] in Hl; try lia; reflexivity.
  - intros [Hl _] ->. destruct cs as [|a [|b [|c [|d [|]]]]]; cbn [length] in Hl; try lia; split; reflexivity.
  - intros _ ->. split; reflexivity.
Qed.

(* the fields member is found behind the object member, whatever that one is called *)
Lemma vget_fields_member gv fo d :
  vget k_fields (jv_ok true :: geo_member gv :: fields_member fo ++ [jv_elapsed d]) =
  match fields_member fo with [] => None | p :: _ => Some (snd p) end.
Proof. destruct gv, fo as [[|f r]|]; reflexivity. Qed.

Lemma object_conveyed kind wf gv fo d : geoview_wf gv ->
  match fo with Some fs => Forall (fun f => value_wf (snd f)) fs | None => True end ->
  obj_fits kind wf gv fo ->
  let cv := Some (CObj (conv_geo gv) (match fo with Some fs => map (fun f => (fst f, v_data (snd f))) fs | None => [] end)) in
  jobject kind wf (jv_ok true :: geo_member gv :: fields_member fo ++ [jv_elapsed d]) = cv /\
  robject kind wf (resp_reply (KObject gv fo)) = cv.
Proof.
  intros Hg Hfs [Hk Hwf]. cbn [resp_reply]. unfold jobject, jfields, robject.
  destruct (geo_conveyed kind gv (fields_member fo ++ [jv_elapsed d]) Hg Hk) as [-> Eg].
  rewrite vget_fields_member.
  destruct fo as [[|f r]|]; subst wf; cbn [fields_member snd]; rewrite Eg; [split; reflexivity | | split; reflexivity].
  unfold field. rewrite rpairs_fields, (fields_pair_data _ Hfs). split; reflexivity.
Qed.

(* conveys_resp answers by itself only on nil, an integer and an error, off which robject reads nothing *)
Lemma robject_conveys kind wf r cv a :
  a = AObjGet kind wf \/ a = AObjSet kind wf \/ a = AObjFset kind wf ->
  robject kind wf r = Some cv -> conveys_resp a r = Some cv.
Proof.
  intros Ha H.
  destruct r; try (destruct Ha as [->|[->| ->]]; exact H); exfalso; revert H; unfold robject, rgeo;
    (destruct wf; [discriminate|]); (destruct (kind =? RK_POINT); [discriminate|]);
    (destruct (kind =? RK_BOUNDS); [discriminate|]); destruct (kind =? RK_HASH); discriminate.
Qed.

Lemma jobject_none kind wf d : jobject kind wf [jv_ok true; jv_elapsed d] = Some CDone.
Proof.
  unfold jobject, jgeo, jfields.
  destruct (kind =? RK_POINT), (kind =? RK_BOUNDS), (kind =? RK_HASH), wf; reflexivity.
Qed.

Theorem modes_convey_same c a k d : kres_wf k -> fits c a k ->
  conveys_json c a (json_tree k d) = Some (conv_of a k) /\
  conveys_resp a (resp_reply k) = Some (conv_of a k).
Proof.
  intros Hk Hf.
  destruct k as [c' msg| |n|nx|rf m| |gv fo|v0|b|n|t0|l|[v0|]]; cbn [fits kres_wf] in *.
  - (* KErr *)
    destruct Hf as [-> Hn]. split.
    + cbn [json_tree jv_error conveys_json]. cbn. rewrite Hn. reflexivity.
    + reflexivity.
  - (* KOk *) destruct a; try contradiction; split; reflexivity.
  - (* KInt *)
    destruct a; try contradiction; split; try reflexivity; try exact (jobject_none _ _ d);
      cbn [conv_of resp_reply conveys_resp]; destruct (Z.eqb_spec n 0); try contradiction; reflexivity.
  - (* KNada *)
    destruct a; try contradiction; split; destruct nx; reflexivity.
  - (* KMiss *)
    destruct a; try contradiction;
      repeat match goal with H : _ /\ _ |- _ => destruct H end; subst;
      split; try (destruct m; reflexivity); reflexivity.
  - (* KNoPath *) subst a. split; reflexivity.
  - (* KObject *)
    destruct Hk as [Hg Hfs].
    destruct a; try contradiction; destruct (object_conveyed _ _ _ _ d Hg Hfs Hf) as [EJ ER];
      (split; [exact EJ | eapply robject_conveys; [|exact ER]; auto]).
  - (* KValue *)
    subst a. split; [|reflexivity].
    cbn [json_tree conveys_json]. cbn. rewrite (proj2 (value_jv_spec _ Hk)). reflexivity.
  - (* KExists *) subst a. split; destruct b; reflexivity.
  - (* KTtl *)
    destruct Hf as [-> Hn]. split.
    + cbn [json_tree conveys_json]. cbn. rewrite parse_print_int. reflexivity.
    + cbn [resp_reply conveys_resp conv_of]. destruct (Z.eqb_spec n (-2)); [contradiction | reflexivity].
  - (* KType *)
    destruct Hf as [-> Hn]. split; [reflexivity|].
    cbn [resp_reply conveys_resp conv_of].
    destruct (bytes_eqb t0 str_none) eqn:E; [apply bytes_eqb_eq in E; contradiction | reflexivity].
  - (* KKeys *)
    subst a. split.
    + cbn [json_tree conveys_json]. cbn. rewrite map_opt_vdata_mstr. reflexivity.
    + cbn [resp_reply conveys_resp conv_of]. rewrite bulks_map. reflexivity.
  - subst a. split; reflexivity.
  - subst a. split; reflexivity.
Qed.

(* an error text that is literally one of JSON mode's "negative" texts would be read as a negative
   answer by a JSON client and as an error by a RESP client *)
Definition errs_distinct (a : ask) (k : kres) : Prop :=
  match k with KErr _ msg => is_one_of msg (neg_errs a) = false | _ => True end.

Section Handlers.
Variable O : oracle.

Lemma res_obj_reply o wf kind prec :
  resp_reply (res_obj O o wf kind prec) = obj_reply O o wf kind prec.
Proof.
  unfold res_obj, obj_reply, object_reply, geo_reply, gv_of. cbn [resp_reply].
  destruct (kind =? RK_POINT); [destruct wf; reflexivity|].
  destruct (kind =? RK_BOUNDS); [destruct wf; reflexivity|].
  destruct (kind =? RK_HASH); destruct wf; reflexivity.
Qed.

Lemma obj_reply_render c o wf kind prec : render c (obj_reply O o wf kind prec) = obj_reply O o wf kind prec.
Proof.
  unfold obj_reply, object_reply, geo_reply.
  destruct wf; [reflexivity|].
  destruct (kind =? RK_POINT); [reflexivity|].
  destruct (kind =? RK_BOUNDS).
  - unfold bounds_reply. destruct (o_bounds O (o_geo o)) as [|a [|b [|x [|y [|]]]]]; reflexivity.
  - destruct (kind =? RK_HASH); reflexivity.
Qed.

Lemma gv_of_matches g kind prec : kind_matches kind (gv_of O g kind prec).
Proof.
  unfold gv_of.
  destruct (N.eqb_spec kind RK_POINT); [exact e|].
  destruct (N.eqb_spec kind RK_BOUNDS); [exact e|].
  destruct (N.eqb_spec kind RK_HASH); [exact e|].
  cbn. auto.
Qed.

Lemma gv_of_fits g kind prec wf fs : obj_fits kind wf (gv_of O g kind prec) (if wf then Some fs else None).
Proof. split; [apply gv_of_matches | destruct wf; reflexivity]. Qed.

Lemma plain_set : is_one_of h_set plain_handlers = true. Proof. reflexivity. Qed.

(* What the abstract result hk of a handler owes: its RESP arm is the reply r of C01's handler, and (asked as a)
   it is a result the command can answer with, written by a function that has a success template. *)
Definition result_ok (c : bytes) (r : reply) (a : ask) (hk : bytes * kres) : Prop :=
  render c r = resp_reply (snd hk) /\
  (errs_distinct a (snd hk) -> fits c a (snd hk) /\ handler_ok (fst hk) (snd hk)).

Ltac fin := cbn [fst snd fits handler_ok errs_distinct neg_errs] in *; repeat split; auto; try reflexivity; try discriminate.
Ltac leaf := split; [reflexivity | intros Hd; fin].

Lemma res_obj_ok c o wf kind prec h a :
  a = AObjGet kind wf \/ a = AObjSet kind wf \/ a = AObjFset kind wf ->
  result_ok c (obj_reply O o wf kind prec) a (h, res_obj O o wf kind prec).
Proof.
  intros Ha. split; [cbn [snd]; rewrite res_obj_reply; apply obj_reply_render|].
  intros _. destruct Ha as [->|[->| ->]]; exact (conj (gv_of_fits _ _ _ _ _) I).
Qed.

Lemma res_set_ok c s key id fields ex nx xx rs g :
  result_ok c (snd (fst (cmd_set O s key id fields ex nx xx rs g)))
    (if rs_ret rs then AObjSet (rs_kind rs) (rs_withfields rs) else ASet)
    (res_set O c s key id fields ex nx xx rs g).
Proof.
  unfold cmd_set, res_set.
  (* not applied (NX / XX): nil, which fits either ask; applied: the object if RETURN was given, else OK *)
  destruct (get key s) as [cl|]; [|destruct xx; [destruct (rs_ret rs); leaf|]];
    (destruct (_ && _); [destruct (rs_ret rs); leaf|]);
    cbn [fst snd]; (destruct (rs_ret rs); [apply res_obj_ok; auto | leaf]).
Qed.

(* the re-entered SET of cmdJset / cmdJdel has no FIELD / EX / NX / XX / RETURN: set_loop only sees
   OBJECT json (KsRefine.parse_reentry), so the outcome is OK or the geometry parser's error *)
Lemma res_reenter_ok c e s key id json a : a = AAck \/ a = AJdel ->
  match res_reenter O c e s key id json with
  | Some hk => result_ok c (snd (fst (reenter_set O e s key id json))) a hk
  | None => True
  end.
Proof.
  intros Ha. unfold res_reenter, reenter_set. rewrite KsRefine.parse_reentry.
  destruct (o_mkgeo O GK_OBJECT [json]); [|leaf].
  unfold cmd_set, res_set. destruct (get key s); cbn; (split; [reflexivity|]);
    intros _; destruct Ha as [-> | ->]; fin.
Qed.

Lemma ttl_not_m2 now ex : match ttl_reply now ex with RInt n => n <> (-2)%Z | _ => False end.
Proof. unfold ttl_reply. destruct (ex =? 0)%Z; lia. Qed.

(* C01's handlers and the res_* classification branch on the same tests: one walk through them *)
Lemma kres_of_ok c e s q :
  match run_req O true e s q, kres_of O c e s q, ask_of q with
  | Some x, Some hk, Some a => result_ok c (snd (fst x)) a hk
  | _, _, _ => True
  end.
Proof.
  destruct q; cbn [run_req kres_of ask_of].
  - apply res_set_ok.
  - unfold cmd_fset, res_fset. destruct (get key s) as [cl|]; [|destruct (rs_ret rs); leaf].
    destruct (get id cl) as [o|]; [|destruct xx, (rs_ret rs); leaf].
    destruct (fold_left (fset_step O) fields (o_fields o, 0%Z)) as [ofields n].
    cbn [fst snd]. destruct (rs_ret rs); [apply res_obj_ok; auto | leaf].
  - unfold cmd_del, res_del.
    destruct (get key s) as [cl|]; [destruct (get id cl)|]; try destruct erron404; leaf.
  - unfold cmd_pdel, res_pdel. destruct (get key s); leaf.
  - unfold cmd_drop. destruct (get key s); leaf.
  - unfold cmd_rename, res_rename. destruct (get key s); [|destruct nx; leaf].
    destruct (hook_guard e key newkey); [destruct nx; leaf|].
    destruct (get newkey s); destruct nx; leaf.
  - (* FLUSHDB *) leaf.
  - unfold cmd_expire, res_expire. destruct (get key s) as [cl|]; [destruct (get id cl)|]; leaf.
  - unfold cmd_persist, res_persist.
    destruct (get key s) as [cl|]; [destruct (get id cl) as [o|]|]; try leaf.
    destruct (negb (o_ex o =? 0)%Z); leaf.
  - unfold cmd_jset, res_jset. destruct (get key s) as [cl|]; cbn [get].
    + destruct (o_sjson_set O raw _ path val) as [json'|msg]; [|leaf].
      destruct (match get id cl with Some o => g_spatial (o_geo o) | None => false end);
        [apply res_reenter_ok; auto | leaf].
    + destruct (o_sjson_set O raw [] path val); leaf.
  - unfold cmd_jdel, res_jdel. destruct (get key s) as [cl|]; [|leaf].
    destruct (o_sjson_del O _ path) as [njson|msg]; [|leaf].
    destruct (bytes_eqb njson _); [leaf|].
    destruct (match get id cl with Some o => g_spatial (o_geo o) | None => false end);
      [apply res_reenter_ok; auto | leaf].
  - (* GET *)
    unfold find, find_miss. destruct (get key s) as [cl|]; [destruct (get id cl) as [o|]|]; try leaf.
    apply res_obj_ok; auto.
  - (* FGET *)
    unfold find_miss. destruct (get key s) as [cl|]; [destruct (get id cl) as [o|]|]; leaf.
  - (* EXISTS *) destruct (get key s) as [cl|]; leaf.
  - (* FEXISTS *)
    unfold find_miss. destruct (get key s) as [cl|]; [destruct (get id cl) as [o|]|]; leaf.
  - (* TTL: a deadline in the past prints 0, never -2 *)
    unfold find, find_miss. destruct (get key s) as [cl|]; [destruct (get id cl) as [o|]|]; try leaf.
    pose proof (ttl_not_m2 (e_now e) (o_ex o)) as Ht. cbn [snd resp_reply].
    destruct (ttl_reply (e_now e) (o_ex o)); try contradiction. leaf.
  - (* TYPE *) destruct (get key s); leaf.
  - (* KEYS *) leaf.
  - (* SCAN *) exact I.
  - unfold find, find_miss. destruct (get key s) as [cl|]; [destruct (get id cl) as [o|]|]; try leaf.
    destruct (o_jget O (g_text (o_geo o)) path raw); leaf.
Qed.

(* exec and exec_k branch on the same gate and the same parse, so one case analysis serves both; a request
   then goes through kres_of_ok.  oa = None: refused by the gate or by the argument parser. *)
Lemma exec_k_spec e s args :
  match exec_k O e s args with
  | KDone s' c oa h k log =>
      exec O true e s args = Done s' (resp_reply k) log /\
      match oa with
      | Some a => errs_distinct a k -> fits c a k /\ handler_ok h k
      | None => s' = s /\ log = [] /\ exists msg, k = KErr c msg
      end
  | KPanic => exec O true e s args = Panic
  | KUnmodelled => True
  end.
Proof.
  unfold exec_k, exec, dispatch_k, dispatch. destruct args as [|a0 rest]; [exact I|].
  match goal with |- context [match ?g with Some msg => DKOut _ | None => _ end] => destruct g end; [eauto 6|].
  destruct (parse_cmd O e (lower a0) (a0 :: rest)) as [q|msg| |]; [|eauto 6|exact I..].
  pose proof (kres_of_ok (lower a0) e s q) as H.
  destruct (run_req O true e s q) as [[[s' r] u]|]; [|reflexivity].
  destruct (kres_of O (lower a0) e s q) as [[h k]|] eqn:E; [|exact I].
  destruct (ask_of q) as [a|] eqn:Ea; [|destruct q; try discriminate Ea; discriminate E].
  destruct H as [Hr Hf]. cbn [fst snd] in *. rewrite Hr. exact (conj eq_refl Hf).
Qed.

(* One step, whichever way it ends.  oa = None: refused by the gate or by the argument parser; the result is
   an error of the dispatched command, and of an error [fits] asks no more than [errs_distinct], so a is free. *)
Theorem step_modes e s args s' c oa h k log a d :
  exec_k O e s args = KDone s' c oa h k log -> match oa with Some a' => a' = a | None => True end ->
  kres_wf k -> errs_distinct a k -> string_safe d = true ->
  exec O true e s args = Done s' (resp_reply k) log /\
  (exists v, json_doc h k d = Some v /\ v = jprint (json_tree k d) /\ doc_instance v /\
             valid_json v = true /\ hasPrefix (ok_prefix (is_ok k)) v) /\
  (exists v, rval_of (resp_reply k) = Some v /\ RespOut.resp_wf v = true) /\
  conveys_json c a (json_tree k d) = Some (conv_of a k) /\
  conveys_resp a (resp_reply k) = Some (conv_of a k).
Proof.
  intros H Ha Hk He Hd.
  pose proof (exec_k_spec e s args) as X. rewrite H in X. destruct X as [Hx Hf].
  assert (Hfit : fits c a k /\ handler_ok h k).
  { destruct oa as [a'|]; [subst a'; exact (Hf He)|]. destruct Hf as (_ & _ & msg & ->). exact (conj (conj eq_refl He) I). }
  split; [exact Hx|]. split; [apply json_reply_valid; tauto|].
  split; [apply resp_reply_wf; exact Hk|]. apply modes_convey_same; tauto.
Qed.

End Handlers.

Definition c_persist_l : bytes := Eval compute in bs "persist"%string.

Definition c_jdel_l : bytes := Eval compute in bs "jdel"%string.
