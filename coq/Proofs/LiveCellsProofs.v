(* C07 — what a live fence consumer reads for entry i is the details of write i (Model/LiveCells.v). *)
From Coq Require Import String List NArith Bool Arith Lia.
From T38 Require Import Gen.Mutators Model.LiveCells.
From T38 Require Model.Tables.
Import ListNotations.
Open Scope list_scope.

Lemma cell_eqb_eq a b : cell_eqb a b = true <-> a = b.
Proof.
  destruct a as [s1 n1], b as [s2 n2]. unfold cell_eqb. cbn [fst snd]. rewrite andb_true_iff.
  rewrite String.eqb_eq, Nat.eqb_eq. split; [intros [-> ->]; reflexivity | intros H; inversion H; auto].
Qed.

Section Table.
Variable tbl : list (string * (bool * string)).
Hypothesis all_fresh : forallb (fun e => fst (snd e)) tbl = true.

Lemma listed_site_fresh site : existsb (String.eqb site) (map fst tbl) = true -> site_fresh_in tbl site = true.
Proof.
  unfold site_fresh_in. revert all_fresh. induction tbl as [|[k [b h]] r IH]; cbn; [discriminate|].
  intros Hf. apply andb_true_iff in Hf. destruct Hf as (Hb & Hr). cbn in Hb. subst b.
  rewrite (String.eqb_sym site k). destruct (String.eqb k site); [reflexivity|]. cbn. intros H. apply IH; assumption.
Qed.

(* the cells of the pending entries were allocated by earlier pushes *)
Definition queue_bounded (s : cq) : Prop := forall c, In c (cq_queue s) -> snd c < cq_npush s.

Lemma read_other st c c' v : c' <> c -> cq_read ((c', v) :: st) c = cq_read st c.
Proof.
  intros H. cbn. destruct (cell_eqb c' c) eqn:E; [|reflexivity]. apply cell_eqb_eq in E. contradiction.
Qed.

Lemma read_self st c v : cq_read ((c, v) :: st) c = v.
Proof. cbn. now rewrite (proj2 (cell_eqb_eq c c) eq_refl). Qed.

Lemma view_run_gen : forall evs s,
  forallb (cev_site_in tbl) evs = true -> queue_bounded s ->
  cq_view (fold_left (cq_step tbl) evs s) = cq_view s ++ cq_pushed evs.
Proof.
  induction evs as [|ev r IH]; intros s Hin Hq; [symmetry; apply app_nil_r|].
  cbn [forallb] in Hin. apply andb_true_iff in Hin as (Hev & Hin).
  cbn [fold_left]. destruct ev as [site v|].
  - (* a push fills a cell of its own: what the pending entries read does not change *)
    cbn [cev_site_in] in Hev. cbn [cq_step]. rewrite (listed_site_fresh site Hev).
    rewrite IH; [|exact Hin|].
    + cbn [cq_pushed]. unfold cq_view. cbn [cq_out cq_store cq_queue].
      rewrite map_app. cbn [map]. rewrite read_self, <- !app_assoc. do 2 f_equal.
      apply map_ext_in. intros c Hc. apply read_other. intros <-. specialize (Hq _ Hc). cbn [snd] in Hq. lia.
    + intros c H. cbn [cq_queue cq_npush] in *. apply in_app_or in H as [H|[<-|[]]]; [specialize (Hq _ H)|cbn [snd]]; lia.
  - (* a delivery moves the first pending entry's reading to the output *)
    cbn [cq_step cq_pushed]. destruct (cq_queue s) as [|c q] eqn:Eq; [now apply IH|].
    rewrite IH; [|exact Hin|].
    + f_equal. unfold cq_view. cbn [cq_out cq_store cq_queue]. rewrite Eq. cbn [map]. now rewrite <- app_assoc.
    + intros c' H. apply Hq. rewrite Eq. now right.
Qed.

Theorem cells_view_is_log : forall evs,
  forallb (cev_site_in tbl) evs = true -> cq_view (cq_run tbl evs) = cq_pushed evs.
Proof. intros evs H. unfold cq_run. rewrite view_run_gen; [reflexivity|exact H|intros c []]. Qed.
End Table.

(* in the source (table re-read by t38x) every site hands over a cell of its own *)
Lemma source_cells_fresh : forallb (fun e => fst (snd e)) queue_cells = true.
Proof. vm_compute. reflexivity. Qed.

(* any history of logged writes coming from the push sites of the source and of deliveries, any
   interleaving: what the consumer has read ++ what it would read for the pending entries = the
   details of the logged writes, in log order — entry i carries the details of write i *)
Theorem live_entry_is_its_write : forall evs,
  forallb (cev_site_in queue_cells) evs = true ->
  cq_view (cq_run queue_cells evs) = cq_pushed evs.
Proof. exact (cells_view_is_log queue_cells source_cells_fresh). Qed.

Corollary live_reads_are_log_prefix : forall evs,
  forallb (cev_site_in queue_cells) evs = true ->
  exists rest, cq_pushed evs = cq_out (cq_run queue_cells evs) ++ rest.
Proof.
  intros evs H. rewrite <- (live_entry_is_its_write evs H). unfold cq_view. eexists. reflexivity.
Qed.

(* refutation of the other discipline: a site whose variable outlives the iteration; one pass pushes
   three deletes, the consumer runs afterwards and reads the last one three times *)
Lemma shared_cell_refuted :
  let tbl := [("expire.go:loop", (false, "&d: declared outside the loop"))] in
  let evs := [CPush "expire.go:loop" 1%N; CPush "expire.go:loop" 2%N; CPush "expire.go:loop" 3%N;
              CDeliver; CDeliver; CDeliver] in
  forallb (cev_site_in tbl) evs = true /\
  cq_out (cq_run tbl evs) = [3%N; 3%N; 3%N] /\ cq_pushed evs = [1%N; 2%N; 3%N].
Proof. vm_compute. repeat split. Qed.
