(* C07 — a live fence connection receives the writes on its key in log order (Model/LiveQueue.v). *)
From Coq Require Import String List NArith Bool Arith.
From T38 Require Import Model.Queues Proofs.QueuesFifoProofs Gen.Mutators Model.LiveQueue.
Import ListNotations.
Open Scope list_scope.

(* in the source (table re-read by t38x) both slices are appended to at the back and read at the front *)
Lemma source_is_fifo : d_lstack = fifo /\ d_details = fifo.
Proof. vm_compute. split; reflexivity. Qed.

Lemma lstepD_fifo s ev : lstepD fifo fifo s ev = lstep s ev.
Proof.
  destruct ev as [b k|b|k d| |b]; cbn [lstepD lstep fifo q_push q_pop push_back pop_front]; try reflexivity.
  - destruct (lv_stack s) as [|[k d] r]; reflexivity.
  - destruct (lv_details s b) as [|d r]; reflexivity.
Qed.

Lemma lrunD_fifo evs : forall s, lrunD fifo fifo s evs = lrun s evs.
Proof.
  induction evs as [|ev r IH]; intros s; [reflexivity|].
  unfold lrunD, lrun in *. cbn [fold_left]. rewrite lstepD_fifo. apply IH.
Qed.

(* any history of registrations, logged writes (in log order), processLives steps and deliveries,
   any interleaving: what a connection registered on key k has received, followed by what is still
   on its way, is exactly the writes on k logged since its registration, in log order, once *)
Theorem live_log_order : forall pre evs b k,
  let s0 := lstepD d_lstack d_details (lrunD d_lstack d_details lv_init pre) (LReg b k) in
  untouched b pre = true -> untouched b evs = true ->
  lv_view (lrunD d_lstack d_details s0 evs) b k = lv_view s0 b k ++ writes_on k evs.
Proof.
  destruct source_is_fifo as [E1 E2]. rewrite E1, E2. intros pre evs b k.
  cbv zeta. rewrite !lrunD_fifo, lstepD_fifo. apply live_fifo.
Qed.

(* ... in particular the socket never carries two writes in the opposite order of the log *)
Corollary live_out_is_prefix : forall pre evs b k,
  let s0 := lstepD d_lstack d_details (lrunD d_lstack d_details lv_init pre) (LReg b k) in
  untouched b pre = true -> untouched b evs = true -> lv_view s0 b k = [] ->
  exists rest, writes_on k evs = lv_out (lrunD d_lstack d_details s0 evs) b ++ rest.
Proof.
  intros pre evs b k s0 Hp He H0. pose proof (live_log_order pre evs b k Hp He) as H. fold s0 in H.
  rewrite H0 in H. cbn [app] in H. rewrite <- H. unfold lv_view. eexists. reflexivity.
Qed.

(* the statement is about the discipline: taking the newest item first delivers two pending writes
   in the opposite order of the log *)
Lemma lifo_reorders :
  let lifo := mkDisc true false in
  let evs := [LWrite 7%N 1%N; LWrite 7%N 2%N; LProc; LProc; LDeliver 0; LDeliver 0] in
  let s0 := lstepD lifo fifo lv_init (LReg 0 7%N) in
  lv_out (lrunD lifo fifo s0 evs) 0 = [2%N; 1%N] /\ writes_on 7%N evs = [1%N; 2%N].
Proof. vm_compute. split; reflexivity. Qed.
