(* C08, the part "every data-modifying command is handed to the log at all":

   1. over the tables t38x regenerates from /repo (Gen/LockTable.v = handleInputCommand's lock
      switch, Gen/Dispatch.v = Server.command's switch, Gen/Mutators.v = what every handler can
      modify, Gen/ScriptTables.v = the three tile38.call switches): a command whose handler can
      modify the dataset, once it passes the gate, runs with write = true in a table that calls
      writeAOF after the handler (directly and from scripts);
   2. what Props/C08log.v states "the hand-written lock-table arm of Model/Keyspace.v agrees with the
      regenerated table" with (ks_is_write, hook_chan_cmds);
   3. the witnesses for its theorems over the keyspace handlers (Model/Keyspace.v, the model C01 ties
      to crud.go / json.go): a command that changed the dataset reported updated = true, i.e. writeAOF
      did not take its `!d.updated` early return: the log record is exactly the command's argument list
      (KsProgram.exec_effect).

   Model/Prewrite.v (c08_acked_flushed) starts where this ends: a command that reaches writeAOF's
   append is in the file before its reply is sent. *)
From Coq Require Import String List Bool ZArith.
From T38 Require Import Model.Tables Gen.LockTable Gen.Dispatch Gen.ScriptTables Gen.AuthGate Gen.Mutators
  Model.Gate Proofs.GateProofs.
From T38 Require Base.Bytes Base.SMap Model.Spec Model.Keyspace Proofs.KsInv Proofs.KsProgram Proofs.KsReplay.
Import ListNotations.
Open Scope string_scope.

(* a direct command that can modify the dataset and is let through by the gate runs under the
   exclusive lock with write = true, and the `if write { s.writeAOF(...) }` follows the handler *)
Theorem changing_cmd_reaches_writeaof outer inner e k l w fn :
  gate outer inner e k = VRun l w fn ->
  changes inner = true -> in_strs inner dev_only = false ->
  w = true /\ t_logs_on_write lock_table = true /\ before GCommand GWriteAOF gate_order = true.
Proof.
  intros Hg Hc Hd. apply gate_run in Hg as [_ [Hw _]].
  pose proof (every_change_logged inner) as L. unfold logged_check in L.
  rewrite Hc, Hd in L. cbn in L. apply andb_true_iff in L as [La Lt].
  split; [rewrite Hw; exact La|]. split; [exact Lt|].
  exact (proj2 (proj2 (proj2 (proj2 gate_order_ok)))).
Qed.

(* the same for a sub-command of a read-write script (EVAL / EVALSHA: script_rw, EVALNA /
   EVALNASHA: script_na): tile38.call lets it run with write = true and calls writeAOF itself *)
Theorem changing_script_cmd_reaches_writeaof t c e l w fn :
  In t [script_rw; script_na] ->
  script_gate t c e = SRun l w fn -> changes_script c = true ->
  w = true /\ t_logs_on_write t = true.
Proof.
  intros Ht Hg Hc. apply script_gate_run in Hg as (Ed & Er & _ & _ & -> & _).
  pose proof (script_writes_logged t Ht c) as L.
  unfold script_logged_check in L. rewrite Hc, Ed, Er in L.
  exact (proj1 (andb_true_iff _ _) L).
Qed.

(* every command of the write arm has a handler that can modify the dataset, and nothing else
   is in it (so "data-modifying command" and "command of the write arm" are the same set) *)
Definition write_arm_cmds (t : table) : list string :=
  flat_map (fun a => if a_write a then a_cmds a else []) (t_arms t).

Lemma write_arm_is_the_changing_set :
  forallb (fun c => Bool.eqb (changes c && negb (in_strs c dev_only)) (in_strs c (write_arm_cmds lock_table)))
          all_command_names = true /\
  a_write (t_default lock_table) = false.
Proof.
  split; [|reflexivity].
  assert (H : forallb (fun c => Bool.eqb (in_strs c changing && negb (in_strs c dev_only)) (in_strs c (write_arm_cmds lock_table)))
                      all_command_names = true) by (vm_compute; reflexivity).
  rewrite forallb_forall in *. intros c Hc. unfold changes. rewrite touches_touching, <- changing_eq. exact (H c Hc).
Qed.

Definition hook_chan_cmds : list string := ["setchan"; "pdelchan"; "delchan"; "sethook"; "pdelhook"; "delhook"].

Definition ks_is_write (c : string) : bool :=
  match Keyspace.arm_of (Spec.bs c) with Keyspace.ArmWrite => true | _ => false end.

(* witnesses: the overwrite variant of RENAME, and RENAMENX onto a free name, change the keyspace
   and are logged with their own argument list; RENAMENX onto an existing key changes nothing and
   is not logged *)
Definition w_SET : Bytes.bytes := Eval compute in Spec.bs "SET".
Definition w_RENAME : Bytes.bytes := Eval compute in Spec.bs "RENAME".
Definition w_RENAMENX : Bytes.bytes := Eval compute in Spec.bs "RENAMENX".
Definition w_n : Bytes.bytes := Eval compute in Spec.bs "n".

Definition two_keys : list Keyspace.step :=
  [(KsProgram.toy_env 5%Z, [w_SET; KsProgram.w_k; KsProgram.w_a; KsProgram.w_STRING; KsProgram.w_speed]);
   (KsProgram.toy_env 5%Z, [w_SET; KsProgram.w_g; KsProgram.w_b; KsProgram.w_STRING; KsProgram.w_speed])].

Lemma rename_variants_witness :
  exists s, Keyspace.run KsProgram.toy_oracle true [] two_keys = Some (s, [Spec.ROk Spec.str_OK; Spec.ROk Spec.str_OK]) /\
    (exists s' r, Keyspace.exec KsProgram.toy_oracle true (KsProgram.toy_env 6%Z) s [w_RENAME; KsProgram.w_k; KsProgram.w_g]
                  = Keyspace.Done s' r [[w_RENAME; KsProgram.w_k; KsProgram.w_g]] /\ s' <> s) /\
    (exists s' r, Keyspace.exec KsProgram.toy_oracle true (KsProgram.toy_env 6%Z) s [w_RENAMENX; KsProgram.w_k; w_n]
                  = Keyspace.Done s' r [[w_RENAMENX; KsProgram.w_k; w_n]] /\ s' <> s) /\
    (exists r, Keyspace.exec KsProgram.toy_oracle true (KsProgram.toy_env 6%Z) s [w_RENAMENX; KsProgram.w_k; KsProgram.w_g]
               = Keyspace.Done s r []).
Proof.
  eexists. split; [vm_compute; reflexivity|]. split; [|split].
  - eexists. eexists. split; [vm_compute; reflexivity | vm_compute; discriminate].
  - eexists. eexists. split; [vm_compute; reflexivity | vm_compute; discriminate].
  - eexists. vm_compute. reflexivity.
Qed.
