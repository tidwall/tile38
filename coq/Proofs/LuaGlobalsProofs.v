(* Model/LuaGlobals.v: when every global a borrower sets is removed by a deferred statement, or - for the
   WHEREEVAL borrower - by its Close(), which is what Gen/LuaGlobals.v says of the source, then for EVERY
   history of borrow / invoke (leaving normally or by an early return) / return operations of any number
   of borrowers no interpreter in the pool has a global beyond the allow-list. *)
From Coq Require Import String List Bool Arith Lia.
From T38 Require Import Base.ListFacts Model.Tables Gen.LuaAllow Gen.LuaGlobals Model.LuaGlobals Proofs.LuaPoolProofs.
Import ListNotations.
Local Open Scope string_scope.
Local Open Scope list_scope.

(* a name is taken off the interpreter again on every way out of fn: by a deferred removal in fn, or - for
   the functions of the WHEREEVAL borrower - by the Close() that puts the interpreter back *)
Definition name_ok (fn nm : string) : bool :=
  removed_by fn true nm || (in_strs fn close_session_fns && in_strs nm close_removes).

(* every global a function sets itself ... *)
Definition entry_ok (e : string * (string * string)) : bool := name_ok (fst e) (fst (snd e)).
(* ... and every name the __newindex guard would let the Lua code of a script-running function create *)
Definition passthrough_ok : bool :=
  forallb (fun fn => forallb (name_ok fn) newindex_passthrough) script_runners.

Lemma source_globals_discipline : forallb entry_ok global_sets = true /\ passthrough_ok = true.
Proof. vm_compute. split; reflexivity. Qed.

(* the guard refuses every name *)
Lemma source_guard_refuses_every_name : newindex_passthrough = [].
Proof. reflexivity. Qed.

Lemma removed_by_early fn nm : removed_by fn true nm = true -> forall early, removed_by fn early nm = true.
Proof.
  unfold removed_by. intros H early. apply existsb_exists in H as [e [Hin He]]. apply existsb_exists. exists e.
  split; [exact Hin|]. cbn [negb] in He. rewrite orb_false_r in He.
  apply andb_true_iff in He as [He Hd]. rewrite He, Hd. reflexivity.
Qed.

(* Close() / the deferred Put takes the borrower's entries out: a filter, as in the pool of Proofs/LuaPoolProofs.v *)
Definition other_b (u : nat) (b : borrower) : bool := negb (Nat.eqb (b_user b) u).

Lemma find_b_in l u b : find_b l u = Some b -> In b l /\ other_b u b = false.
Proof.
  unfold other_b. induction l as [|x l IH]; cbn; [discriminate|].
  destruct (Nat.eqb (b_user x) u) eqn:E.
  - intros [= <-]. rewrite E. split; [left; reflexivity | reflexivity].
  - intros H. destruct (IH H) as [Hi Hu]. split; [right; exact Hi | exact Hu].
Qed.

Lemma drop_b_filter l u : drop_b l u = filter (other_b u) l.
Proof.
  induction l as [|b l IH]; cbn; [reflexivity|]. unfold other_b at 1.
  destruct (Nat.eqb (b_user b) u); cbn; rewrite IH; reflexivity.
Qed.

(* an extra global is on an interpreter Get cannot hand out, whose borrower - every one, so that dropping borrowers
   keeps it true - is the Close() borrower, and Close() removes it *)
Definition extra_ok (p : gpool) (q : nat * string) : Prop :=
  ~ free (g_idle p) (g_fresh p) (fst q) /\ in_strs (snd q) close_removes = true /\
  forall b, In b (g_out p) -> b_state b = fst q -> b_closes b = true.

Record GInv (p : gpool) : Prop := mkGI {
  gi_wf : wf (g_idle p) (g_fresh p) (map b_state (g_out p));
  gi_extra : forall q, In q (g_extra p) -> extra_ok p q }.

Lemma ginv_init n : GInv (ginit n).
Proof. constructor; cbn; [apply wf_init | intros q []]. Qed.

Lemma set_names_ok fn script nm : In nm (sets_of fn ++ created fn script) -> name_ok fn nm = true.
Proof.
  (* sets_of and created are unfolded in the goal: unfolded in a hypothesis, Qed compares the filtered tables *)
  destruct source_globals_discipline as [D1 D2]. unfold sets_of, created. intros Hin. apply in_app_or in Hin as [Hin|Hin].
  - apply in_map_iff in Hin as [e [<- Hin]]. apply filter_In in Hin as [Hin Hfn].
    apply String.eqb_eq in Hfn. subst fn. rewrite forallb_forall in D1. exact (D1 e Hin).
  - destruct (in_strs fn script_runners) eqn:Er; [|destruct Hin].
    apply in_map_iff in Hin as [a [<- Ha]]. apply filter_In in Ha as [_ Ha]. apply andb_true_iff in Ha as [_ Hp].
    apply (existsb_eqb_In _ String.eqb_eq) in Er, Hp.
    unfold passthrough_ok in D2. rewrite forallb_forall in D2. specialize (D2 fn Er).
    rewrite forallb_forall in D2. exact (D2 _ Hp).
Qed.

Lemma survivors_close fn early script nm :
  In nm (filter (fun nm => negb (removed_by fn early nm)) (sets_of fn ++ created fn script)) ->
  in_strs fn close_session_fns = true /\ in_strs nm close_removes = true.
Proof.
  intros H. apply filter_In in H as [Hin Hs]. cbv beta in Hs.
  pose proof (set_names_ok fn script nm Hin) as Hok. unfold name_ok in Hok.
  apply orb_true_iff in Hok as [Hok|Hok]; [|apply andb_true_iff; exact Hok].
  rewrite (removed_by_early _ _ Hok early) in Hs. discriminate Hs.
Qed.

Lemma ginv_step p o : GInv p -> GInv (gstep p o).
Proof.
  intros Hp. pose proof Hp as [Hwf He]. destruct o as [u closes|u fn early script|u]; cbn [gstep].
  - destruct (find_b (g_out p) u); [exact Hp|].
    apply (get_view GInv (fun x i f => mkGP i f (g_extra p) (g_gone p) (mkB u x closes :: g_out p)) _ _ _ Hwf).
    intros x i f Hwf' Hx Hsub. constructor; cbn [g_idle g_fresh g_extra g_gone g_out map b_state]; [exact Hwf'|].
    intros q Hq. destruct (He q Hq) as [Hnf [Hk Hc]]. split; [intros Hf; exact (Hnf (Hsub _ Hf))|]. split; [exact Hk|].
    intros b [<-|Hb] E; [|exact (Hc b Hb E)]. exfalso. apply Hnf. rewrite <- E. exact Hx.
  - destruct (find_b (g_out p) u) as [b|] eqn:Ef; [|exact Hp].
    destruct (Bool.eqb (in_close_session fn) (b_closes b)) eqn:Es; [|exact Hp].
    destruct (find_b_in _ _ _ Ef) as [Hin _].
    constructor; cbn [g_idle g_fresh g_extra g_gone g_out]; [exact Hwf|].
    intros q Hq. apply in_app_or in Hq as [Hq|Hq]; [|exact (He q Hq)].
    apply in_map_iff in Hq as [k [<- Hkr]]. destruct (survivors_close _ _ _ _ Hkr) as [Hf Hk].
    destruct (wf_out b_state _ _ _ _ Hwf Hin) as [Hnf Hinj]. split; [exact Hnf|]. split; [exact Hk|].
    intros b' Hb' E. rewrite (Hinj b' Hb' E). apply eqb_prop in Es. rewrite <- Es. exact Hf.
  - destruct (find_b (g_out p) u) as [b|] eqn:Ef; [|exact Hp].
    destruct (find_b_in _ _ _ Ef) as [Hin Hbu]. rewrite drop_b_filter.
    constructor; cbn [g_idle g_fresh g_extra g_gone g_out].
    + exact (wf_put _ _ _ _ (proj1 (wf_move b_state _ _ _ _ b Hwf Hin Hbu))).
    + intros q Hq.
      assert (Hq0 : In q (g_extra p)) by (destruct (b_closes b); [apply filter_In in Hq as [Hq _]; exact Hq | exact Hq]).
      destruct (He q Hq0) as [Hnf [Hk Hc]]. split; [|split; [exact Hk | intros b' Hb'; apply filter_In in Hb'; exact (Hc b' (proj1 Hb'))]].
      intros [Hf|Hf]; [|exact (Hnf (or_intror Hf))]. apply in_app_or in Hf as [Hf|[E|[]]]; [exact (Hnf (or_introl Hf))|].
      (* the global sits on the interpreter that is going back: its borrower closes, and Close() has just removed it *)
      rewrite (Hc b Hin E) in Hq. apply filter_In in Hq as [_ Hq]. rewrite <- E, Nat.eqb_refl, Hk in Hq. discriminate.
Qed.

Theorem ginv_run n ops : GInv (grun (ginit n) ops).
Proof.
  unfold grun. apply fold_left_inv; [intros p o _; apply ginv_step | apply ginv_init].
Qed.

Lemma gone_grows_only_by_deletes p ops : g_gone p = [] -> no_deletes ops -> g_gone (grun p ops) = [].
Proof.
  intros Hp Hd. unfold grun. apply (fold_left_inv gstep (fun q => g_gone q = [])); [|exact Hp].
  clear p Hp. intros p o Hin Hp. destruct o as [u closes|u fn early script|u]; cbn [gstep].
  - destruct (find_b (g_out p) u); [exact Hp|]. destruct (rev (g_idle p)); exact Hp.
  - destruct (find_b (g_out p) u); [|exact Hp]. destruct (Bool.eqb _ _); [|exact Hp]. cbn.
    rewrite (Hd u fn early script Hin). exact Hp.
  - destruct (find_b (g_out p) u); exact Hp.
Qed.

(* an interpreter in the pool has no global beyond the ones lStatePool.New registered - whatever names the
   Lua code of the borrowers tried to assign *)
Theorem idle_interpreters_have_no_extra_globals n ops x :
  In x (g_idle (grun (ginit n) ops)) -> extras_of (g_extra (grun (ginit n) ops)) x = [].
Proof.
  intros Hx. unfold extras_of. rewrite filter_none; [reflexivity|].
  intros q Hq. apply Nat.eqb_neq. intros E. apply (gi_extra _ (ginv_run n ops) q Hq). left. rewrite E. exact Hx.
Qed.
