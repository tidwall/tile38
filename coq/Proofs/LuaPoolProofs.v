(* The interpreter pool (Model/LuaPool.v): when every user that registers an eval mode removes it again
   on every way out - which is what Gen/LuaPool.v says of the source - then, for EVERY history of Get /
   Store / tile38.call / exit / Prune operations by any number of concurrent requests (two interpreters
   out at once, returned in either order, early exits before the Store, pool growth and pruning),
     - no idle interpreter carries a mode,
     - a request that did not register a mode (WHEREEVAL filters, SCRIPT LOAD, an EVAL before its Store)
       finds none on its interpreter: its tile38.call is refused,
     - a request past its Store finds its own command word - not one left behind by somebody else. *)
From Coq Require Import String List Bool Arith Lia.
From T38 Require Import Base.ListFacts Model.Tables Gen.ScriptTables Gen.LuaPool Model.LuaPool.
Import ListNotations.
Local Open Scope string_scope.
Local Open Scope list_scope.

(* A pool of numbered interpreters without what is attached to them (Model/LuaPool.v and Model/LuaGlobals.v have
   the same one): the idle ones, of which Get hands out the last, the number made so far, and those that are out. *)

(* Get may hand x out at some later time *)
Definition free (idle : list nat) (fresh x : nat) : Prop := In x idle \/ fresh <= x.

Definition wf (idle : list nat) (fresh : nat) (out : list nat) : Prop :=
  NoDup (idle ++ out) /\ forall x, In x (idle ++ out) -> x < fresh.

Lemma wf_init n : wf (seq 0 n) n [].
Proof. unfold wf. rewrite app_nil_r. split; [apply seq_NoDup | intros x H; apply in_seq in H; exact (proj2 H)]. Qed.

(* Get cannot hand out an interpreter that is out, and nobody else has it *)
Lemma wf_out {A} (f : A -> nat) idle fresh l a :
  wf idle fresh (map f l) -> In a l -> ~ free idle fresh (f a) /\ forall b, In b l -> f b = f a -> b = a.
Proof.
  intros [Hn Hb] Ha. split; [|intros b Hb' E; exact (NoDup_map_inj f l b a (NoDup_app_r _ _ Hn) Hb' Ha E)].
  apply (in_map f) in Ha. intros [Hi|Hf].
  - apply in_split in Ha as (l1 & l2 & E). rewrite E, app_assoc in Hn. apply NoDup_remove_2 in Hn.
    apply Hn, in_or_app. left. apply in_or_app. left. exact Hi.
  - specialize (Hb _ (in_or_app _ _ _ (or_intror Ha))). lia.
Qed.

(* Get is, in both models, a match on rev idle whose two results are built alike (k) from the interpreter handed
   out, the idle ones left and the number made: that interpreter was free and is out afterwards; nothing has become free *)
Lemma get_view {T} (P : T -> Prop) (k : nat -> list nat -> nat -> T) idle fresh out :
  wf idle fresh out ->
  (forall x idle' fresh', wf idle' fresh' (x :: out) -> free idle fresh x ->
     (forall y, free idle' fresh' y -> free idle fresh y) -> P (k x idle' fresh')) ->
  P (match rev idle with x :: rest => k x (rev rest) fresh | [] => k fresh [] (S fresh) end).
Proof.
  intros [Hn Hb] HP. pose proof (rev_involutive idle) as Er.
  destruct (rev idle) as [|x rest]; cbn [rev] in Er; subst idle; apply HP.
  - split; cbn [app].
    + constructor; [intros Hin; apply Hb in Hin; lia | exact Hn].
    + intros x [<-|Hin]; [|apply Hb in Hin]; lia.
  - right. apply Nat.le_refl.
  - intros y [[]|Hy]. right. lia.
  - unfold wf. rewrite <- app_assoc in Hn, Hb. split; assumption.
  - left. apply in_elt.
  - intros y [Hy|Hy]; [left; apply in_or_app; left; exact Hy | right; exact Hy].
Qed.

Lemma wf_sub idle fresh out out' : wf idle fresh out -> NoDup out' -> incl out' out -> wf idle fresh out'.
Proof.
  intros [Hn Hb] Hn' Hi. pose proof (fun l => incl_app_app (incl_refl l) Hi) as Hs.
  split; [clear Hb | intros y Hy; exact (Hb y (Hs _ y Hy))].
  induction idle as [|a l IH]; cbn in *; [exact Hn'|]. inversion Hn as [|? ? Ha Hl]; subst.
  constructor; [intros Hx; exact (Ha (Hs _ a Hx)) | exact (IH Hl)].
Qed.

(* the entries selected by p stay out, x (not selected) is put in front of them; Put then takes it from there *)
Lemma wf_move {A} (f : A -> nat) (p : A -> bool) idle fresh l x :
  wf idle fresh (map f l) -> In x l -> p x = false ->
  wf idle fresh (f x :: map f (filter p l)) /\ forall y, In y (filter p l) -> f y <> f x.
Proof.
  intros Hwf Hin Hp.
  assert (Hoth : forall y, In y (filter p l) -> f y <> f x).
  { intros y Hy E. apply filter_In in Hy as [Hy Hpy]. rewrite (proj2 (wf_out f _ _ _ _ Hwf Hin) y Hy E), Hp in Hpy. discriminate. }
  split; [|exact Hoth]. apply (wf_sub _ _ _ _ Hwf).
  - constructor; [|exact (NoDup_map_filter f p l (NoDup_app_r _ _ (proj1 Hwf)))].
    intros Hy. apply in_map_iff in Hy as [y [E Hy]]. exact (Hoth y Hy E).
  - apply incl_cons; [apply in_map; exact Hin | exact (incl_map f (incl_filter p l))].
Qed.

Lemma wf_put idle fresh x out : wf idle fresh (x :: out) -> wf (idle ++ [x]) fresh out.
Proof. unfold wf. rewrite <- app_assoc. exact (fun H => H). Qed.

Lemma wf_prune k idle fresh out : wf idle fresh out -> wf (skipn k idle) fresh out.
Proof.
  intros [Hn Hb]. rewrite <- (firstn_skipn k idle), <- app_assoc in Hn, Hb.
  split; [exact (NoDup_app_r _ _ Hn) | intros x Hx; apply Hb, in_or_app; right; exact Hx].
Qed.

Definition other_user (u : nat) (h : holder) : bool := negb (Nat.eqb (h_user h) u).

Lemma drop_holder_filter l u : drop_holder l u = filter (other_user u) l.
Proof.
  induction l as [|h l IH]; cbn; [reflexivity|]. unfold other_user at 1.
  destruct (Nat.eqb (h_user h) u); cbn; rewrite IH; reflexivity.
Qed.

Lemma find_holder_in l u h : find_holder l u = Some h -> In h l /\ other_user u h = false.
Proof.
  unfold other_user. induction l as [|x l IH]; cbn; [discriminate|].
  destruct (Nat.eqb (h_user x) u) eqn:E.
  - intros [= <-]. rewrite E. split; [left; reflexivity | reflexivity].
  - intros H. destruct (IH H) as [Hi Hu]. split; [right; exact Hi | exact Hu].
Qed.

Lemma reg_get_del_same r x : reg_get (reg_del r x) x = None.
Proof.
  induction r as [|[y m] r IH]; cbn; [reflexivity|].
  destruct (Nat.eqb_spec y x) as [->|Hne]; [exact IH|]. cbn.
  destruct (Nat.eqb_spec y x); [congruence | exact IH].
Qed.

Lemma reg_get_del_other r x y : y <> x -> reg_get (reg_del r x) y = reg_get r y.
Proof.
  intros Hne. induction r as [|[z m] r IH]; cbn; [reflexivity|].
  destruct (Nat.eqb_spec z x) as [->|Hzx].
  - destruct (Nat.eqb_spec x y); [congruence | exact IH].
  - cbn. destruct (Nat.eqb z y); [reflexivity | exact IH].
Qed.

Lemma reg_get_set_same r x m : reg_get (reg_set r x m) x = Some m.
Proof. unfold reg_set. cbn. rewrite Nat.eqb_refl. reflexivity. Qed.

Lemma reg_get_set_other r x m y : y <> x -> reg_get (reg_set r x m) y = reg_get r y.
Proof.
  intros Hne. unfold reg_set. cbn. destruct (Nat.eqb_spec x y); [congruence|]. apply reg_get_del_other. exact Hne.
Qed.

Section PoolProofs.
Variable fl : string -> bool * bool.
(* a user that registers a mode removes it on every way out *)
Hypothesis discipline : forall fn, fst (fl fn) = true -> snd (fl fn) = true.

(* what is found on the interpreter of a request: past the Store (of a function that has one) the request's own
   mode, before it nothing *)
Definition seen_ok (stored : bool) (fn mode : string) (found : option string) : Prop :=
  if stored then fst (fl fn) = true /\ found = Some mode else found = None.

Definition holder_ok (p : pool) (h : holder) : Prop :=
  seen_ok (h_stored h) (h_fn h) (h_mode h) (reg_get (reg p) (h_state h)).

Definition call_ok (c : lcall) : Prop := seen_ok (c_stored c) (c_fn c) (c_mode c) (c_found c).

Record PInv (p : pool) : Prop := mkPI {
  pi_wf : wf (saved p) (fresh p) (map h_state (held p));
  pi_free : forall x, free (saved p) (fresh p) x -> reg_get (reg p) x = None;
  pi_held : forall h, In h (held p) -> holder_ok p h;
  pi_calls : Forall call_ok (calls p) }.

Lemma pinv_init n : PInv (pinit n).
Proof. constructor; cbn; [apply wf_init | reflexivity | intros h [] | constructor]. Qed.

Lemma pinv_step p o : PInv p -> PInv (pstep fl p o).
Proof.
  intros Hp. pose proof Hp as [Hwf Hfree Hheld Hcalls]. destruct o as [u fn mode|u|u|u|k]; cbn [pstep].
  - (* OGet: the interpreter handed out was free, so it has no mode *)
    destruct (find_holder (held p) u); [exact Hp|].
    apply (get_view PInv (fun x i f => mkPool i f (reg p) (mkHolder u x fn mode false :: held p) (calls p)) _ _ _ Hwf).
    intros x i f Hwf' Hx Hsub. constructor; cbn [saved fresh reg held calls map h_state].
    + exact Hwf'.
    + intros y Hy. exact (Hfree y (Hsub y Hy)).
    + intros h [<-|Hin]; [exact (Hfree x Hx) | exact (Hheld h Hin)].
    + exact Hcalls.
  - (* OStore *)
    destruct (find_holder (held p) u) as [h|] eqn:Ef; [|exact Hp].
    destruct (fst (fl (h_fn h))) eqn:Est; [|exact Hp].
    destruct (find_holder_in _ _ _ Ef) as [Hin Hu]. rewrite drop_holder_filter.
    destruct (wf_move h_state _ _ _ _ h Hwf Hin Hu) as [Hwf' Hoth].
    constructor; cbn [saved fresh reg held calls map h_state].
    + exact Hwf'.
    + intros x Hx. rewrite reg_get_set_other; [exact (Hfree x Hx)|].
      intros ->. exact (proj1 (wf_out h_state _ _ _ _ Hwf Hin) Hx).
    + intros h' [<-|Hh']; unfold holder_ok; cbn [reg h_state h_stored h_fn h_mode].
      * split; [exact Est | apply reg_get_set_same].
      * rewrite reg_get_set_other by exact (Hoth h' Hh'). apply filter_In in Hh'. exact (Hheld h' (proj1 Hh')).
    + exact Hcalls.
  - (* OCall: the call finds what its holder's invariant says *)
    destruct (find_holder (held p) u) as [h|] eqn:Ef; [|exact Hp].
    constructor; cbn [saved fresh reg held calls]; try assumption.
    apply Forall_app. split; [exact Hcalls|]. constructor; [|constructor].
    exact (Hheld h (proj1 (find_holder_in _ _ _ Ef))).
  - (* OExit *)
    destruct (find_holder (held p) u) as [h|] eqn:Ef; [|exact Hp].
    destruct (find_holder_in _ _ _ Ef) as [Hin Hu]. rewrite drop_holder_filter.
    destruct (wf_move h_state _ _ _ _ h Hwf Hin Hu) as [Hwf' Hoth].
    set (r := if h_stored h && snd (fl (h_fn h)) then reg_del (reg p) (h_state h) else reg p).
    assert (Hrx : reg_get r (h_state h) = None).
    { unfold r. pose proof (Hheld h Hin) as Hok. unfold holder_ok, seen_ok in Hok. destruct (h_stored h); cbn.
      - rewrite (discipline _ (proj1 Hok)). apply reg_get_del_same.
      - exact Hok. }
    assert (Hro : forall y, y <> h_state h -> reg_get r y = reg_get (reg p) y).
    { intros y Hne. unfold r. destruct (h_stored h && snd (fl (h_fn h))); [apply reg_get_del_other; exact Hne | reflexivity]. }
    constructor; cbn [saved fresh reg held calls].
    + exact (wf_put _ _ _ _ Hwf').
    + intros y Hy. destruct (Nat.eq_dec y (h_state h)) as [->|Hne]; [exact Hrx|]. rewrite (Hro y Hne). apply Hfree.
      destruct Hy as [Hy|Hy]; [left | right; exact Hy]. apply in_app_or in Hy as [Hy|[E|[]]]; [exact Hy | congruence].
    + intros h' Hh'. unfold holder_ok. cbn [reg]. rewrite (Hro _ (Hoth h' Hh')).
      apply filter_In in Hh'. exact (Hheld h' (proj1 Hh')).
    + exact Hcalls.
  - (* OPrune *)
    constructor; cbn [saved fresh reg held calls]; try assumption.
    + apply wf_prune, Hwf.
    + intros x [Hx|Hx]; apply Hfree; [left; exact (incl_skipn _ _ _ Hx) | right; exact Hx].
Qed.

Theorem pinv_run n ops : PInv (prun fl (pinit n) ops).
Proof.
  unfold prun. apply fold_left_inv; [intros p o _; apply pinv_step | apply pinv_init].
Qed.

Theorem idle_interpreters_have_no_mode n ops x :
  In x (saved (prun fl (pinit n) ops)) -> reg_get (reg (prun fl (pinit n) ops)) x = None.
Proof. intros Hx. apply (pi_free _ (pinv_run n ops)). left. exact Hx. Qed.

Lemma calls_ok n ops c : In c (calls (prun fl (pinit n) ops)) -> call_ok c.
Proof. intros H. pose proof (pi_calls _ (pinv_run n ops)) as Hc. rewrite Forall_forall in Hc. exact (Hc c H). Qed.

Theorem calls_find_own_mode_or_none n ops c :
  In c (calls (prun fl (pinit n) ops)) ->
  if c_stored c then c_found c = Some (c_mode c) else c_found c = None.
Proof. intros H. pose proof (calls_ok n ops c H) as Hc. unfold call_ok in Hc. destruct (c_stored c); [exact (proj2 Hc) | exact Hc]. Qed.

End PoolProofs.

Lemma assoc_in {A} (l : list (string * A)) k v : assoc l k = Some v -> In (k, v) l.
Proof.
  induction l as [|[k' v'] l IH]; cbn; [discriminate|].
  destruct (String.eqb_spec k' k) as [->|]; [intros H; inversion H; left; reflexivity | intros H; right; exact (IH H)].
Qed.

(* every user of the pool that registers a mode removes it on every way out (computed over the table) *)
Lemma source_discipline : forall fn, fst (user_flags fn) = true -> snd (user_flags fn) = true.
Proof.
  assert (H : forallb (fun pu => implb (fst (fst (snd pu))) (snd (fst (snd pu)))) pool_users = true) by (vm_compute; reflexivity).
  rewrite forallb_forall in H. intros fn. unfold user_flags.
  destruct (assoc pool_users fn) as [f|] eqn:E; [|discriminate].
  specialize (H _ (assoc_in _ _ _ E)). cbn in H. intros Hs. rewrite Hs in H. exact H.
Qed.

(* only cmdEvalUnified registers a mode: every other user of the pool, and every other function, does not *)
Lemma only_eval_registers :
  evalcmd_store_fns = ["Server.cmdEvalUnified"] /\
  forallb (fun pu => implb (fst (fst (snd pu))) (String.eqb (fst pu) "Server.cmdEvalUnified")) pool_users = true /\
  forallb (fun fn => negb (fst (user_flags fn))) ["Server.parseSearchScanBaseTokens"; "Server.cmdScriptLoad"] = true /\
  existsb (fun pu => String.eqb (fst pu) "Server.parseSearchScanBaseTokens") pool_users = true.
Proof. vm_compute. repeat split. Qed.

(* an interpreter without a mode is refused by luaTile38Call *)
Lemma no_mode_is_refused : route None = None.
Proof. vm_compute. reflexivity. Qed.

(* a WHEREEVAL filter (or any request whose function has no Store) that calls tile38.call is refused;
   a script past its Store is routed by its OWN command word *)
Theorem source_calls_are_routed_by_own_mode n ops c :
  In c (calls (src_run (pinit n) ops)) ->
  (fst (user_flags (c_fn c)) = false -> route (c_found c) = None) /\
  (c_stored c = true -> c_found c = Some (c_mode c)) /\
  (c_stored c = false -> route (c_found c) = None).
Proof.
  intros H. pose proof (calls_ok user_flags source_discipline n ops c H) as Hc. unfold call_ok in Hc.
  destruct (c_stored c).
  - destruct Hc as [Hf Hm]. split; [intros E; rewrite Hf in E; discriminate|]. split; [intros _; exact Hm | discriminate].
  - rewrite Hc. split; [intros _; exact no_mode_is_refused|]. split; [discriminate | intros _; exact no_mode_is_refused].
Qed.
