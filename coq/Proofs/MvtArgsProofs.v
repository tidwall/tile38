(* Lemmas about Model/MvtArgs.v: the tile-path rewrite of an HTTP request never panics with the guard
   `len(parts) != 4` (the last of exactly four segments carries the 4-byte extension the call site tested
   for); the path on which it does with `len(parts) < 4` is w_prefixed_tile (Props/C16mvt.v evaluates it).
   The guard and the call site of the source are transcription obligations over Gen/MvtArgs.v. *)
From Coq Require Import ZifyN ZifyNat ZifyBool.
From T38 Require Import Base.Bytes Model.Resp Model.Pipeline Model.MvtArgs Model.HandoverFacts.
From T38 Require Gen.MvtArgs.
Local Open Scope N_scope.

Lemma split_on_nonempty c : forall l rcur, split_on c l rcur <> [].
Proof. induction l as [|x l IH]; intros rcur; cbn [split_on]; [discriminate|]. destruct (x =? c); [discriminate|apply IH]. Qed.

Lemma split_on_clean c : forall s rcur, forallb (fun x => negb (x =? c)) s = true -> split_on c s rcur = [rev rcur ++ s].
Proof.
  induction s as [|x s IH]; intros rcur H; cbn [split_on forallb] in *; [rewrite app_nil_r; reflexivity|].
  apply andb_true_iff in H as [Hx H]. apply negb_true_iff in Hx.
  rewrite Hx, (IH _ H). cbn [rev]. rewrite <- app_assoc. reflexivity.
Qed.

Lemma last_cons (A : Type) (a : A) t d : t <> [] -> last (a :: t) d = last t d.
Proof. destruct t; [congruence|reflexivity]. Qed.

Lemma split_on_last_suffix c s : forallb (fun x => negb (x =? c)) s = true -> forall l rcur,
  last (split_on c (l ++ s) rcur) [] = last (split_on c l rcur) [] ++ s.
Proof.
  intros Hs. induction l as [|x l IH]; intros rcur; cbn [app split_on].
  - rewrite (split_on_clean c s rcur Hs). reflexivity.
  - destruct (x =? c).
    + rewrite !last_cons by apply split_on_nonempty. apply IH.
    + apply IH.
Qed.

Lemma has_suffix_spec s p : has_suffix s p = true -> exists a, p = a ++ s.
Proof.
  unfold has_suffix. rewrite andb_true_iff, bytes_eqb_eq. intros [_ H].
  exists (firstn (length p - length s) p). rewrite <- H at 2. symmetry. apply firstn_skipn.
Qed.

(* Exactly four parts: parts[3] is the last one, and the last one ends in the extension.  What the guard
   has to do is let nothing but four parts through. *)
Lemma mvt_filter_exact4_suffix reject s path : (forall n, reject n = false -> n = 4%nat) ->
  length s = 4%nat -> forallb (fun x => negb (x =? 47)) s = true ->
  has_suffix s path = true -> mvt_filter reject path <> MPanic.
Proof.
  intros H4 Hl Hs Hsuf. destruct (has_suffix_spec s path Hsuf) as [a ->].
  unfold mvt_filter. cbv zeta.
  pose proof (split_on_last_suffix 47 s Hs a []) as L.
  destruct (reject _) eqn:E; [discriminate|]. apply H4 in E.
  destruct (split_on 47 (a ++ s) []) as [|p0 [|p1 [|p2 [|p3 [|? ?]]]]]; try discriminate.
  cbn [last] in L. cbn [nth_error]. unfold drop_last4.
  destruct (length p3 <? 4)%nat eqn:E4; [apply Nat.ltb_lt in E4; rewrite L, app_length in E4; lia|].
  cbn [firstn skipn app forallb map].
  destruct (path_unescape p0), (path_unescape p1), (path_unescape p2),
           (path_unescape (firstn (length p3 - 4) p3)); cbn; discriminate.
Qed.

Lemma mvt_entry_four_no_panic reject arg0 : (forall n, reject n = false -> n = 4%nat) ->
  mvt_entry reject arg0 <> MPanic.
Proof.
  intros H4. unfold mvt_entry. destruct (has_suffix w_mvt (before_q arg0)) eqn:A; cbn [orb].
  - exact (mvt_filter_exact4_suffix reject w_mvt _ H4 eq_refl eq_refl A).
  - destruct (has_suffix w_pbf (before_q arg0)) eqn:B; [|discriminate].
    exact (mvt_filter_exact4_suffix reject w_pbf _ H4 eq_refl eq_refl B).
Qed.

Lemma mvt_entry_exact4_no_panic arg0 : mvt_entry mvt_reject_exact4 arg0 <> MPanic.
Proof. apply mvt_entry_four_no_panic. intros n H. apply negb_false_iff, Nat.eqb_eq in H. exact H. Qed.

(* `len(parts) < 4` is not a guard: /tiles/fleet/10/193/413.mvt; the `!= 4` guard refuses that path and
   accepts fleet/10/193/413.mvt?limit=5 *)
Definition w_prefixed_tile : bytes :=
  [116;105;108;101;115;47;102;108;101;101;116;47;49;48;47;49;57;51;47;52;49;51;46;109;118;116].

(* transcription obligations: the guard, the call site and the callers as the source has them *)
From Coq Require Import String.
Open Scope string_scope.
Definition expected_mvt_prefix : list string :=
  ["path := msg.Args[0]";
   "parts := strings.Split(path, ""/"")";
   "if len(parts) != 4 { return false }";
   "parts[3] = parts[3][:len(parts[3])-4]";
   "for i := 0; i < len(parts); i++ { var err error parts[i], err = url.PathUnescape(parts[i]) if err != nil { return false } }"].
Definition expected_mvt_call_site : string :=
  "if msg.ConnType == HTTP && len(msg.Args) == 1 { var query string if i := strings.IndexByte(msg.Args[0], '?'); i != -1 { query = msg.Args[0][i+1:] msg.Args[0] = msg.Args[0][:i] } if strings.HasSuffix(msg.Args[0], "".mvt"") || strings.HasSuffix(msg.Args[0], "".pbf"") { mvt = mvtFilterHTTPArgs(msg, query) } else if strings.HasPrefix(msg.Args[0], ""viewer/"") || msg.Args[0] == ""viewer"" { return viewer.HandleHTTP(client, ""/""+strings.Join(msg.Args, ""/""), s.opts.DevMode) } }".

Definition expected_mvt_callers : list string := ["Server.handleInputCommand"].

