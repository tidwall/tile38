(* C17 — the vector tile survives the JSON member and the HTTP route exactly when the encoder of
   writeFoot and the decoder of the HTTP arm name the same base64 encoding. *)
From Coq Require Import ZifyN ZifyNat ZifyBool.
From T38 Require Import Base.Bytes Model.Mvt.
From T38 Require Gen.Templates.
Open Scope N_scope.

Lemma b64val_char x : x < 64 -> b64val (b64char x) = Some x.
Proof.
  intros H. unfold b64char.
  destruct (N.ltb_spec x 26).
  { unfold b64val. replace ((65 <=? 65 + x) && (65 + x <=? 90)) with true by lia. f_equal; lia. }
  destruct (N.ltb_spec x 52).
  { unfold b64val. replace ((65 <=? 97 + (x - 26)) && (97 + (x - 26) <=? 90)) with false by lia.
    replace ((97 <=? 97 + (x - 26)) && (97 + (x - 26) <=? 122)) with true by lia. f_equal; lia. }
  destruct (N.ltb_spec x 62).
  { unfold b64val. replace ((65 <=? 48 + (x - 52)) && (48 + (x - 52) <=? 90)) with false by lia.
    replace ((97 <=? 48 + (x - 52)) && (48 + (x - 52) <=? 122)) with false by lia.
    replace ((48 <=? 48 + (x - 52)) && (48 + (x - 52) <=? 57)) with true by lia. f_equal; lia. }
  destruct (N.eqb_spec x 62); [subst; reflexivity|].
  assert (x = 63) by lia. subst. reflexivity.
Qed.

(* whatever x is: beyond 63 b64char answers '/' *)
Lemma b64char_range x : 43 <= b64char x <= 122 /\ b64char x <> PAD.
Proof.
  unfold b64char, PAD.
  destruct (N.ltb_spec x 26); [lia|]. destruct (N.ltb_spec x 52); [lia|].
  destruct (N.ltb_spec x 62); [lia|]. destruct (N.eqb_spec x 62); lia.
Qed.

Lemma b64char_not_pad x : (b64char x =? PAD) = false.
Proof. apply N.eqb_neq. apply b64char_range. Qed.

Section Ind3.
Variable P : bytes -> Prop.
Hypothesis H0 : P [].
Hypothesis H1 : forall a, P [a].
Hypothesis H2 : forall a b, P [a; b].
Hypothesis H3 : forall a b c r, P r -> P (a :: b :: c :: r).
Fixpoint list_ind3 (l : bytes) : P l :=
  match l with
  | [] => H0
  | [a] => H1 a
  | [a; b] => H2 a b
  | a :: b :: c :: r => H3 a b c r (list_ind3 r)
  end.
End Ind3.

Lemma pack n m h l : h < m -> l < n ->
  h * n + l < m * n /\ (h * n + l) / n = h /\ (h * n + l) mod n = l.
Proof.
  intros Hh Hl. split; [nia|].
  split; symmetry; [apply N.div_unique with l | apply N.mod_unique with h]; auto; ring.
Qed.

Lemma unpack n m x : n <> 0 -> x < n * m -> x / n < m /\ x mod n < n /\ (x / n) * n + x mod n = x.
Proof.
  intros Hn Hx. split; [apply N.div_lt_upper_bound; assumption|].
  split; [apply N.mod_lt; assumption|]. rewrite N.mul_comm. symmetry. apply N.div_mod'.
Qed.

(* Three bytes are four sextets and back: a byte is two digits as 64 x 4, 16 x 16 and 4 x 64, the
   middle sextets are two digits as 4 x 16 and 16 x 4. A remainder of one or two bytes is the case
   b = c = 0 or c = 0: its last sextet carries zeros in the missing bits. *)
Lemma sextets a b c : a < 256 -> b < 256 -> c < 256 ->
  (a / 4 < 64 /\ (a mod 4) * 16 + b / 16 < 64 /\ (b mod 16) * 4 + c / 64 < 64 /\ c mod 64 < 64) /\
  (a / 4) * 4 + ((a mod 4) * 16 + b / 16) / 16 = a /\
  (((a mod 4) * 16 + b / 16) mod 16) * 16 + ((b mod 16) * 4 + c / 64) / 4 = b /\
  (((b mod 16) * 4 + c / 64) mod 4) * 64 + c mod 64 = c.
Proof.
  intros Ha Hb Hc.
  destruct (unpack 4 64 a) as (A1 & A0 & Ea), (unpack 16 16 b) as (B1 & B0 & Eb), (unpack 64 4 c) as (C1 & C0 & Ec);
    try assumption; try discriminate.
  destruct (pack 16 4 (a mod 4) (b / 16)) as (L2 & H2 & T2), (pack 4 16 (b mod 16) (c / 64)) as (L3 & H3 & T3);
    try assumption.
  rewrite H2, T2, H3, T3. auto 10.
Qed.

Lemma sextets1 a : a < 256 ->
  (a / 4 < 64 /\ (a mod 4) * 16 < 64) /\ (a / 4) * 4 + ((a mod 4) * 16) / 16 = a.
Proof.
  intros Ha. destruct (sextets a 0 0 Ha eq_refl eq_refl) as ((L1 & L2 & _) & E1 & _).
  change (0 / 16) with 0 in *. rewrite N.add_0_r in *. auto.
Qed.

Lemma sextets2 a b : a < 256 -> b < 256 ->
  (a / 4 < 64 /\ (a mod 4) * 16 + b / 16 < 64 /\ (b mod 16) * 4 < 64) /\
  (a / 4) * 4 + ((a mod 4) * 16 + b / 16) / 16 = a /\
  (((a mod 4) * 16 + b / 16) mod 16) * 16 + ((b mod 16) * 4) / 4 = b.
Proof.
  intros Ha Hb. destruct (sextets a b 0 Ha Hb eq_refl) as ((L1 & L2 & L3 & _) & E1 & E2 & _).
  change (0 / 64) with 0 in *. rewrite N.add_0_r in *. auto.
Qed.

Definition keep (c : N) : bool := negb ((c =? 13) || (c =? 10)).

Lemma keep_b64char x : keep (b64char x) = true.
Proof.
  pose proof (b64char_range x) as [Hr _]. unfold keep.
  destruct (N.eqb_spec (b64char x) 13); [lia|]. destruct (N.eqb_spec (b64char x) 10); [lia|]. reflexivity.
Qed.

Lemma encode_keeps pad t : filter keep (b64_encode pad t) = b64_encode pad t.
Proof.
  induction t as [|a|a b|a b c r IH] using list_ind3; [reflexivity|..];
    cbn [b64_encode app filter]; rewrite !keep_b64char; [destruct pad; reflexivity..|].
  rewrite IH. reflexivity.
Qed.

Lemma quanta_roundtrip pad t : wf_bytes t -> b64_quanta pad (b64_encode pad t) = Some t.
Proof.
  induction t as [|a|a b|a b c r IH] using list_ind3; intros Hw; [reflexivity|..];
    repeat apply Forall_cons_iff in Hw as [? Hw].
  - destruct (sextets1 a) as ((? & ?) & E1); [assumption|].
    cbn [b64_encode app]. destruct pad; cbn [b64_quanta app]; rewrite !b64val_char, E1 by assumption; reflexivity.
  - destruct (sextets2 a b) as ((? & ? & ?) & E1 & E2); [assumption..|].
    cbn [b64_encode app]. destruct pad; cbn [b64_quanta app]; rewrite !b64val_char, E1, E2 by assumption;
      rewrite ?b64char_not_pad; reflexivity.
  - destruct (sextets a b c) as ((? & ? & ? & ?) & E1 & E2 & E3); [assumption..|].
    cbn [b64_encode b64_quanta]. rewrite !b64char_not_pad, !andb_false_r, !b64val_char by assumption.
    rewrite IH, E1, E2, E3 by exact Hw. reflexivity.
Qed.

(* the same encoding on both sites: every tile comes back *)
Theorem same_kind_roundtrip k t : wf_bytes t -> decode k (encode k t) = Some t.
Proof.
  intros Hw. unfold decode, encode, b64_decode. fold keep.
  rewrite encode_keeps. apply quanta_roundtrip. exact Hw.
Qed.

(* padded text read by the NoPadding decoder: rejected whenever the encoder did pad ('=' is not in
   the alphabet; what the characters before it decode to does not matter) *)
Lemma quanta_std_into_raw (t : bytes) : (N.of_nat (length t)) mod 3 <> 0 ->
  b64_quanta false (b64_encode true t) = None.
Proof.
  induction t as [|a|a b|a b c r IH] using list_ind3; intros Hn; [cbn in Hn; congruence|..];
    cbn [b64_encode b64_quanta app andb].
  3: rewrite IH by (cbn [length] in Hn; lia).
  all: repeat destruct (b64val (b64char _)); reflexivity.
Qed.

Theorem std_into_raw_rejected t : (N.of_nat (length t)) mod 3 <> 0 ->
  decode BRawStd (encode BStd t) = None.
Proof.
  intros Hn. unfold decode, encode, b64_decode. fold keep. cbn [padded].
  rewrite encode_keeps. apply quanta_std_into_raw. exact Hn.
Qed.

(* the two sites as the source names them *)
Lemma sites_same_kind :
  exists k, kind_of_name Gen.Templates.mvt_json_encoding = Some k /\
            kind_of_name Gen.Templates.mvt_http_decoding = Some k.
Proof. eexists. split; vm_compute; reflexivity. Qed.

(* the padded encoder in front of the unpadded decoder (seeded change C17/9): 500 and the base64 text *)
Theorem mvt_http_std_raw_refuted : forall tile res, (N.of_nat (length tile)) mod 3 <> 0 ->
  mvt_http n_RawStdEncoding res (mvt_member n_StdEncoding tile) =
  Some (mkH 500 CTJson (encode BStd tile)).
Proof.
  intros tile res Hn. unfold mvt_member, mvt_http.
  change (kind_of_name n_StdEncoding) with (Some BStd). change (kind_of_name n_RawStdEncoding) with (Some BRawStd).
  cbn iota. rewrite (std_into_raw_rejected tile Hn). reflexivity.
Qed.
