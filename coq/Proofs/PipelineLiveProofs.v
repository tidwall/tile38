(* Lemmas about Model/PipelineLive.v: the connection across the hand-over to live mode.
   - normal_phase_spec: for every parser, every live-command classifier and every hand-over that keeps the
     carry-over buffer, a run in which nothing parsed stayed unhandled is the specification applied to
     conn_run of the same chunks; with the chunking theorem of PipelineProofs.v the outcome is a function
     of the concatenated bytes alone.
   - normal_phase_left: what a run leaves unhandled goes by the flag that is off; after the repair, nothing.
   - handover_keeps_reader / handover_keeps_rest / live_loop_msgs_before_error: the obligations over the facts
     the translator reads off the source (Gen/LiveHandover.v): the live loop reads from the reader of
     netServe, buffer included; the rest of the hand-over read and its error are handed to it; it handles the
     messages of a read before the read's error.  Together: ho_source = ho_repaired. *)
From Coq Require Import ZifyN ZifyNat ZifyBool.
From T38 Require Import Base.Bytes Model.Resp Model.Pipeline Model.PipelineLive Model.HandoverFacts
  Proofs.RespProofs Proofs.PipelineProofs.
From T38 Require Gen.LiveHandover.
Local Open Scope Z_scope.

Definition source_reader_survives : bool :=
  reader_survives Gen.LiveHandover.handover_read_reader Gen.LiveHandover.handover_golive_reader
    Gen.LiveHandover.handover_assigns Gen.LiveHandover.handover_reader_calls Gen.LiveHandover.live_readers.

Definition source_rest_kept : bool :=
  rest_kept Gen.LiveHandover.handover_read_reader Gen.LiveHandover.handover_loop_var
    Gen.LiveHandover.handover_reader_method_calls Gen.LiveHandover.reader_methods
    Gen.LiveHandover.readmessages_head Gen.LiveHandover.readmessages_tail.
Definition source_live_err_after_msgs : bool := live_err_after_msgs Gen.LiveHandover.live_subscription_loop.

(* the hand-over of the source as the model sees it: all three flags are computed from the extracted facts *)
Definition ho_source : handover :=
  {| ho_keep_buf := source_reader_survives;
     ho_pass_rest := source_rest_kept;
     ho_live_err_keeps := source_live_err_after_msgs |}.

Lemma handover_keeps_reader : source_reader_survives = true.
Proof. vm_compute. reflexivity. Qed.

Lemma handover_keeps_rest : source_rest_kept = true.
Proof. vm_compute. reflexivity. Qed.

Lemma live_loop_msgs_before_error : source_live_err_after_msgs = true.
Proof. vm_compute. reflexivity. Qed.

Lemma ho_source_keeps_buf : ho_keep_buf ho_source = true.
Proof. exact handover_keeps_reader. Qed.

Lemma ho_source_repaired : ho_source = ho_repaired.
Proof.
  unfold ho_source, ho_repaired.
  rewrite handover_keeps_reader, handover_keeps_rest, live_loop_msgs_before_error. reflexivity.
Qed.

Section Live.
  Variable parse : bytes -> cres.
  Variable golive : msg -> bool.

  Lemma split_live_app a b : split_live golive (a ++ b) =
    match split_live golive a with
    | (pre, None) => let (p, r) := split_live golive b in (pre ++ p, r)
    | (pre, Some post) => (pre, Some (post ++ b))
    end.
  Proof.
    induction a as [|m a IH]; cbn [split_live app]; [destruct (split_live golive b); reflexivity|].
    destruct (golive m); [reflexivity|]. rewrite IH.
    destruct (split_live golive a) as [pre [post|]]; [reflexivity|]. destruct (split_live golive b); reflexivity.
  Qed.

  Definition cprepend (ms : list msg) (r : conn_res) : conn_res :=
    match r with
    | Open ms' b => Open (ms ++ ms') b
    | Closed ms' e => Closed (ms ++ ms') e
    | other => other
    end.

  Lemma conn_run_acc : forall chunks buf acc,
    conn_run parse chunks buf acc = cprepend acc (conn_run parse chunks buf []).
  Proof.
    induction chunks as [|c rest IH]; intros buf acc; cbn [conn_run cprepend].
    - rewrite app_nil_r. reflexivity.
    - destruct (rm_step parse buf c) as [ms b [e|]| |]; cbn [cprepend app]; try reflexivity.
      rewrite (IH b (acc ++ ms)), (IH b ms).
      destruct (conn_run parse rest b []); cbn [cprepend]; rewrite ?app_assoc; reflexivity.
  Qed.

  (* the live phase as a conn_run *)
  Definition lift (n : list msg) (r : conn_res) : live_res :=
    match r with
    | Open l b => LOpen true n l [] None [] b
    | Closed l e => LClosed true n l [] None [] e
    | Crashed => LCrashed
    | NoFuel => LNoFuel
    end.

  Lemma live_phase_conn h : forall chunks buf n l,
    acted_all (live_phase h parse chunks buf n l) = true ->
    live_phase h parse chunks buf n l = lift n (conn_run parse chunks buf l).
  Proof.
    induction chunks as [|c rest IH]; intros buf n l H; cbn [live_phase conn_run lift] in *; [reflexivity|].
    destruct (rm_step parse buf c) as [ms b [e|]| |]; try reflexivity.
    - destruct (ho_live_err_keeps h); [reflexivity|].
      cbn [acted_all] in H. destruct ms; [|discriminate]. rewrite app_nil_r. reflexivity.
    - apply IH. exact H.
  Qed.

  (* what the hand-over left unhandled is recorded by add_unacted only *)
  Lemma live_phase_shape h : forall chunks buf n l,
    match live_phase h parse chunks buf n l with
    | LOpen _ _ _ d pe _ _ | LClosed _ _ _ d pe _ _ => d = [] /\ pe = None
    | _ => True
    end.
  Proof.
    induction chunks as [|c rest IH]; intros buf n l; cbn [live_phase]; [split; reflexivity|].
    destruct (rm_step parse buf c) as [ms b [e|]| |]; try exact I.
    - destruct (ho_live_err_keeps h); split; reflexivity.
    - apply IH.
  Qed.

  Lemma add_unacted_acted d pe r :
    match r with
    | LOpen _ _ _ d0 pe0 _ _ | LClosed _ _ _ d0 pe0 _ _ => d0 = [] /\ pe0 = None
    | _ => True
    end ->
    acted_all (add_unacted d pe r) = true -> d = [] /\ pe = None /\ add_unacted d pe r = r /\ acted_all r = true.
  Proof.
    destruct r; cbn [add_unacted acted_all]; intros Sh H; try discriminate H; destruct Sh as [-> ->];
      (destruct d; [|discriminate H]); (destruct pe; [discriminate H|]); auto.
  Qed.

  (* messages the reader had parsed before are sorted into normal and live ones first *)
  Lemma classify_acc chunks buf n ms :
    classify golive n (conn_run parse chunks buf ms) =
    match split_live golive ms with
    | (pre, None) => classify golive (n ++ pre) (conn_run parse chunks buf [])
    | (pre, Some post) => lift (n ++ pre) (conn_run parse chunks buf post)
    end.
  Proof.
    rewrite (conn_run_acc chunks buf ms). destruct (split_live golive ms) as [pre [post|]] eqn:S.
    - rewrite (conn_run_acc chunks buf post).
      destruct (conn_run parse chunks buf []); cbn [cprepend lift classify]; rewrite ?split_live_app, ?S; reflexivity.
    - destruct (conn_run parse chunks buf []) as [ms' b'|ms' e'| |]; cbn [cprepend classify]; try reflexivity;
        rewrite split_live_app, S; destruct (split_live golive ms') as [p [q|]]; rewrite app_assoc; reflexivity.
  Qed.

  Lemma normal_phase_spec h : ho_keep_buf h = true -> forall chunks buf n,
    acted_all (normal_phase h parse golive chunks buf n) = true ->
    normal_phase h parse golive chunks buf n = classify golive n (conn_run parse chunks buf []).
  Proof.
    intros Hk. induction chunks as [|c rest IH]; intros buf n H; cbn [normal_phase conn_run] in *.
    - cbn [classify split_live]. rewrite app_nil_r. reflexivity.
    - destruct (rm_step parse buf c) as [ms b e| |]; [|discriminate H|discriminate H].
      cbn [app]. rewrite Hk in *.
      destruct (split_live golive ms) as [pre [post|]] eqn:S.
      + destruct (ho_pass_rest h).
        * destruct e as [x|]; [|rewrite classify_acc, S; exact (live_phase_conn h rest b _ post H)].
          cbn [classify]. rewrite S. destruct (ho_live_err_keeps h); [reflexivity|].
          cbn [acted_all] in H. destruct post; [reflexivity|discriminate].
        * destruct (add_unacted_acted post e _ (live_phase_shape h rest b (n ++ pre) []) H) as (-> & -> & -> & Ha).
          rewrite classify_acc, S. exact (live_phase_conn h rest b _ [] Ha).
      + destruct e as [x|]; [cbn [classify]; rewrite S; reflexivity|].
        rewrite classify_acc, S. exact (IH b (n ++ pre) H).
  Qed.

  (* with a parser that neither panics nor runs out of fuel every read returns *)
  Hypothesis parse_no_panic : forall d, parse d <> CPanic.
  Hypothesis parse_good : cgood parse.

  Lemma rm_step_ok buf c : exists ms b e, rm_step parse buf c = RM ms b e.
  Proof.
    unfold rm_step.
    pose proof (rm_loop_no_panic parse parse_no_panic (S (length (buf ++ c))) (buf ++ c)) as Hp.
    pose proof (rm_loop_no_fuel parse parse_good (S (length (buf ++ c))) (buf ++ c) ltac:(lia)) as Hf.
    destruct (rm_loop parse (S (length (buf ++ c))) (buf ++ c)) as [ms b e| |]; [eauto|congruence|congruence].
  Qed.

  (* what a run may leave unhandled goes by the flag that is off: the rest and the error of the hand-over read
     only without ho_pass_rest, the messages in front of an error of the live loop only without ho_live_err_keeps *)
  Definition left_by_flag (h : handover) (r : live_res) : Prop :=
    match r with
    | LOpen _ _ _ d pe de _ | LClosed _ _ _ d pe de _ =>
        (ho_pass_rest h = true -> d = [] /\ pe = None) /\ (ho_live_err_keeps h = true -> de = [])
    | _ => False
    end.

  Lemma live_phase_left h : forall chunks buf n l, left_by_flag h (live_phase h parse chunks buf n l).
  Proof.
    induction chunks as [|c rest IH]; intros buf n l; cbn [live_phase]; [cbn; auto|].
    destruct (rm_step_ok buf c) as (ms & b & e & ->). destruct e; [|apply IH].
    destruct (ho_live_err_keeps h) eqn:K; cbn; rewrite K; [auto|split; [auto|discriminate]].
  Qed.

  Lemma normal_phase_left h : forall chunks buf n, left_by_flag h (normal_phase h parse golive chunks buf n).
  Proof.
    induction chunks as [|c rest IH]; intros buf n; cbn [normal_phase]; [cbn; auto|].
    destruct (rm_step_ok buf c) as (ms & b & e & ->).
    destruct (split_live golive ms) as [pre [post|]]; [|destruct e; [cbn; auto|apply IH]].
    pose proof (live_phase_left h rest (if ho_keep_buf h then b else []) (n ++ pre)) as L.
    destruct (ho_pass_rest h) eqn:P.
    - destruct e; [|apply L]. destruct (ho_live_err_keeps h) eqn:K; cbn; rewrite K; [auto|split; [auto|discriminate]].
    - specialize (L []). destruct (live_phase h parse rest _ (n ++ pre) []); cbn in *; try exact L.
      all: split; [congruence|apply L].
  Qed.

  Lemma left_repaired r : left_by_flag ho_repaired r -> acted_all r = true.
  Proof.
    destruct r; cbn; try contradiction; intros [A B]; destruct (A eq_refl) as [-> ->]; rewrite (B eq_refl); reflexivity.
  Qed.
  Lemma left_alive h r : left_by_flag h r -> r <> LCrashed /\ r <> LNoFuel.
  Proof. destruct r; cbn; try contradiction; split; discriminate. Qed.

  Lemma live_phase_repaired : forall chunks buf n l,
    acted_all (live_phase ho_repaired parse chunks buf n l) = true.
  Proof. intros chunks buf n l. apply left_repaired, live_phase_left. Qed.
End Live.

Definition t38_live_run (h : handover) := live_run h t38_parse_fixed.
Definition t38_live_spec := live_spec t38_parse_fixed.

(* replies are a function of the bytes sent, across the hand-over too: whatever the segmentation, a run in
   which nothing parsed stayed unhandled gives the outcome the specification reads off the whole stream *)
Theorem t38_live_chunking h golive chunks :
  ho_keep_buf h = true -> len (concat chunks) < BIG ->
  acted_all (t38_live_run h golive chunks) = true ->
  t38_live_run h golive chunks = t38_live_spec golive (concat chunks).
Proof.
  intros Hk Hb Ha. unfold t38_live_run, live_run, t38_live_spec, live_spec in *.
  rewrite (normal_phase_spec t38_parse_fixed golive h Hk chunks [] [] Ha).
  rewrite (t38_fixed_chunking chunks Hb). reflexivity.
Qed.

Theorem t38_live_chunking_repaired golive chunks :
  len (concat chunks) < BIG ->
  t38_live_run ho_repaired golive chunks = t38_live_spec golive (concat chunks) /\
  t38_live_run ho_repaired golive chunks = t38_live_run ho_repaired golive [concat chunks].
Proof.
  intros Hb.
  assert (A : forall cs, len (concat cs) < BIG -> t38_live_run ho_repaired golive cs = t38_live_spec golive (concat cs)).
  { intros cs Hc. apply t38_live_chunking; [reflexivity|exact Hc|].
    apply left_repaired, normal_phase_left; [exact t38_fixed_no_panic|exact t38_fixed_good]. }
  split; [apply A; exact Hb|].
  rewrite (A chunks Hb). rewrite (A [concat chunks]); cbn [concat]; rewrite ?app_nil_r; [reflexivity|exact Hb].
Qed.

Definition is_sub (m : msg) : bool :=
  match m_args m with
  | a :: _ => bytes_eqb (to_lower a) [115;117;98;115;99;114;105;98;101]%N    (* "subscribe" *)
  | [] => false
  end.
Definition w_sub : bytes := [83;85;66;83;67;82;73;66;69;32;99;104;13;10]%N.       (* SUBSCRIBE ch\r\n *)
Definition w_ping1 : bytes := [80;73]%N.                                            (* PI *)
Definition w_ping2 : bytes := [78;71;32;120;13;10]%N.                               (* NG x\r\n *)
Definition m_sub : msg := {| m_args := [[83;85;66;83;67;82;73;66;69]%N; [99;104]%N]; m_kind := KTelnet |}.
Definition m_ping : msg := {| m_args := [[80;73;78;71]%N; [120]%N]; m_kind := KTelnet |}.
Definition m_ng : msg := {| m_args := [[78;71]%N; [120]%N]; m_kind := KTelnet |}.

Definition w_bad : bytes := [42;120;13;10]%N.                                       (* *x\r\n *)
