(* Lemmas about Model/Pipeline.v: stability of the tile38-level parser (HTTP sniff + redcon) under
   appended bytes, the carry-over step of ReadMessages, absence of Panic after the proposed repair. *)
From Coq Require Import ZifyN ZifyNat ZifyBool.
From T38 Require Import Base.Bytes Base.ListFacts Model.Resp Model.Pipeline Proofs.RespProofs.
Local Open Scope Z_scope.

Definition cext (e : bytes) (r r' : cres) : Prop :=
  match r with
  | CComplete a k rest => r' = CComplete a k (rest ++ e)
  | CErr x => r' = CErr x
  | _ => True
  end.

(* RespProofs.ext_good for the connection's parser: cext, cgood and the stability of a panic in one statement.
   big is the condition under which a panic stays: none for the HTTP parser, a buffer shorter than BIG for redcon's,
   and for readNextCommand, which panics on the empty buffer, a non-empty one. *)
Definition cext_good (big : Prop) (e p : bytes) (r r' : cres) : Prop :=
  match r with
  | CComplete a k rest => len rest < len p /\ r' = CComplete a k (rest ++ e)
  | CErr x => r' = CErr x
  | CPanic => big -> r' = CPanic
  | CFuel => False
  | CIncomplete => True
  end.

Lemma cext_good_weaken (big big' : Prop) e p r r' : (big' -> big) -> cext_good big e p r r' -> cext_good big' e p r r'.
Proof. destruct r; cbn; auto. Qed.
Lemma cext_good_cext big e p r r' : cext_good big e p r r' -> cext e r r'.
Proof. destruct r; cbn; tauto. Qed.
Lemma of_result_ext e p r r' : ext_good e p r r' -> cext_good (len (p ++ e) < BIG) e p (of_result r) (of_result r').
Proof.
  destruct r; cbn; intros H; try exact H.
  - destruct H as [H ->]. auto.
  - rewrite H. reflexivity.
  - intros Hb. rewrite (H Hb). reflexivity.
Qed.

Lemma find_crlf_ext e : forall s prev i k, find_crlf s prev i = Some k ->
  i <= k < i + len s /\ find_crlf (s ++ e) prev i = Some k.
Proof.
  induction s as [|x s IH]; intros prev i k H; cbn [find_crlf app] in *; [discriminate|].
  rewrite len_cons. pose proof (len_nonneg s).
  destruct ((x =? LF) && (prev =? CR))%N; [inversion H; subst; split; [lia|reflexivity]|].
  destruct (IH _ _ _ H). split; [lia|assumption].
Qed.

(* sniff reads packet[0]: it panics on the empty buffer, where ReadMessages does not call it, and nowhere else
   (the line it slices has been found, so the slice is in range) *)
Lemma sniff_ext d e :
  match sniff d with
  | SIncomplete => True
  | SPanic => d = []
  | r => sniff (d ++ e) = r
  end.
Proof.
  destruct d as [|c s]; [reflexivity|]. cbn [sniff app].
  destruct ((c =? 71) || (c =? 80) || (c =? 79))%N; [|reflexivity].
  destruct (find_crlf s c 1) as [i|] eqn:F; [|exact I]. destruct (find_crlf_ext e _ _ _ _ F) as [Hi ->].
  destruct (Z.ltb_spec 11 (i + 1)); [|reflexivity].
  destruct (slice_some (c :: s) (i + 1 - 11) (i + 1 - 5) ltac:(lia) ltac:(rewrite len_cons; lia)) as [w Hw].
  change (c :: s ++ e) with ((c :: s) ++ e). rewrite Hw, (slice_app_l _ e _ _ _ Hw).
  destruct (bytes_eqb w w_http); reflexivity.
Qed.

Section WithHttp.
  Variable http : bytes -> cres.
  Hypothesis http_ext : forall d e, cext_good True e d (http d) (http (d ++ e)).

  Lemma read_cmd_ext d e :
    cext_good (d <> [] /\ len (d ++ e) < BIG) e d (read_cmd http d) (read_cmd http (d ++ e)).
  Proof.
    unfold read_cmd. pose proof (sniff_ext d e) as S.
    destruct (sniff d); [exact I| | |intros [Hne _]; contradiction]; rewrite S.
    - apply (cext_good_weaken True); [auto|apply http_ext].
    - apply (cext_good_weaken (len (d ++ e) < BIG)); [tauto|apply of_result_ext, read_next_app].
  Qed.

  Lemma read_cmd_fixed_no_panic d : read_cmd_fixed http d <> CPanic.
  Proof. unfold read_cmd_fixed. destruct d; [discriminate|]. destruct (read_cmd http (n :: d)); discriminate. Qed.
End WithHttp.

Definition cgood (parse : bytes -> cres) : Prop :=
  forall d, match parse d with CComplete _ _ rest => len rest < len d | CFuel => False | _ => True end.

Definition prepend (ms : list msg) (r : rm_res) : rm_res :=
  match r with RM ms' b x => RM (ms ++ ms') b x | other => other end.

Lemma prepend_nil r : prepend [] r = r.
Proof. destruct r; reflexivity. Qed.

(* the two things the loop does with a complete command besides going on: an HTTP request without
   arguments is errInvalidHTTP, a command without arguments yields no message *)
Definition bad_http (k : ckind) (args : list bytes) : bool :=
  match k, args with KHttp, [] => true | _, _ => false end.
Definition keep (args : list bytes) (k : ckind) (ms : list msg) : list msg :=
  match args with [] => ms | _ => {| m_args := args; m_kind := k |} :: ms end.

Lemma keep_app args k ms ms' : keep args k (ms ++ ms') = keep args k ms ++ ms'.
Proof. destruct args; reflexivity. Qed.

(* one round of the loop of ReadMessages; next stands for the rounds that follow *)
Definition rm_round (parse : bytes -> cres) (next : bytes -> rm_res) (data : bytes) : rm_res :=
  match data with
  | [] => RM [] [] None
  | _ =>
      match parse data with
      | CErr e => RM [] data (Some e)
      | CIncomplete => RM [] data None
      | CPanic => RMPanic
      | CFuel => RMFuel
      | CComplete args k rest =>
          if bad_http k args then RM [] data (Some (EHttp 0)) else
          match next rest with
          | RM ms b e => RM (keep args k ms) b e
          | r => r
          end
      end
  end.

Lemma rm_loop_S parse f data : rm_loop parse (S f) data = rm_round parse (rm_loop parse f) data.
Proof.
  destruct data as [|x d]; [reflexivity|]. cbn [rm_loop rm_round].
  destruct (parse (x :: d)) as [args k rest| | | |]; try reflexivity. destruct k, args; reflexivity.
Qed.

Lemma rm_loop_mono parse : forall f d f', (f <= f')%nat -> rm_loop parse f d <> RMFuel ->
  rm_loop parse f' d = rm_loop parse f d.
Proof.
  induction f as [|f IH]; intros d f' Hle Hn; [cbn in Hn; congruence|].
  destruct f' as [|f']; [lia|]. rewrite !rm_loop_S in *. unfold rm_round in *.
  destruct d as [|x d]; [reflexivity|].
  destruct (parse (x :: d)) as [args k rest| | | |]; try reflexivity.
  destruct (bad_http k args); [reflexivity|].
  rewrite (IH rest f'); [reflexivity|lia|]. intros E. rewrite E in Hn. congruence.
Qed.

Lemma rm_loop_no_fuel parse : cgood parse -> forall f d, (length d < f)%nat -> rm_loop parse f d <> RMFuel.
Proof.
  intros parse_good. induction f as [|f IH]; intros d Hf; [lia|].
  rewrite rm_loop_S. unfold rm_round. destruct d as [|x d]; [discriminate|].
  pose proof (parse_good (x :: d)) as G.
  destruct (parse (x :: d)) as [args k rest| | | |]; try discriminate; [|contradiction].
  destruct (bad_http k args); [discriminate|].
  assert (Hl : (length rest < length (x :: d))%nat) by (rewrite !len_spec in G; lia).
  pose proof (IH rest ltac:(lia)) as Hr. destruct (rm_loop parse f rest); try discriminate; congruence.
Qed.

Lemma rm_loop_no_panic parse : (forall d, parse d <> CPanic) -> forall f d, rm_loop parse f d <> RMPanic.
Proof.
  intros Hp. induction f as [|f IH]; intros d; [discriminate|].
  rewrite rm_loop_S. unfold rm_round. destruct d as [|x d]; [discriminate|].
  pose proof (Hp (x :: d)) as Hx.
  destruct (parse (x :: d)) as [args k rest| | | |]; try discriminate; try congruence.
  destruct (bad_http k args); [discriminate|].
  pose proof (IH rest) as Hr. destruct (rm_loop parse f rest); try discriminate; congruence.
Qed.

Lemma conn_run_no_crash parse : (forall d, parse d <> CPanic) ->
  forall chunks buf acc, conn_run parse chunks buf acc <> Crashed.
Proof.
  intros Hp. induction chunks as [|c rest IH]; intros buf acc; cbn [conn_run]; [discriminate|].
  unfold rm_step. pose proof (rm_loop_no_panic parse Hp (S (length (buf ++ c))) (buf ++ c)) as Hn.
  destruct (rm_loop parse (S (length (buf ++ c))) (buf ++ c)) as [ms b [e|]| |]; try discriminate; try congruence; try apply IH.
Qed.

Section Chunking.
  Variable parse : bytes -> cres.
  Variable B : Z.   (* buffers shorter than B (a Go slice is shorter than 2^62) *)
  Hypothesis parse_stable : forall d e, len (d ++ e) < B -> cext e (parse d) (parse (d ++ e)).
  Hypothesis parse_good : cgood parse.

  Definition rm_all (d : bytes) : rm_res := rm_loop parse (S (length d)) d.

  (* the loop of ReadMessages without its fuel: a complete command leaves less than it was given *)
  Lemma rm_all_eq d : rm_all d = rm_round parse rm_all d.
  Proof using parse_good.
    clear parse_stable. unfold rm_all. rewrite rm_loop_S. unfold rm_round. destruct d as [|x d]; [reflexivity|].
    pose proof (parse_good (x :: d)) as G.
    destruct (parse (x :: d)) as [args k rest| | | |]; try reflexivity.
    rewrite !len_spec in G.
    rewrite (rm_loop_mono parse (S (length rest)) rest (length (x :: d))); [reflexivity|lia|].
    apply rm_loop_no_fuel; [exact parse_good|lia].
  Qed.

  (* what bytes arriving behind d make of the outcome on d: an open buffer is read on, an error stays where it is *)
  Definition resume (e : bytes) (r : rm_res) : rm_res :=
    match r with
    | RM ms b None => prepend ms (rm_all (b ++ e))
    | RM ms b (Some x) => RM ms (b ++ e) (Some x)
    | other => other
    end.

  Theorem rm_all_ext e : forall d, len (d ++ e) < B -> rm_all d <> RMPanic -> rm_all (d ++ e) = resume e (rm_all d).
  Proof.
    intros d. remember (length d) as n eqn:En. revert d En.
    induction n as [n IH] using lt_wf_ind. intros d -> Hb Hp.
    destruct d as [|x d]; [cbn [resume app rm_all rm_loop length]; rewrite prepend_nil; reflexivity|].
    pose proof (parse_stable (x :: d) e Hb) as St. pose proof (parse_good (x :: d)) as G.
    rewrite (rm_all_eq (x :: d)) in Hp |- *. rewrite (rm_all_eq ((x :: d) ++ e)). unfold rm_round in Hp |- *.
    change ((x :: d) ++ e) with (x :: d ++ e) in St |- *.
    destruct (parse (x :: d)) as [args k rest| |y| |]; cbn [cext] in St; try rewrite St; cbn [resume].
    - destruct (bad_http k args); [reflexivity|].
      assert (Hl : (length rest < length (x :: d))%nat) by (rewrite !len_spec in G; lia).
      rewrite (IH _ Hl rest eq_refl); [|rewrite len_app in *; lia|destruct (rm_all rest); congruence].
      destruct (rm_all rest) as [ms b [z|]| |]; cbn [resume]; try reflexivity.
      destruct (rm_all (b ++ e)); cbn [prepend]; rewrite ?keep_app; reflexivity.
    - rewrite prepend_nil. symmetry. apply (rm_all_eq (x :: d ++ e)).
    - reflexivity.
    - congruence.
    - contradiction.
  Qed.

  Definition whole_result (stream : bytes) : conn_res := conn_run parse [stream] [] [].

  Lemma whole_result_eq stream : whole_result stream =
    match rm_all stream with
    | RM ms b None => Open ms b
    | RM ms b (Some e) => Closed ms e
    | RMPanic => Crashed
    | RMFuel => NoFuel
    end.
  Proof.
    unfold whole_result, rm_all. cbn [conn_run]. unfold rm_step. cbn [app].
    destruct (rm_loop parse (S (length stream)) stream) as [ms b [e|]| |]; reflexivity.
  Qed.

  Lemma conn_run_gen : forall chunks pre buf acc,
    len (pre ++ concat chunks) < B ->
    rm_all pre = RM acc buf None ->
    (forall k, rm_all (firstn k (pre ++ concat chunks)) <> RMPanic) ->
    conn_run parse chunks buf acc = whole_result (pre ++ concat chunks).
  Proof.
    induction chunks as [|c rest IH]; intros pre buf acc Hb Hpre Hnp.
    - cbn [concat conn_run]. rewrite app_nil_r, whole_result_eq, Hpre. reflexivity.
    - cbn [concat conn_run] in *. unfold rm_step. fold (rm_all (buf ++ c)).
      rewrite app_assoc in Hb |- *. pose proof (len_nonneg (concat rest)) as Hcr.
      assert (Hnp' : forall k, rm_all (firstn k ((pre ++ c) ++ concat rest)) <> RMPanic) by (intros k; rewrite <- app_assoc; apply Hnp).
      assert (Hall : rm_all (pre ++ c) = prepend acc (rm_all (buf ++ c))).
      { rewrite rm_all_ext, Hpre; [reflexivity|rewrite len_app in Hb; lia|congruence]. }
      pose proof (Hnp' (length (pre ++ c))) as Hc. rewrite firstn_app_exact in Hc.
      destruct (rm_all (buf ++ c)) as [ms b [x|]| |] eqn:R; cbn [prepend] in Hall.
      + rewrite whole_result_eq, rm_all_ext, Hall by assumption. reflexivity.
      + apply IH; assumption.
      + congruence.
      + rewrite whole_result_eq, rm_all_ext, Hall by assumption. reflexivity.
  Qed.

  (* feeding the chunks one ReadMessages call at a time = feeding their concatenation in one call:
     same messages in the same order, same error point, same leftover *)
  Theorem conn_run_chunking chunks :
    len (concat chunks) < B ->
    (forall k, rm_all (firstn k (concat chunks)) <> RMPanic) ->
    conn_run parse chunks [] [] = conn_run parse [concat chunks] [] [].
  Proof.
    intros Hb Hp. exact (conn_run_gen chunks [] [] [] Hb eq_refl Hp).
  Qed.
End Chunking.

Lemma crlf_go_ext e : forall s prev r line rest, crlf_go s prev r = Some (line, rest) ->
  (length rest < length s)%nat /\ crlf_go (s ++ e) prev r = Some (line, rest ++ e).
Proof.
  induction s as [|x s IH]; intros prev r line rest H; cbn [crlf_go app length] in *; [discriminate|].
  destruct ((x =? LF) && (prev =? CR))%N; [inversion H; subst; split; [lia|reflexivity]|].
  destruct (IH _ _ _ _ H). split; [lia|assumption].
Qed.
Lemma readcrlf_ext e p line rest : readcrlf p = Some (line, rest) ->
  (length rest < length p)%nat /\ readcrlf (p ++ e) = Some (line, rest ++ e).
Proof.
  destruct p as [|c s]; [discriminate|]. cbn [readcrlf app length]. intros H.
  destruct (crlf_go_ext e _ _ _ _ _ H). split; [lia|assumption].
Qed.

(* the header loop in the manner of cext_good: every line takes bytes away, so fuel above the length is never
   used up, and a complete head is read alike with more fuel and more bytes *)
Lemma read_headers_ext e : forall f p racc f', (length p < f)%nat -> (f <= f')%nat ->
  match read_headers f p racc with
  | HOk hs rest => (length rest < length p)%nat /\ read_headers f' (p ++ e) racc = HOk hs (rest ++ e)
  | HNotReady => True
  | HFuel => False
  end.
Proof.
  induction f as [|f IH]; intros p racc f' Hf Hle; [lia|]. destruct f' as [|f']; [lia|]. cbn [read_headers].
  destruct (readcrlf p) as [[line r]|] eqn:R; [|exact I]. destruct (readcrlf_ext e _ _ _ R) as [Hr ->].
  destruct line as [|x line]; [split; [exact Hr|reflexivity]|]. set (racc' := _ :: racc).
  specialize (IH r racc' f' ltac:(lia) ltac:(lia)).
  destruct (read_headers f r racc'); [exact I| |exact IH]. destruct IH. split; [lia|assumption].
Qed.

Lemma http_finish_ext e p path rest : len rest < len p ->
  cext_good True e p (http_finish path rest) (http_finish path (rest ++ e)).
Proof.
  intros H. unfold http_finish. destruct path as [|c path]; [split; [exact H|reflexivity]|].
  pose proof (native_tok_no_fuel (S (length (c :: path))) (c :: path) [] ltac:(lia)) as Hn.
  destruct (native_tok _ _ _); cbn [cext_good]; [split; [exact H|reflexivity]|reflexivity|congruence].
Qed.

Lemma http_parse_ext d e : cext_good True e d (http_parse d) (http_parse (d ++ e)).
Proof.
  unfold http_parse.
  pose proof (read_headers_ext e (S (length d)) d [] (S (length (d ++ e))) ltac:(lia) ltac:(rewrite app_length; lia)) as RH.
  destruct (read_headers (S (length d)) d []) as [|hs rest|]; [exact I| |contradiction]. destruct RH as [RH ->].
  assert (Hr : len rest < len d) by (rewrite !len_spec; lia).
  destruct hs as [|first hs]; [intros _; reflexivity|].
  destruct (split_on 32 first []) as [|method [|rawpath [|proto [|x l]]]]; try reflexivity.
  destruct (bytes_eqb method w_options); [exact I|].
  destruct rawpath as [|c0 escaped]; [reflexivity|].
  destruct c0 as [|p0]; [reflexivity|].
  do 6 (destruct p0 as [p0|p0|]; try reflexivity).
  destruct (query_unescape escaped) as [path|]; [|reflexivity].
  destruct (negb _); [reflexivity|].
  destruct (fold_headers hs _) as [st|c]; [|reflexivity].
  destruct (h_ws st && (13 <=? h_wsver st) && h_wskey st); [apply http_finish_ext; exact Hr|].
  destruct (Z.ltb_spec 0 (h_cl st)) as [Hcl|Hcl]; [|apply http_finish_ext; exact Hr].
  destruct (Z.ltb_spec (len rest) (h_cl st)) as [Hlt|Hge]; [exact I|].
  pose proof (len_nonneg e).
  destruct (Z.ltb_spec (len (rest ++ e)) (h_cl st)) as [Hlt2|_]; [rewrite len_app in Hlt2; lia|].
  (* the body and what follows it are there: these two slices cannot fail *)
  destruct (slice_some rest 0 (h_cl st) ltac:(lia) Hge) as [body Sb]. rewrite Sb, (slice_app_l _ e _ _ _ Sb).
  destruct (slice_from_some rest (h_cl st) ltac:(lia)) as [rest' Sf]. rewrite Sf, (slice_from_app_l _ e _ _ Sf).
  apply http_finish_ext. apply slice_from_range in Sf. lia.
Qed.

Lemma http_panic_stable d e : http_parse d = CPanic -> http_parse (d ++ e) = CPanic.
Proof. intros P. pose proof (http_parse_ext d e) as H. rewrite P in H. exact (H I). Qed.

Definition t38_parse : bytes -> cres := read_cmd http_parse.
Definition t38_parse_fixed : bytes -> cres := read_cmd_fixed http_parse.

Lemma t38_parse_ext d e : cext_good (d <> [] /\ len (d ++ e) < BIG) e d (t38_parse d) (t38_parse (d ++ e)).
Proof. apply read_cmd_ext. exact http_parse_ext. Qed.

Lemma t38_parse_stable d e : cext e (t38_parse d) (t38_parse (d ++ e)).
Proof. exact (cext_good_cext _ _ _ _ _ (t38_parse_ext d e)). Qed.

Lemma t38_parse_good : cgood t38_parse.
Proof. intros d. pose proof (t38_parse_ext d []) as H. destruct (t38_parse d); cbn in *; tauto. Qed.

Lemma recovered_stable (big : Prop) e p r r' : big -> cext_good big e p r r' -> cext e (recovered r) (recovered r').
Proof.
  intros Hb. destruct r; cbn; try tauto.
  - intros [_ ->]. reflexivity.
  - intros ->. reflexivity.
  - intros H. rewrite (H Hb). reflexivity.
Qed.

Lemma t38_fixed_stable d e : len (d ++ e) < BIG -> cext e (t38_parse_fixed d) (t38_parse_fixed (d ++ e)).
Proof.
  intros Hbig. destruct d as [|c d]; [exact I|].
  apply (recovered_stable _ e (c :: d) _ _) with (2 := t38_parse_ext (c :: d) e). split; [discriminate|exact Hbig].
Qed.

Lemma t38_fixed_good : cgood t38_parse_fixed.
Proof.
  intros [|c p]; [exact I|]. pose proof (t38_parse_good (c :: p)) as G.
  unfold t38_parse_fixed, read_cmd_fixed, t38_parse in *.
  destruct (read_cmd http_parse (c :: p)); cbn [recovered] in *; auto.
Qed.

Lemma t38_fixed_no_panic d : t38_parse_fixed d <> CPanic.
Proof. apply read_cmd_fixed_no_panic. Qed.

(* k-way chunking for the repaired entry point: the length bound is the only hypothesis *)
Theorem t38_fixed_chunking chunks :
  len (concat chunks) < BIG ->
  conn_run t38_parse_fixed chunks [] [] = conn_run t38_parse_fixed [concat chunks] [] [].
Proof.
  intros Hb. apply (conn_run_chunking t38_parse_fixed BIG); try assumption.
  - intros d e H. apply t38_fixed_stable; assumption.
  - exact t38_fixed_good.
  - intros k. apply rm_loop_no_panic. exact t38_fixed_no_panic.
Qed.

Definition conn_msgs (r : conn_res) : list msg :=
  match r with Open ms _ | Closed ms _ => ms | _ => [] end.
Definition conn_err (r : conn_res) : option cerr :=
  match r with Closed _ e => Some e | _ => None end.

Definition of_conn (r : conn_res) : serve_res :=
  match r with
  | Open ms b => SOpen ms b []
  | Closed ms e => SClosed ms e
  | Crashed => SCrashed
  | NoFuel => SNoFuel
  end.

(* client.in (InputStream) is dead as long as a socket read fits the pipeline buffer *)
Lemma serve_reads_dead parse psz : forall reads buf acc,
  Forall (fun r => (length r <= psz)%nat) reads ->
  serve_reads parse psz reads [] buf acc = of_conn (conn_run parse reads buf acc).
Proof.
  induction reads as [|r rest IH]; intros buf acc Hf; [reflexivity|].
  inversion Hf as [|? ? Hr Hrest]; subst.
  cbn [serve_reads conn_run app]. rewrite firstn_all2 by exact Hr. rewrite skipn_all2 by exact Hr.
  destruct (rm_step parse buf r) as [ms b [e|]| |]; try reflexivity. apply IH; exact Hrest.
Qed.

