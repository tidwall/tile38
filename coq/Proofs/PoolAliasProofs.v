(* Proofs for Model/PoolAlias.v: the generated tables satisfy the conditions; the conditions are what
   keeps a reply the client's own page. *)
From Coq Require Import String List Bool NArith Arith.
From T38 Require Import Base.ListFacts Model.Tables Model.PoolAlias Gen.Dispatch Gen.PkgVars.
Import ListNotations.
Open Scope string_scope.

(* whatever hands memory back to a sync.Pool in package server lets nothing that may still reference
   that memory leave the function: no row of the residue. (When this breaks the error message shows
   the offending rows.) *)
Lemma pool_puts_residue_empty : alias_residue PkgVars.pool_puts = [].
Proof. vm_compute. reflexivity. Qed.

Lemma pkg_var_writes_residue_empty : unguarded_residue PkgVars.pkg_vars PkgVars.pkg_var_writes = [].
Proof. vm_compute. reflexivity. Qed.

Lemma filter_nil_all {A} (p : A -> bool) l : filter p l = [] -> forall x, In x l -> p x = false.
Proof.
  intros H x Hin. destruct (p x) eqn:E; [|reflexivity].
  assert (Hf : In x (filter p l)) by (apply filter_In; split; assumption). rewrite H in Hf. destruct Hf.
Qed.

Lemma residue_empty_all : forall t, alias_residue t = [] -> forall r, In r t -> pr_escapes r = [].
Proof.
  intros t H r Hin. pose proof (filter_nil_all _ _ H r Hin) as Hp. unfold put_ok in Hp.
  destruct (pr_escapes r); [reflexivity | discriminate Hp].
Qed.

Lemma residue_empty_no_alias : forall t, alias_residue t = [] -> forall fn, kind_of t fn <> KAlias.
Proof.
  intros t H fn. unfold kind_of.
  destruct (existsb returns_pooled (rows_of t fn)) eqn:E.
  - exfalso. apply existsb_exists in E. destruct E as [r [Hin Hr]].
    unfold rows_of in Hin. apply filter_In in Hin. destruct Hin as [Hin _].
    pose proof (residue_empty_all t H r Hin) as He.
    unfold returns_pooled in Hr. rewrite He in Hr. discriminate.
  - destruct (rows_of t fn); discriminate.
Qed.

Lemma writes_guarded_all : forall w, In w PkgVars.pkg_var_writes ->
  wr_guard w <> "" /\ exists ty, In (wr_var w, ty) PkgVars.pkg_vars.
Proof.
  intros w Hin. pose proof (filter_nil_all _ _ pkg_var_writes_residue_empty w Hin) as E.
  apply negb_false_iff, andb_true_iff in E as [Hg Hd]. split.
  - unfold write_guarded in Hg. intro Hq. rewrite Hq in Hg. discriminate.
  - unfold declared in Hd. apply existsb_exists in Hd. destruct Hd as [[n ty] [Hv He]].
    cbn [fst] in He. apply String.eqb_eq in He. subst n. exists ty. exact Hv.
Qed.

Lemma upd_same : forall A (f : nat -> A) k v, upd f k v k = v.
Proof. intros. unfold upd. rewrite Nat.eqb_refl. reflexivity. Qed.

Lemma upd_other : forall A (f : nat -> A) k v x, x <> k -> upd f k v x = f x.
Proof. intros. unfold upd. destruct (Nat.eqb x k) eqn:E; [apply Nat.eqb_eq in E; contradiction | reflexivity]. Qed.

(* every pending reply is, or refers to a live buffer outside the pool that holds, the page of the
   client's request; pooled buffers exist; everything sent so far was the client's own page *)
Definition inv (s : st) : Prop :=
  (forall c, match rep s c with
             | Some (Ref id) => heap s id = want s c /\ id < next s /\ ~ In id (pool s)
             | Some (Val v) => v = want s c
             | None => True
             end) /\
  (forall id, In id (pool s) -> id < next s) /\
  Forall own_page (sent s).

Lemma inv_init : inv init.
Proof. unfold inv, init; cbn. repeat split; auto. intros id []. Qed.

Lemma take_spec s id rest n : (forall i, In i (pool s) -> i < next s) -> take s = (id, (rest, n)) ->
  (In id (pool s) \/ next s <= id) /\ next s <= n /\
  forall i, In i (id :: rest) -> i < n /\ (i = id \/ In i (pool s)).
Proof.
  unfold take. destruct (pool s) as [|a p]; intros Hp [= <- <- <-].
  - split; [right; apply Nat.le_refl|]. split; [apply Nat.le_succ_diag_r|].
    intros i [<-|[]]. split; [apply Nat.lt_succ_diag_r | left; reflexivity].
  - split; [left; left; reflexivity|]. split; [apply Nat.le_refl|].
    intros i Hi. split; [exact (Hp i Hi) | destruct Hi as [<-|Hi]; [left; reflexivity | right; right; exact Hi]].
Qed.

(* a handler computes page p in buffer id, which no pending reply refers to: it lies in the pool or does not
   exist yet. Client c is left with a copy of p, or with a reference to id if id stays out of the pool *)
Lemma inv_write s c p id pl n r :
  inv s -> In id (pool s) \/ next s <= id -> next s <= n ->
  (forall i, In i pl -> i < n /\ (i = id \/ In i (pool s))) ->
  match r with Ref i => i = id /\ id < n /\ ~ In id pl | Val v => v = p end ->
  inv (mkSt (upd (heap s) id p) pl n (upd (rep s) c (Some r)) (upd (want s) c p) (sent s)).
Proof.
  intros [Hrep [Hpool Hsent]] Hid Hn Hpl Hr. unfold inv; cbn [heap pool next rep want sent].
  split; [|split; [intros i Hi; exact (proj1 (Hpl i Hi)) | exact Hsent]].
  intro c'. destruct (Nat.eq_dec c' c) as [->|Hne].
  - rewrite !upd_same. destruct r as [i|v]; [|exact Hr].
    destruct Hr as [-> Hr]. rewrite upd_same. split; [reflexivity | exact Hr].
  - rewrite (upd_other _ (rep s)), (upd_other _ (want s)) by exact Hne.
    specialize (Hrep c'). destruct (rep s c') as [[id'|v]|]; [|exact Hrep | exact I].
    destruct Hrep as [Hh [Hlt Hnp]].
    assert (Hne' : id' <> id)
      by (intros ->; destruct Hid as [Hin|Hge]; [exact (Hnp Hin) | exact (Nat.lt_irrefl _ (Nat.lt_le_trans _ _ _ Hlt Hge))]).
    rewrite upd_other by exact Hne'. split; [exact Hh|]. split; [exact (Nat.lt_le_trans _ _ _ Hlt Hn)|].
    intros Hin. destruct (Hpl _ Hin) as [_ [E|Hp]]; [exact (Hne' E) | exact (Hnp Hp)].
Qed.

Lemma inv_step : forall kd s e, (forall fn, kd fn <> KAlias) -> inv s -> inv (step kd s e).
Proof.
  intros kd s e Hk Hs. pose proof Hs as [Hrep [Hpool Hsent]]. destruct e as [c fn p | c]; cbn [step].
  - destruct (kd fn) eqn:Ek; [| |exfalso; exact (Hk fn Ek)].
    + (* KFresh: a new buffer, and the reply refers to it *)
      apply inv_write; [exact Hs | right; apply Nat.le_refl | apply Nat.le_succ_diag_r | |].
      * intros i Hi. split; [apply Nat.lt_lt_succ_r, Hpool, Hi | right; exact Hi].
      * split; [reflexivity|]. split; [apply Nat.lt_succ_diag_r | intros Hin; exact (Nat.lt_irrefl _ (Hpool _ Hin))].
    + (* KCopy: a buffer out of the pool or a new one; the reply is copied out of it and it goes (back) into the pool *)
      destruct (take s) as [id [rest n]] eqn:Et.
      destruct (take_spec s id rest n Hpool Et) as [Hid [Hn Hpl]].
      apply inv_write; [exact Hs | exact Hid | exact Hn | exact Hpl | apply upd_same].
  - (* Ser *)
    destruct (rep s c) as [r|] eqn:Er; [|unfold inv; auto].
    unfold inv; cbn. repeat split.
    + intro c'. unfold upd. destruct (Nat.eqb c' c); [exact I | apply Hrep].
    + exact Hpool.
    + constructor; [|exact Hsent]. unfold own_page; cbn.
      specialize (Hrep c). rewrite Er in Hrep. destruct r as [id|v]; [destruct Hrep as [Hh _]; exact Hh | exact Hrep].
Qed.

(* no function of the table returns something that references pooled memory => whatever the
   interleaving of handlers and serialisations, every client is sent the page its own request computed *)
Lemma own_pages : forall t, alias_residue t = [] -> forall evs, Forall own_page (sent (run (kind_of t) evs)).
Proof.
  intros t Ht evs. unfold run.
  apply (fold_left_inv (step (kind_of t)) inv evs); [|exact inv_init].
  intros s e _. apply inv_step, residue_empty_no_alias, Ht.
Qed.

(* the converse: a handler whose row says "return" (the reply refers to a buffer that has gone back to
   the pool by the time it is serialised) — two clients, A's handler, B's handler, then A's reply is
   serialised: A is sent B's page *)
Definition alias_table : list put_row := [("Server.cmdScan", (("scanBufPool", "deferred"), (false, ["return"])))].

Lemma alias_refuted :
  exists t evs, alias_residue t <> [] /\
    sent (run (kind_of t) evs) = [(0, ([2%N; 2%N], [1%N]))] /\ ~ Forall own_page (sent (run (kind_of t) evs)).
Proof.
  exists alias_table, [Run 0 "Server.cmdScan" [1%N]; Run 1 "Server.cmdScan" [2%N; 2%N]; Ser 0].
  split; [vm_compute; discriminate|].
  split; [vm_compute; reflexivity|].
  intro H. vm_compute in H. inversion H as [|x l Hx Hl]. unfold own_page in Hx. cbn in Hx. discriminate.
Qed.
