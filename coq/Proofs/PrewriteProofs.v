(* C08 — proofs about Model/Prewrite.v.
   Main result: for the statement order v_fixed (flag cleared inside the locked region, pre-write
   also on the goingLive branch) every acknowledged command is in the file, in every state
   reachable by any schedule over any number of connections and flushers.
   The invariant is per thread (tinv); inv_upd is the one preservation lemma, each kind of step an instance.
   Every other statement order the source check recognises loses an acknowledged command: Props/C08.v
   gives a schedule for each (refuted_by). *)
From Coq Require Import List NArith Bool Arith Lia.
From T38 Require Import Base.ListFacts Model.Prewrite.
Import ListNotations.

(* pcs at which the thread holds Server.mu *)
Definition holds (p : pc) : bool :=
  match p with L2 | L3 | L4 | P3 | P4 | P4U | F2 | F3 => true | _ => false end.
(* pcs between the flush and the unlock of the pre-write *)
Definition flushed_pc (p : pc) : bool :=
  match p with P4 | P4U => true | _ => false end.
(* pcs from which the connection proceeds to the socket write without looking at the buffer again *)
Definition ready (p : pc) : bool :=
  match p with P4 | P4U | P5 | P6 => true | _ => false end.
(* the holder has set the flag and has not released the lock yet *)
Definition flagged (p : pc) : bool :=
  match p with L3 | L4 => true | _ => false end.

Lemma flagged_holds p : flagged p = true -> holds p = true.
Proof. destruct p; auto. Qed.

Lemma flushed_holds p : flushed_pc p = true -> holds p = true.
Proof. destruct p; auto. Qed.

(* what thread t relies on: the last clause lets a logged, unacknowledged command sit in the buffer only
   while t has not passed the pre-write *)
Definition tinv (st : state) (t : tid) (th : thread) : Prop :=
  (lock st = Some t <-> holds (t_pc th) = true) /\
  (flagged (t_pc th) = true -> dirty st = true) /\
  (flushed_pc (t_pc th) = true -> buf st = []) /\
  (forall c, In c (t_pend th) -> In c (file st) \/ ready (t_pc th) = false /\ In c (buf st)).

Record Inv (st : state) : Prop := mkInv {
  inv_thread : forall t, tinv st t (threads st t);
  (* buf <> [] -> dirty = true, at EVERY reachable state, also while the lock is held: writeAOF sets
     the flag before it appends (L2 before L3) and the pre-write clears it after the flush (P3 before P4)
     inside one critical section *)
  inv_dirty : dirty st = false -> buf st = [];
  inv_acked : forall c, In c (acked st) -> In c (file st)
}.

Lemma upd_same : forall f t x, upd f t x t = x.
Proof. intros. unfold upd. now rewrite Nat.eqb_refl. Qed.

Lemma upd_other : forall f t x i, i <> t -> upd f t x i = f i.
Proof. intros f t x i Hne. unfold upd. destruct (Nat.eqb_spec i t); congruence. Qed.

(* Thread t replaces its record by th' and the shared fields by lk' d' b' f' a'.  Flag, buffer and file are
   written only under the lock (raising the flag is harmless), and a thread without the lock is neither
   `flagged` nor `flushed_pc`: for the threads that do not move it is enough that commands only move forward. *)
Lemma inv_upd st t th' lk' d' b' f' a' :
  let th := threads st t in
  Inv st ->
  lk' = match holds (t_pc th), holds (t_pc th') with
        | true, false => None | false, true => Some t | _, _ => lock st end ->
  (holds (t_pc th) = false -> holds (t_pc th') = true -> lock st = None) ->
  (holds (t_pc th) = true \/ (dirty st = true -> d' = true) /\ b' = buf st /\ f' = file st) ->
  (forall c, In c (file st) -> In c f') ->
  (forall c, In c (buf st) -> In c f' \/ In c b') ->
  (d' = false -> b' = []) ->
  (forall c, In c a' -> In c f') ->
  (flagged (t_pc th') = true -> d' = true) ->
  (flushed_pc (t_pc th') = true -> b' = []) ->
  (forall c, In c (t_pend th') -> In c f' \/ ready (t_pc th') = false /\ In c b') ->
  Inv (mkState (upd (threads st) t th') lk' d' b' f' a').
Proof.
  intros th [HT HD HA] -> Hacq Hsh Hf Hb Hd' Ha' Hfg Hfl Hp.
  constructor; cbn [threads lock dirty buf file acked]; [|assumption..].
  intros t0. destruct (HT t) as (Lt & _). fold th in Lt.
  destruct (Nat.eq_dec t0 t) as [->|Ne]; [rewrite upd_same | rewrite upd_other by assumption].
  - split; [|auto]. cbn [lock].
    destruct (holds (t_pc th)), (holds (t_pc th')); try exact Lt; split; congruence.
  - destruct (HT t0) as (L0 & G0 & F0 & P0).
    assert (Hl : holds (t_pc th) = true -> holds (t_pc (threads st t0)) = false).
    { intros E. apply Lt in E. destruct (holds (t_pc (threads st t0))); [|reflexivity].
      destruct L0 as [_ L0]. specialize (L0 eq_refl). congruence. }
    unfold tinv; cbn [lock dirty buf file]. split; [|split; [|split]].
    + rewrite <- L0. destruct (holds (t_pc th)) eqn:E, (holds (t_pc th')) eqn:E'; try reflexivity.
      * destruct Lt as [_ Lt]. rewrite (Lt eq_refl). split; congruence.
      * rewrite (Hacq eq_refl eq_refl). split; congruence.
    + intros H. destruct Hsh as [Hh|(Hx & _)]; [|auto].
      apply flagged_holds in H. rewrite (Hl Hh) in H. discriminate.
    + intros H. destruct Hsh as [Hh|(_ & -> & _)]; [|auto].
      apply flushed_holds in H. rewrite (Hl Hh) in H. discriminate.
    + intros c Hc. destruct (P0 c Hc) as [H|[R H]]; [auto|].
      destruct (Hb c H); auto.
Qed.

(* only pc, lock and flag change.  The flag is cleared only between a flush and the unlock; a thread becomes
   ready with the flag down (so nothing is buffered) or stays ready *)
Lemma move_inv st t p p' lk' d' :
  Inv st -> t_pc (threads st t) = p ->
  lk' = match holds p, holds p' with true, false => None | false, true => Some t | _, _ => lock st end ->
  (holds p = false -> holds p' = true -> lock st = None) ->
  (d' = false -> dirty st = false \/ flushed_pc p = true) ->
  (flagged p' = true -> d' = true \/ flagged p = true /\ d' = dirty st) ->
  (flushed_pc p' = true -> flushed_pc p = true) ->
  (ready p' = true -> ready p = true \/ dirty st = false) ->
  Inv (mkState (upd (threads st) t (set_pc (threads st t) p')) lk' d' (buf st) (file st) (acked st)).
Proof.
  intros H E -> Hacq Hd Hfg Hfl Hr.
  destruct (inv_thread _ H t) as (_ & G & F & P). rewrite E in *.
  apply inv_upd; cbn [set_pc t_pc t_pend]; rewrite ?E; auto using inv_acked.
  - destruct d'; [auto|]. destruct (Hd eq_refl) as [->|]; auto using flushed_holds.
  - intros D. destruct (Hd D); auto using inv_dirty.
  - intros Hp. destruct (Hfg Hp) as [|[? ->]]; auto.
  - intros c Hc. destruct (P c Hc) as [|[R Hb]]; [auto|].
    destruct (ready p') eqn:R'; [|auto]. left.
    destruct (Hr eq_refl) as [Hx|Hx]; [congruence|]. rewrite (inv_dirty _ H Hx) in Hb. destruct Hb.
Qed.

(* P3, F2 *)
Lemma flush_inv st t p' :
  Inv st -> holds (t_pc (threads st t)) = true -> holds p' = true -> flagged p' = false ->
  Inv (mkState (upd (threads st) t (set_pc (threads st t) p')) (lock st) (dirty st) [] (file st ++ buf st) (acked st)).
Proof.
  intros H Eh Eh' Ef. destruct (inv_thread _ H t) as (_ & _ & _ & P).
  apply inv_upd; cbn [set_pc t_pc t_pend]; rewrite ?Eh, ?Eh', ?Ef; auto using in_or_app, inv_acked; try discriminate.
  intros c Hc. left. apply in_or_app. destruct (P c Hc) as [|[_ ?]]; auto.
Qed.

(* L3; the flag is up since L2 *)
Lemma append_inv st t c cur' :
  Inv st -> t_pc (threads st t) = L3 ->
  let th := threads st t in
  Inv (mkState (upd (threads st) t (mkThread L4 cur' (t_detach th) (t_script th) (t_rest th) (t_pend th ++ [c])))
               (lock st) (dirty st) (buf st ++ [c]) (file st) (acked st)).
Proof.
  intros H E. cbv zeta. destruct (inv_thread _ H t) as (_ & G & _ & P). rewrite E in *.
  assert (D : dirty st = true) by auto.
  apply inv_upd; cbn [t_pc t_pend]; rewrite ?E; auto using in_or_app, inv_acked; try discriminate.
  - congruence.
  - intros x Hx. apply in_app_or in Hx as [Hx|Hx]; [destruct (P x Hx) as [|[_ ?]]|]; auto 6 using in_or_app.
Qed.

(* P6: the thread is ready, so everything it has pending is in the file *)
Lemma ack_inv st t th' :
  Inv st -> t_pc (threads st t) = P6 -> holds (t_pc th') = false -> t_pend th' = [] ->
  Inv (mkState (upd (threads st) t th') (lock st) (dirty st) (buf st) (file st) (acked st ++ t_pend (threads st t))).
Proof.
  intros H E Eh Ep. destruct (inv_thread _ H t) as (_ & _ & _ & P). rewrite E in *.
  apply inv_upd; rewrite ?E, ?Eh, ?Ep; auto using inv_dirty; try discriminate.
  - intros c Hc. apply in_app_or in Hc as [Hc|Hc]; [apply (inv_acked _ H), Hc|].
    destruct (P c Hc) as [|[? _]]; [assumption | discriminate].
  - intros Hf. apply flagged_holds in Hf. congruence.
  - intros Hf. apply flushed_holds in Hf. congruence.
  - intros c [].
Qed.

(* with the pre-write on the goingLive branch every batch ends at P1 *)
Lemma enter_fixed cur d : enter v_fixed cur d = match cur with [] => P1 | _ :: _ => CMD end.
Proof. destruct cur, d; reflexivity. Qed.

Lemma next_batch_fixed d r :
  holds (t_pc (next_batch v_fixed d r)) = false /\ t_pend (next_batch v_fixed d r) = [].
Proof.
  unfold next_batch. destruct d; [auto|]. destruct r as [|b r]; [auto|].
  cbn [t_pc t_pend]. rewrite enter_fixed. destruct (b_cmds b); auto.
Qed.

Lemma init_inv progs : Inv (init v_fixed progs).
Proof.
  assert (Hpc : forall i, holds (t_pc (threads (init v_fixed progs) i)) = false /\
                          t_pend (threads (init v_fixed progs) i) = []).
  { intros i. cbn [init threads]. destruct (nth_error progs i) as [[bs|]|]; [apply next_batch_fixed | auto..]. }
  constructor; cbn [lock dirty buf file acked init]; [|auto|intros c []].
  intros t. destruct (Hpc t) as [Eh Ep]. unfold tinv. rewrite Ep. cbn [lock init].
  split; [rewrite Eh; split; discriminate|].
  split; [intros Hf; apply flagged_holds in Hf; congruence|].
  split; [intros Hf; apply flushed_holds in Hf; congruence|]. intros c [].
Qed.

(* E : t_pc (threads st t) = <constructor>: the side conditions of move_inv then mention two concrete pcs,
   `lock st` and `dirty st`, and are decided by computation *)
Ltac by_move E := eapply move_inv; [eassumption | exact E | cbn; auto; try discriminate ..].

Theorem step_inv : forall st t, Inv st -> Inv (step v_fixed st t).
Proof.
  intros st t H. unfold step.
  destruct (t_pc (threads st t)) eqn:E;
    cbn [v_fixed v_store_locked v_detach_prewrite v_flusher_swap v_flag_in_writeaof v_detach_store_locked
         v_flusher_store negb andb orb].
  (* CMD L2 L3 L4, P1 P2 P3 P4 P4U P5 P6, DONE, F1 FL F2 F3 *)
  - destruct (lock st) eqn:EL; [exact H|]. by_move E.
  - by_move E.
  - destruct (t_cur (threads st t)); [by_move E | apply append_inv; assumption].
  - rewrite enter_fixed. destruct (t_cur (threads st t)); by_move E.
  - destruct (dirty st) eqn:D; by_move E.
  - destruct (lock st) eqn:EL; [exact H|]. by_move E.
  - apply flush_inv; rewrite ?E; auto.
  - by_move E.
  - by_move E.
  - by_move E.
  - destruct (next_batch_fixed (t_detach (threads st t)) (t_rest (threads st t))).
    apply ack_inv; assumption.
  - exact H.
  - destruct (lock st) eqn:EL; [exact H|]. by_move E.
  - destruct (lock st) eqn:EL; [exact H|]. by_move E.
  - apply flush_inv; rewrite ?E; auto.
  - by_move E.
Qed.

Lemma run_from_ind v (P : state -> Prop) :
  (forall st t, P st -> P (step v st t)) -> forall sched st, P st -> P (run_from v st sched).
Proof.
  intros Hstep sched. apply fold_left_inv. intros st t _. apply Hstep.
Qed.

Lemma run_from_app : forall v a b st, run_from v st (a ++ b) = run_from v (run_from v st a) b.
Proof. intros. unfold run_from. apply fold_left_app. Qed.

Theorem reachable_inv : forall progs sched, Inv (run_sched v_fixed progs sched).
Proof. intros. unfold run_sched. apply run_from_ind; [exact step_inv | apply init_inv]. Qed.

(* C08, for every number of connections / flushers, every program, every schedule; hence for every
   prefix of the schedule (run_sched of a prefix is a reachable state, and a crash may
   happen after any step). *)
Theorem acked_flushed : forall progs sched c,
  In c (acked (run_sched v_fixed progs sched)) -> In c (file (run_sched v_fixed progs sched)).
Proof. intros progs sched c. apply inv_acked. apply reachable_inv. Qed.

(* the file only grows: what was acknowledged at a crash instant stays in the file *)
Lemma step_file_mono : forall v st t c, In c (file st) -> In c (file (step v st t)).
Proof.
  intros v st t c Hc. unfold step.
  (* whatever the step branches on, the new file is the old one or the old one with the buffer appended *)
  destruct (t_pc (threads st t));
    repeat match goal with |- context [match ?x with _ => _ end] => destruct x end;
    cbn [file]; auto using in_or_app.
Qed.

Theorem lock_exclusive : forall progs sched t1 t2,
  let st := run_sched v_fixed progs sched in
  holds (t_pc (threads st t1)) = true -> holds (t_pc (threads st t2)) = true -> t1 = t2.
Proof.
  intros progs sched t1 t2 st H1 H2.
  pose proof (fun t => proj2 (proj1 (inv_thread _ (reachable_inv progs sched) t))) as HL.
  apply HL in H1, H2. congruence.
Qed.

Lemma mem_in : forall c l, mem c l = true <-> In c l.
Proof. exact (existsb_eqb_In N.eqb N.eqb_eq). Qed.

Definition loses_ack (v : variant) : Prop :=
  exists progs sched c, In c (acked (run_sched v progs sched)) /\ ~ In c (file (run_sched v progs sched)).

Lemma refuted_by v progs sched c :
  mem c (acked (run_sched v progs sched)) = true -> mem c (file (run_sched v progs sched)) = false -> loses_ack v.
Proof.
  intros Ha Hf. exists progs, sched, c. rewrite <- !mem_in. split; [exact Ha | congruence].
Qed.

(* v_pinned lacks both repairs; the first witness fails on it as well *)
Theorem pinned_refuted :
  exists progs sched c,
    In c (acked (run_sched v_pinned progs sched)) /\ ~ In c (file (run_sched v_pinned progs sched)).
Proof. apply (refuted_by _ f13_progs f13_sched 2%N); vm_compute; reflexivity. Qed.

