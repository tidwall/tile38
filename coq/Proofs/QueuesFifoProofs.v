(* C10 (b) pub/sub and (c) live fences — proofs about Model/Queues.v. *)
From Coq Require Import List NArith ZArith Bool Arith Lia.
From T38 Require Import Model.Queues.
Import ListNotations.

Section Pubsub.
Variable pm : chan -> chan -> bool.   (* match.Match(channel, pattern): opaque *)

Definition subs_of (t : target) (l : list (chan * target)) : list chan :=
  map fst (filter (fun ct => Nat.eqb (snd ct) t) l).

Definition subs (s : ps) (t : target) : tsubs := mkTsubs (subs_of t (ps_exact s)) (subs_of t (ps_pat s)).

Lemma subs_of_cons : forall t c0 t0 l,
  subs_of t ((c0, t0) :: l) = if Nat.eqb t0 t then c0 :: subs_of t l else subs_of t l.
Proof. intros. unfold subs_of. cbn [filter snd]. destruct (Nat.eqb t0 t); reflexivity. Qed.

Lemma subs_of_app : forall t a b, subs_of t (a ++ b) = subs_of t a ++ subs_of t b.
Proof. intros. unfold subs_of. rewrite filter_app, map_app. reflexivity. Qed.

Lemma existsb_same_sub : forall c t l,
  existsb (same_sub (c, t)) l = existsb (N.eqb c) (subs_of t l).
Proof.
  induction l as [|[c0 t0] l IH]; [reflexivity|].
  rewrite subs_of_cons. cbn [existsb]. unfold same_sub at 1. cbn [fst snd]. rewrite (Nat.eqb_sym t t0), IH.
  destruct (Nat.eqb t0 t); cbn [existsb]; [rewrite andb_true_r | rewrite andb_false_r]; reflexivity.
Qed.

Lemma subs_of_add : forall t c t' l,
  subs_of t (add_sub (c, t') l) = if Nat.eqb t' t then add_c c (subs_of t l) else subs_of t l.
Proof.
  intros t c t' l. unfold add_sub, add_c.
  destruct (Nat.eqb_spec t' t) as [->|Hne].
  - rewrite existsb_same_sub. destruct (existsb (N.eqb c) (subs_of t l)); [reflexivity|].
    rewrite subs_of_app, subs_of_cons, Nat.eqb_refl. reflexivity.
  - destruct (existsb (same_sub (c, t')) l); [reflexivity|].
    rewrite subs_of_app, subs_of_cons, (proj2 (Nat.eqb_neq t' t) Hne). apply app_nil_r.
Qed.

(* an entry of another target is invisible to t whether it is kept or not; an entry (c0, t) is
   dropped iff the pair deleted is (c0, t) *)
Lemma subs_of_del : forall t c t' l,
  subs_of t (del_sub (c, t') l) = if Nat.eqb t' t then del_c c (subs_of t l) else subs_of t l.
Proof.
  intros t c t' l. unfold del_sub, del_c.
  induction l as [|[c0 t0] l IH]; [destruct (Nat.eqb t' t); reflexivity|].
  cbn [filter]. unfold same_sub at 1. cbn [fst snd]. rewrite (subs_of_cons t c0 t0 l).
  destruct (Nat.eqb_spec t0 t) as [->|Hne].
  - destruct (Nat.eqb t' t); [rewrite andb_true_r; cbn [filter]; destruct (N.eqb c c0) | rewrite andb_false_r];
      cbn [negb]; rewrite ?subs_of_cons, ?Nat.eqb_refl, IH; reflexivity.
  - destruct (negb _); rewrite ?subs_of_cons, ?(proj2 (Nat.eqb_neq t0 t) Hne); exact IH.
Qed.

Lemma snap_for : forall t (sel : chan -> bool) (mk : chan -> pmsg) l,
  map snd (filter (fun tm : target * pmsg => Nat.eqb (fst tm) t)
             (map (fun ct : chan * target => (snd ct, mk (fst ct))) (filter (fun ct => sel (fst ct)) l)))
  = map mk (filter sel (subs_of t l)).
Proof.
  intros t sel mk. induction l as [|[c0 t0] l IH]; [reflexivity|].
  rewrite subs_of_cons. cbn [filter fst snd].
  destruct (sel c0) eqn:Es; destruct (Nat.eqb t0 t) eqn:Et; cbn [map filter fst snd];
    rewrite ?Es, ?Et; cbn [map snd]; rewrite ?IH; reflexivity.
Qed.

Lemma snapshot_for : forall s t c m,
  map snd (filter (fun tm => Nat.eqb (fst tm) t) (snapshot pm s c m)) = expect_one pm (subs s t) c m.
Proof.
  intros s t c m. unfold snapshot, expect_one. rewrite filter_app, map_app.
  rewrite (snap_for t (fun x => N.eqb x c) (fun _ => mkPmsg None c m)),
          (snap_for t (fun p => pm p c) (fun p => mkPmsg (Some p) c m)).
  rewrite (filter_ext _ (N.eqb c)) by (intros x; apply N.eqb_sym). reflexivity.
Qed.

Lemma updt_same : forall A (f : target -> A) t x, updt f t x t = x.
Proof. intros. unfold updt. now rewrite Nat.eqb_refl. Qed.

Lemma updt_other : forall A (f : target -> A) t x i, i <> t -> updt f t x i = f i.
Proof. intros A f t x i Hne. unfold updt. destruct (Nat.eqb_spec i t); congruence. Qed.

Theorem pubsub_fifo_gen : forall evs s t,
  serialised pm s evs = true ->
  ps_view (prun pm s evs) t = ps_view s t ++ expected pm t (subs s t) evs.
Proof.
  induction evs as [|ev r IH]; intros s t Hser.
  - cbn. symmetry. apply app_nil_r.
  - cbn [serialised] in Hser. apply andb_true_iff in Hser. destruct Hser as (Hnow & Hser).
    cbn [prun fold_left]. fold (prun pm (pstep pm s ev) r). rewrite (IH _ t Hser).
    destruct ev as [[|] c t'|[|] c t'|c m| |t0]; cbn [expected].
    (* (un)subscriptions: the view is untouched, and the subscriptions of t change as [expected] says *)
    1-4: f_equal; f_equal; unfold subs; cbn [pstep ps_exact ps_pat ts_exact ts_pat];
      rewrite ?subs_of_add, ?subs_of_del; destruct (Nat.eqb t' t); reflexivity.
    + destruct (ps_snap s) as [|x xs] eqn:ES; [|discriminate].
      cbn [pstep]. rewrite ES, app_assoc. f_equal. unfold ps_view. cbn [ps_out ps_inbox ps_snap].
      rewrite ES, snapshot_for. cbn [filter map]. rewrite app_nil_r, <- !app_assoc. reflexivity.
    + cbn [pstep]. destruct (ps_snap s) as [|[t0 m0] xs] eqn:ES; [reflexivity|].
      f_equal. unfold ps_view. cbn [ps_out ps_inbox ps_snap]. rewrite ES. cbn [filter fst].
      destruct (Nat.eqb_spec t0 t) as [->|Hne].
      * rewrite updt_same. cbn [map snd]. rewrite <- !app_assoc. reflexivity.
      * rewrite updt_other by congruence. reflexivity.
    + f_equal. cbn [pstep]. unfold ps_view. cbn [ps_out ps_inbox ps_snap].
      destruct (Nat.eq_dec t t0) as [->|Hne].
      * rewrite !updt_same. cbn [app]. rewrite <- !app_assoc. reflexivity.
      * rewrite !updt_other by exact Hne. reflexivity.
Qed.

Theorem pubsub_fifo : forall evs t,
  serialised pm ps_init evs = true ->
  ps_view (prun pm ps_init evs) t = expected pm t (mkTsubs [] []) evs.
Proof. intros evs t H. apply (pubsub_fifo_gen evs ps_init t H). Qed.

Lemma expected_own : forall evs t su, expected pm t su evs = expected pm t su (own_history t evs).
Proof.
  induction evs as [|ev r IH]; intros t su; [reflexivity|].
  unfold own_history in *. destruct ev as [[|] c t'|[|] c t'|c m| |t0]; cbn [filter concerns expected];
    try (destruct (Nat.eqb t' t) eqn:E; cbn [expected]; rewrite ?E; apply IH);
    try (f_equal; apply IH); apply IH.
Qed.

End Pubsub.

Definition registered (s : lv) (b : lbid) (k : key) : Prop :=
  In (b, k) (lv_lives s) /\ forall k', In (b, k') (lv_lives s) -> k' = k.

Lemma on_key_app : forall k a b, on_key k (a ++ b) = on_key k a ++ on_key k b.
Proof. intros. unfold on_key. rewrite filter_app, map_app. reflexivity. Qed.

Lemma registered_existsb : forall s b k k', registered s b k ->
  existsb (fun bk => Nat.eqb (fst bk) b && N.eqb (snd bk) k') (lv_lives s) = N.eqb k k'.
Proof.
  intros s b k k' (Hin & Hun). apply eq_true_iff_eq. rewrite existsb_exists, N.eqb_eq. split.
  - intros ([b0 k0] & Hi & Hb). cbn [fst snd] in Hb. apply andb_true_iff in Hb as (Hb1 & Hb2).
    apply Nat.eqb_eq in Hb1. apply N.eqb_eq in Hb2. subst. symmetry. apply Hun, Hi.
  - intros <-. exists (b, k). cbn [fst snd]. rewrite Nat.eqb_refl, N.eqb_refl. auto.
Qed.

Lemma lives_step : forall s ev,
  lv_lives (lstep s ev) =
  match ev with
  | LReg b k => lv_lives s ++ [(b, k)]
  | LUnreg b => filter (fun bk => negb (Nat.eqb (fst bk) b)) (lv_lives s)
  | _ => lv_lives s
  end.
Proof.
  intros s [b k|b|k d| |b]; cbn [lstep]; try reflexivity.
  - destruct (lv_lives s) eqn:E; [exact E | reflexivity].
  - destruct (lv_stack s) as [|[? ?] ?]; reflexivity.
  - destruct (lv_details s b); reflexivity.
Qed.

Lemma lives_untouched : forall s ev b k, untouched b [ev] = true ->
  (In (b, k) (lv_lives (lstep s ev)) <-> In (b, k) (lv_lives s)).
Proof.
  intros s ev b k Hun. rewrite lives_step. destruct ev as [b' k'|b'| | |]; cbn [untouched] in Hun; try tauto;
    rewrite andb_true_r in Hun; apply negb_true_iff, Nat.eqb_neq in Hun.
  - rewrite in_app_iff. cbn [In]. split; [intros [H|[H|[]]]; [exact H | congruence] | auto].
  - rewrite filter_In. cbn [fst]. split; [tauto|]. intros H. split; [exact H|].
    apply negb_true_iff, Nat.eqb_neq. congruence.
Qed.

Lemma untouched_cons : forall b ev r, untouched b (ev :: r) = untouched b [ev] && untouched b r.
Proof. intros b [b' k|b'|k d| |b0] r; cbn [untouched]; rewrite ?andb_true_r; reflexivity. Qed.

Lemma writes_on_cons : forall k ev r, writes_on k (ev :: r) = writes_on k [ev] ++ writes_on k r.
Proof. intros k [b' k'|b'|k' d| |b0] r; cbn [writes_on]; rewrite ?app_nil_r; reflexivity. Qed.

Lemma live_step : forall s ev b k, registered s b k ->
  lv_view (lstep s ev) b k = lv_view s b k ++ writes_on k [ev].
Proof.
  intros s ev b k Hreg.
  destruct ev as [b' k'|b'|k' d| |b0]; cbn [lstep writes_on]; rewrite ?app_nil_r; try reflexivity.
  - destruct Hreg as (Hin & _). destruct (lv_lives s) as [|x xs]; [destruct Hin|].
    unfold lv_view. cbn [lv_out lv_details lv_stack]. rewrite on_key_app, <- !app_assoc.
    unfold on_key at 2. cbn [filter fst]. destruct (N.eqb k' k); reflexivity.
  - destruct (lv_stack s) as [|[k' d] xs] eqn:ES; [reflexivity|].
    unfold lv_view. cbn [lv_out lv_details lv_stack]. rewrite ES, (registered_existsb s b k k' Hreg).
    unfold on_key. cbn [filter fst].
    rewrite (N.eqb_sym k' k). destruct (N.eqb k k'); cbn [map snd]; rewrite <- ?app_assoc; reflexivity.
  - destruct (lv_details s b0) as [|d xs] eqn:ED; [reflexivity|].
    unfold lv_view. cbn [lv_out lv_details lv_stack]. destruct (Nat.eq_dec b b0) as [->|Hne].
    + rewrite !updt_same, ED, <- !app_assoc. reflexivity.
    + rewrite !updt_other by exact Hne. reflexivity.
Qed.

Theorem live_fifo_gen : forall evs s b k,
  registered s b k -> untouched b evs = true ->
  lv_view (lrun s evs) b k = lv_view s b k ++ writes_on k evs.
Proof.
  induction evs as [|ev r IH]; intros s b k Hreg Hun.
  - cbn. symmetry. apply app_nil_r.
  - rewrite untouched_cons in Hun. apply andb_true_iff in Hun as (Hev & Hun).
    cbn [lrun fold_left]. fold (lrun (lstep s ev) r).
    rewrite (writes_on_cons k ev r), IH, (live_step s ev b k Hreg), app_assoc; [reflexivity | | exact Hun].
    destruct Hreg as (Hin & Huq). split; [apply lives_untouched; assumption|].
    intros k' H. apply Huq. apply (lives_untouched s ev b k' Hev). exact H.
Qed.

(* a live connection registered (and acknowledged) at some point receives every later write on its
   key, in write order, exactly once, after what was already on its way *)
Theorem live_fifo : forall pre evs b k,
  let s0 := lstep (lrun (mkLV [] [] (fun _ => []) (fun _ => [])) pre) (LReg b k) in
  untouched b pre = true -> untouched b evs = true ->
  lv_view (lrun s0 evs) b k = lv_view s0 b k ++ writes_on k evs.
Proof.
  intros pre evs b k s0 Hpre Hun. apply live_fifo_gen; [|exact Hun].
  (* b is not registered after pre, so (b,k) is its only registration *)
  assert (Hno : forall s, (forall k', ~ In (b, k') (lv_lives s)) -> forall k', ~ In (b, k') (lv_lives (lrun s pre))).
  { induction pre as [|ev r IH]; intros s Hs; [exact Hs|].
    rewrite untouched_cons in Hpre. apply andb_true_iff in Hpre as (Hev & Hpre).
    apply (IH Hpre). intros k' H. apply (lives_untouched s ev b k' Hev) in H. exact (Hs k' H). }
  specialize (Hno (mkLV [] [] (fun _ => []) (fun _ => [])) (fun k' H => H)).
  unfold s0, registered. cbn [lstep lv_lives]. split.
  - apply in_or_app. right. left. reflexivity.
  - intros k' H. apply in_app_or in H. destruct H as [H|[H|[]]]; [exfalso; eapply Hno; eauto | congruence].
Qed.
