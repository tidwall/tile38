(* C10 (a) — proofs about the webhook queue of Model/Queues.v.

   For one hook the queue is three lists: delivered, being sent, queued; their concatenation is the
   hook's [line].  A write appends to the line; a manager step and a restart move entries along it and
   take some out, each for a reason ([lose]): its time is over, or it was being sent when the process
   died.  [qstep_line] says this for one event, [qrun_line] for a run; order, exactly-once, TTL-only
   loss and retention per message are read off them. *)
From Coq Require Import List NArith ZArith Bool Arith Lia Sorted.
From Coq Require Import ZifyN ZifyNat ZifyBool.
From T38 Require Import Base.ListFacts Model.Queues.
Import ListNotations.
Local Open Scope N_scope.

Definition idxs (l : list entry) : list N := map e_idx l.

Fixpoint incr (l : list N) : Prop :=
  match l with
  | [] => True
  | x :: r => Forall (N.lt x) r /\ incr r
  end.

Lemma incr_SS : forall l, incr l <-> StronglySorted N.lt l.
Proof.
  induction l as [|x r IH]; cbn [incr]; [split; constructor|]. rewrite IH. split.
  - intros (F & S). constructor; assumption.
  - intros S. apply StronglySorted_inv in S. tauto.
Qed.

Lemma incr_app : forall a b,
  incr (a ++ b) <-> incr a /\ incr b /\ (forall x y, In x a -> In y b -> x < y).
Proof.
  intros a b. rewrite !incr_SS. split; [apply SS_app_inv | intros (Ha & Hb & C); apply SS_app; assumption].
Qed.

Lemma idxs_app : forall a b, idxs (a ++ b) = idxs a ++ idxs b.
Proof. intros. unfold idxs. apply map_app. Qed.

(* [lose P l l']: l' is l without some of its entries, each of which satisfies P *)
Inductive lose (P : entry -> Prop) : list entry -> list entry -> Prop :=
| lose_nil : lose P [] []
| lose_keep : forall e l l', lose P l l' -> lose P (e :: l) (e :: l')
| lose_drop : forall e l l', P e -> lose P l l' -> lose P (e :: l) l'.

Lemma lose_refl : forall P l, lose P l l.
Proof. induction l; constructor; assumption. Qed.

Lemma lose_app : forall P a a' b b', lose P a a' -> lose P b b' -> lose P (a ++ b) (a' ++ b').
Proof. induction 1; intros Hb; cbn [app]; [exact Hb | |]; constructor; auto. Qed.

Lemma lose_filter : forall (P : entry -> Prop) f l, (forall e, f e = false -> P e) -> lose P l (filter f l).
Proof. intros P f l H. induction l as [|e l IH]; cbn [filter]; [constructor|]. destruct (f e) eqn:E; constructor; auto. Qed.

Lemma lose_all : forall (P : entry -> Prop) l, (forall e, In e l -> P e) -> lose P l [].
Proof. induction l as [|e l IH]; intros H; constructor; [|apply IH; intros]; apply H; cbn; auto. Qed.

Lemma lose_In : forall P l l' e, lose P l l' -> In e l -> In e l' \/ P e.
Proof.
  induction 1 as [|x l l' _ IH|x l l' Hx _ IH]; intros Hin; [destruct Hin| |];
    destruct Hin as [<-|Hin]; cbn [In]; auto; destruct (IH Hin); auto.
Qed.

Lemma lose_weaken : forall (P Q : entry -> Prop) l l', (forall e, P e -> Q e) -> lose P l l' -> lose Q l l'.
Proof. induction 2; constructor; auto. Qed.

Lemma lose_trans : forall P l1 l2 l3, lose P l1 l2 -> lose P l2 l3 -> lose P l1 l3.
Proof.
  intros P l1 l2 l3 H. revert l3. induction H; intros l3 H3; [exact H3 | | constructor; auto].
  inversion H3; subst; constructor; auto.
Qed.

Lemma lose_none : forall (P : entry -> Prop) l l', lose P l l' -> (forall e, In e l -> ~ P e) -> l' = l.
Proof.
  induction 1 as [|x l l' _ IH|x l l' Hx _ _]; intros Hn; [reflexivity | f_equal; apply IH; intros; apply Hn; cbn; auto|].
  destruct (Hn x (or_introl eq_refl) Hx).
Qed.

Lemma lose_Forall : forall P (Q : entry -> Prop) l l', lose P l l' -> Forall Q l -> Forall Q l'.
Proof. induction 1; intros F; inversion F; subst; auto. Qed.

Lemma lose_incr : forall P l l', lose P l l' -> incr (idxs l) -> incr (idxs l').
Proof.
  induction 1 as [|x l l' Hl IH|x l l' _ _ IH]; cbn [idxs map incr]; [auto | |tauto].
  intros [F Hi]. split; [|auto]. rewrite Forall_map in *. exact (lose_Forall P _ l l' Hl F).
Qed.

Lemma incr_cut : forall a u b, incr (idxs (a ++ u ++ b)) -> incr (idxs (a ++ b)).
Proof.
  intros a u b. apply (lose_incr (fun _ => True)).
  apply lose_app; [apply lose_refl|]. apply (lose_app _ u [] b b); [apply lose_all; auto | apply lose_refl].
Qed.

Lemma db_set_mid : forall e pre l,
  incr (idxs (pre ++ e :: l)) -> db_set e (pre ++ l) = pre ++ e :: l.
Proof.
  induction pre as [|p pre IH]; intros l H.
  - cbn [app] in *. destruct l as [|x r]; [reflexivity|].
    cbn [idxs map incr] in H. destruct H as (F & _). inversion F as [|? ? Hlt _]; subst.
    cbn [db_set]. apply N.ltb_lt in Hlt. rewrite Hlt. reflexivity.
  - cbn [app idxs map incr] in H. destruct H as (F & Hi).
    assert (Hlt : e_idx p < e_idx e).
    { rewrite Forall_forall in F. apply F. fold (idxs (pre ++ e :: l)). rewrite idxs_app.
      apply in_or_app. right. left. reflexivity. }
    cbn [app db_set].
    destruct (N.ltb_spec (e_idx e) (e_idx p)); [lia|].
    destruct (N.eqb_spec (e_idx e) (e_idx p)); [lia|].
    f_equal. apply IH. exact Hi.
Qed.

Lemma fold_set_sorted : forall us l,
  incr (idxs (us ++ l)) -> fold_left (fun d e => db_set e d) us l = us ++ l.
Proof.
  induction us as [|u us IH] using rev_ind; intros l H; [reflexivity|].
  rewrite <- app_assoc in *. rewrite fold_left_app, IH by exact (incr_cut us [u] l H). apply db_set_mid, H.
Qed.

(* the second transaction of proc puts back, where they were, the unsent entries that have time left *)
Lemma reinsert_sorted : forall now unsent db,
  incr (idxs (unsent ++ db)) ->
  reinsert now unsent db = filter (fun e => Z.ltb now (e_exat e)) unsent ++ db.
Proof.
  intros now unsent db H. apply fold_set_sorted. apply (lose_incr (fun _ => True) (unsent ++ db)); [|exact H].
  apply lose_app; [apply lose_filter; auto | apply lose_refl].
Qed.

Lemma send_all_split : forall l outs s u, send_all outs l = (s, u) -> l = s ++ u.
Proof.
  induction l as [|e r IH]; intros outs s u H; cbn [send_all] in H.
  - injection H as <- <-. reflexivity.
  - destruct outs as [|[|] o].
    + destruct (send_all [] r) as [s' u'] eqn:E. injection H as <- <-.
      cbn [app]. f_equal. eapply IH. exact E.
    + destruct (send_all o r) as [s' u'] eqn:E. injection H as <- <-.
      cbn [app]. f_equal. eapply IH. exact E.
    + injection H as <- <-. reflexivity.
Qed.

Lemma send_all_healthy : forall l, send_all [] l = (l, []).
Proof. induction l as [|e r IH]; [reflexivity|]. cbn [send_all]. rewrite IH. reflexivity. Qed.

Lemma updf_same : forall A (f : hookid -> A) h x, updf f h x h = x.
Proof. intros. unfold updf. now rewrite N.eqb_refl. Qed.

Lemma updf_other : forall A (f : hookid -> A) h x i, i <> h -> updf f h x i = f i.
Proof. intros A f h x i Hne. unfold updf. destruct (N.eqb_spec i h); congruence. Qed.

Definition line (q : hq) (h : hookid) : list entry := q_delivered q h ++ taken_list q h ++ q_db q h.

Record HInv (q : hq) : Prop := mkHInv {
  hi_incr : forall h, incr (idxs (line q h));
  hi_bound : forall h, Forall (fun e => e_idx e <= q_idx q) (line q h);
  hi_hook : forall h, Forall (fun e => e_hook e = h) (line q h)
}.

Lemma hinv_init : HInv hq_init.
Proof. constructor; intros h; cbn; auto. Qed.

Definition PInv (q : hq) : Prop := q_pidx q = q_idx q.

Lemma hinv_lose : forall (P : hookid -> entry -> Prop) q q', HInv q -> q_idx q' = q_idx q ->
  (forall h, lose (P h) (line q h) (line q' h)) -> HInv q'.
Proof.
  intros P q q' [A B C] Ei Hl. constructor; intros h; rewrite ?Ei.
  - apply (lose_incr _ _ _ (Hl h)), A.
  - apply (lose_Forall _ _ _ _ (Hl h)), B.
  - apply (lose_Forall _ _ _ _ (Hl h)), C.
Qed.

(* one iteration of queueHooks' loop *)
Definition enq1 (now : Z) (h : hookid) (m : msgid) (q : hq) : hq :=
  let i := N.succ (q_idx q) in
  mkHQ (updf (q_db q) h (db_set (mkEntry i h m (now + hook_ttl)) (q_db q h))) i (q_taken q) (q_delivered q) i.

Lemma enq1_incr : forall now h m q, HInv q ->
  incr (idxs (line q h ++ [mkEntry (N.succ (q_idx q)) h m (now + hook_ttl)])).
Proof.
  intros now h m q H. rewrite idxs_app. apply incr_app. split; [apply (hi_incr _ H)|]. split; [cbn; auto|].
  intros x y Hx [<-|[]]. apply in_map_iff in Hx as (z & <- & Hz).
  pose proof (proj1 (Forall_forall _ _) (hi_bound _ H h) z Hz) as Hb. cbn in *. lia.
Qed.

(* the new key is beyond every key of the hook, so tx.Set puts the entry at the end of its db, i.e. of its line *)
Lemma enq1_line : forall now h m q h', HInv q ->
  line (enq1 now h m q) h' =
    line q h' ++ (if N.eqb h' h then [mkEntry (N.succ (q_idx q)) h m (now + hook_ttl)] else []).
Proof.
  intros now h m q h' H. unfold line, taken_list. cbn [enq1 q_db q_taken q_delivered]. destruct (N.eqb_spec h' h) as [->|Hne].
  - rewrite updf_same, <- !app_assoc. do 2 f_equal. rewrite <- (app_nil_r (q_db q h)) at 1. apply db_set_mid.
    pose proof (enq1_incr now h m q H) as Hi. unfold line in Hi. rewrite !app_assoc, <- (app_assoc _ _ [_]) in Hi.
    exact (incr_cut [] _ _ Hi).
  - rewrite updf_other, !app_nil_r by exact Hne. reflexivity.
Qed.

Lemma enq1_hinv : forall now h m q, HInv q -> HInv (enq1 now h m q).
Proof.
  intros now h m q H.
  assert (Hb : forall h', Forall (fun e => e_idx e <= N.succ (q_idx q)) (line q h')).
  { intros h'. eapply Forall_impl; [|apply (hi_bound _ H h')]. cbn. intros; lia. }
  constructor; intros h'; rewrite (enq1_line now h m q h' H); cbn [enq1 q_idx]; destruct (N.eqb_spec h' h) as [->|Hne];
    rewrite ?app_nil_r; try apply H; try apply Hb.
  - apply (enq1_incr now h m q H).
  - apply Forall_app. split; [apply Hb | repeat constructor; cbn; lia].
  - apply Forall_app. split; [apply H | repeat constructor].
Qed.

(* a write appends to the line of h the entries of its messages for h, each with 30 s from now *)
Lemma enqueue_spec : forall now msgs q, HInv q ->
  let q' := enqueue now msgs q in
  HInv q' /\ (PInv q -> PInv q') /\
  forall h, exists news,
    line q' h = line q h ++ news /\
    map e_msg news = map snd (filter (fun hm => N.eqb (fst hm) h) msgs) /\
    Forall (fun e => e_exat e = (now + hook_ttl)%Z) news.
Proof.
  induction msgs as [|[h0 m] r IH]; intros q H; cbn zeta.
  - cbn [enqueue]. split; [exact H|]. split; [auto|]. intros h. exists []. rewrite app_nil_r. auto.
  - change (enqueue now ((h0, m) :: r) q) with (enqueue now r (enq1 now h0 m q)).
    destruct (IH _ (enq1_hinv now h0 m q H)) as (HI & Hpi & Hl).
    split; [exact HI|]. split; [intros _; apply Hpi; reflexivity|].
    intros h. destruct (Hl h) as (news & E1 & E2 & E3).
    rewrite (enq1_line now h0 m q h H), <- app_assoc in E1. eexists. split; [exact E1|].
    cbn [filter fst]. rewrite (N.eqb_sym h0 h). destruct (N.eqb h h0); cbn [app map snd e_msg]; auto.
    split; [f_equal; exact E2 | constructor; [reflexivity | exact E3]].
Qed.

Lemma mgr_other : forall q h0 now outs h, h <> h0 ->
  let q' := qstep q (Mgr h0 now outs) in
  q_delivered q' h = q_delivered q h /\ q_taken q' h = q_taken q h /\ q_db q' h = q_db q h.
Proof.
  intros q h0 now outs h Hne. cbn [qstep].
  destruct (q_taken q h0) as [tk|]; [destruct (send_all outs tk)|];
    cbn [q_delivered q_taken q_db]; rewrite ?updf_other by exact Hne; auto.
Qed.

Lemma mgr_idle : forall q h now outs, q_taken q h = None ->
  let q' := qstep q (Mgr h now outs) in
  q_delivered q' h = q_delivered q h /\ q_taken q' h = Some (filter (alive now) (q_db q h)) /\ q_db q' h = [].
Proof. intros q h now outs ET. cbn [qstep]. rewrite ET. cbn [q_delivered q_taken q_db]. rewrite !updf_same. auto. Qed.

Lemma mgr_busy : forall q h now outs tk s u, q_taken q h = Some tk -> send_all outs tk = (s, u) ->
  let q' := qstep q (Mgr h now outs) in
  q_delivered q' h = q_delivered q h ++ s /\ q_taken q' h = None /\ q_db q' h = reinsert now u (q_db q h).
Proof.
  intros q h now outs tk s u ET ES. cbn [qstep]. rewrite ET, ES. cbn [q_delivered q_taken q_db].
  rewrite !updf_same. auto.
Qed.

Lemma mgr_counters : forall q h now outs,
  q_idx (qstep q (Mgr h now outs)) = q_idx q /\ q_pidx (qstep q (Mgr h now outs)) = q_pidx q.
Proof. intros. cbn [qstep]. destruct (q_taken q h) as [tk|]; [destruct (send_all outs tk)|]; auto. Qed.

(* What one event does to the line of a hook.  A manager step moves entries along the line (db -> being sent ->
   delivered) and loses only entries whose time is over: the first half does not take what has expired, the
   second does not put it back. *)
Lemma mgr_line : forall q h0 now outs h, HInv q ->
  lose (fun e => (e_exat e <= now)%Z) (line q h) (line (qstep q (Mgr h0 now outs)) h).
Proof.
  intros q h0 now outs h H. unfold line, taken_list. destruct (N.eq_dec h h0) as [->|Hne].
  2:{ destruct (mgr_other q h0 now outs h Hne) as (-> & -> & ->). apply lose_refl. }
  destruct (q_taken q h0) as [tk|] eqn:ET.
  - destruct (send_all outs tk) as [s u] eqn:ES.
    destruct (mgr_busy q h0 now outs tk s u ET ES) as (-> & -> & ->).
    pose proof (hi_incr _ H h0) as Hi. unfold line, taken_list in Hi.
    rewrite ET, (send_all_split _ _ _ _ ES), <- !app_assoc in *. rewrite reinsert_sorted by (rewrite app_assoc in Hi; exact (incr_cut [] _ _ Hi)).
    cbn [app]. repeat (apply lose_app; try apply lose_refl). apply lose_filter. intros e He. lia.
  - destruct (mgr_idle q h0 now outs ET) as (-> & -> & ->). rewrite app_nil_r.
    apply lose_app; [apply lose_refl|]. apply lose_filter. unfold alive. intros e He. lia.
Qed.

Lemma restart_line : forall q now h, lose (fun e => In e (taken_list q h)) (line q h) (line (qstep q (Restart now)) h).
Proof.
  intros q now h. unfold line, taken_list. cbn [qstep q_delivered q_taken q_db].
  apply lose_app; [apply lose_refl|]. apply lose_app; [apply lose_all; auto | apply lose_refl].
Qed.

Lemma qstep_inv : forall q ev, HInv q -> PInv q -> HInv (qstep q ev) /\ PInv (qstep q ev).
Proof.
  intros q [now msgs|h0 now outs|now] H HP.
  - destruct (enqueue_spec now msgs q H) as (H' & HP' & _). auto.
  - split; [|unfold PInv; destruct (mgr_counters q h0 now outs) as (-> & ->); exact HP].
    apply (hinv_lose (fun _ e => (e_exat e <= now)%Z) q _ H); [apply mgr_counters | intros h; apply mgr_line, H].
  - (* the counter comes back unchanged *)
    split; [|reflexivity].
    apply (hinv_lose (fun h e => In e (taken_list q h)) q _ H); [exact HP | intros h; apply restart_line].
Qed.

Lemma qrun_inv : forall evs q, HInv q -> PInv q -> HInv (qrun q evs) /\ PInv (qrun q evs).
Proof.
  intros evs q H HP. apply (fold_left_inv qstep (fun q => HInv q /\ PInv q)); [|split; assumption].
  intros q1 ev _ [H1 P1]. apply qstep_inv; assumption.
Qed.

Lemma qrun_hinv : forall evs, HInv (qrun hq_init evs).
Proof. intros evs. apply (qrun_inv evs hq_init hinv_init eq_refl). Qed.

(* the counter a restarted process reads back is the counter the dead process had *)
Theorem qidx_persisted : forall evs, q_pidx (qrun hq_init evs) = q_idx (qrun hq_init evs).
Proof. intros evs. apply (qrun_inv evs hq_init hinv_init eq_refl). Qed.

Theorem delivered_increasing : forall evs h, incr (idxs (q_delivered (qrun hq_init evs) h)).
Proof.
  intros evs h. pose proof (hi_incr _ (qrun_hinv evs) h) as Hi.
  unfold line in Hi. rewrite idxs_app in Hi. apply incr_app in Hi. tauto.
Qed.

Theorem delivered_no_duplicate : forall evs h, NoDup (idxs (q_delivered (qrun hq_init evs) h)).
Proof. intros. apply (SS_NoDup N.lt), incr_SS, delivered_increasing. exact N.lt_irrefl. Qed.

Lemma enq_msgs_app : forall h a b, enq_msgs h (a ++ b) = enq_msgs h a ++ enq_msgs h b.
Proof.
  induction a as [|[now msgs|h0 now outs|now] a IH]; intros b; cbn [app enq_msgs]; [reflexivity| |apply IH|apply IH].
  rewrite IH. rewrite app_assoc. reflexivity.
Qed.

(* One event, at a quiet instant if it is a restart: the line of h afterwards is the line before, then the entries
   the event queued for h (each with 30 s from the event), less entries whose time was over at the event. *)
Lemma qstep_line : forall q ev h, HInv q -> (forall now, ev = Restart now -> q_taken q h = None) ->
  exists news, lose (fun e => (e_exat e <= qtime ev)%Z) (line q h ++ news) (line (qstep q ev) h) /\
    map e_msg news = enq_msgs h [ev] /\ Forall (fun e => e_exat e = (qtime ev + hook_ttl)%Z) news.
Proof.
  intros q [now msgs|h0 now outs|now] h H HR.
  - destruct (enqueue_spec now msgs q H) as (_ & _ & Hl). destruct (Hl h) as (news & E1 & E2 & E3).
    exists news. cbn [qstep enq_msgs qtime]. rewrite E1, app_nil_r. split; [apply lose_refl | auto].
  - exists []. rewrite app_nil_r. split; [apply mgr_line, H | split; [reflexivity | constructor]].
  - exists []. rewrite app_nil_r. split; [|split; [reflexivity | constructor]].
    (* nothing was being sent *)
    generalize (restart_line q now h). apply lose_weaken. unfold taken_list. rewrite (HR now eq_refl). intros e [].
Qed.

(* A run with restarts at quiet instants only: the line of h afterwards is the line before, then everything the
   run queued for h, less entries whose time was over at some event of the run. *)
Theorem qrun_line : forall evs q h, HInv q -> PInv q -> quiet q evs ->
  exists born, lose (fun e => exists ev, In ev evs /\ (e_exat e <= qtime ev)%Z) (line q h ++ born) (line (qrun q evs) h) /\
    map e_msg born = enq_msgs h evs /\
    Forall (fun e => exists ev, In ev evs /\ e_exat e = (qtime ev + hook_ttl)%Z) born.
Proof.
  induction evs as [|ev r IH]; intros q h H HP HQ.
  - exists []. rewrite app_nil_r. split; [apply lose_refl | split; [reflexivity | constructor]].
  - destruct HQ as (HQ1 & HQ2).
    destruct (qstep_line q ev h H) as (news & L1 & M1 & X1); [intros now ->; apply HQ1|].
    destruct (qstep_inv q ev H HP) as (H' & HP'). destruct (IH (qstep q ev) h H' HP' HQ2) as (born & L2 & M2 & X2).
    exists (news ++ born). split; [|split].
    + rewrite app_assoc. apply (lose_trans _ _ (line (qstep q ev) h ++ born)).
      * apply lose_app; [|apply lose_refl]. revert L1. apply lose_weaken. intros e He. exists ev. cbn; auto.
      * revert L2. apply lose_weaken. intros e (ev' & Hev & He). exists ev'. cbn; auto.
    + rewrite map_app, M1, M2. symmetry. apply (enq_msgs_app h [ev] r).
    + apply Forall_app. split; [revert X1 | revert X2]; apply Forall_impl.
      * intros e He. exists ev. cbn; auto.
      * intros e (ev' & Hev & He). exists ev'. cbn; auto.
Qed.

(* every event happens within the retention period, counted from time 0 of the history *)
Definition in_retention (evs : list qev) : Prop :=
  Forall (fun ev => (0 <= qtime ev < hook_ttl)%Z) evs.

Theorem hook_order_gen : forall evs q h, HInv q -> PInv q -> quiet q evs ->
  (forall ev e, In ev evs -> In e (line q h) -> (qtime ev < e_exat e)%Z) ->
  (forall ev ev', In ev evs -> In ev' evs -> (qtime ev < qtime ev' + hook_ttl)%Z) ->
  map e_msg (line (qrun q evs) h) = map e_msg (line q h) ++ enq_msgs h evs.
Proof.
  intros evs q h H HP HQ Hold Hnew. destruct (qrun_line evs q h H HP HQ) as (born & L & <- & X).
  rewrite <- map_app. f_equal. apply (lose_none _ _ _ L). intros e He (ev & Hev & Hle).
  apply in_app_or in He as [He|He]; [specialize (Hold ev e Hev He); lia|].
  rewrite Forall_forall in X. destruct (X e He) as (ev' & Hev' & Hx). specialize (Hnew ev ev' Hev Hev'). lia.
Qed.

(* the messages generated for h = what was delivered, then what is being sent, then what is queued *)
Theorem hook_order : forall evs h, in_retention evs -> quiet hq_init evs ->
  let q := qrun hq_init evs in
  enq_msgs h evs = map e_msg (q_delivered q h) ++ map e_msg (pending q h).
Proof.
  intros evs h Ht HQ q. rewrite <- map_app. symmetry.
  apply (hook_order_gen evs hq_init h hinv_init eq_refl HQ); [intros ev e _ []|].
  (* both times lie in [0, 30 s) *)
  unfold in_retention in Ht. rewrite Forall_forall in Ht.
  intros ev ev' Hev Hev'. pose proof (Ht ev Hev). pose proof (Ht ev' Hev'). lia.
Qed.

Definition is_prefix {A} (p l : list A) : Prop := exists r, l = p ++ r.

Theorem hook_delivered_prefix : forall evs h, in_retention evs -> quiet hq_init evs ->
  is_prefix (map e_msg (q_delivered (qrun hq_init evs) h)) (enq_msgs h evs).
Proof. intros evs h Ht HQ. eexists. apply hook_order; assumption. Qed.

Lemma qrun_app : forall q a b, qrun q (a ++ b) = qrun (qrun q a) b.
Proof. intros. apply fold_left_app. Qed.

Lemma quiet_app : forall a q b, quiet q (a ++ b) <-> quiet q a /\ quiet (qrun q a) b.
Proof.
  induction a as [|ev r IH]; intros q b; cbn [app quiet qrun fold_left]; [tauto|].
  fold (qrun (qstep q ev) r). rewrite IH. tauto.
Qed.

(* three halves of proc with a healthy endpoint leave the hook idle with an empty db, whatever the state before:
   the first finishes a round that was under way, the next two are a whole round *)
Lemma mgr_thrice_empty : forall q h t1 t2 t3,
  let q' := qrun q [Mgr h t1 []; Mgr h t2 []; Mgr h t3 []] in
  q_db q' h = [] /\ taken_list q' h = [].
Proof.
  intros q h t1 t2 t3. cbn [qrun fold_left]. unfold taken_list. destruct (q_taken q h) as [tk|] eqn:ET.
  - destruct (mgr_busy q h t1 [] tk _ _ ET (send_all_healthy tk)) as (_ & T1 & _).
    destruct (mgr_idle _ h t2 [] T1) as (_ & T2 & D2).
    destruct (mgr_busy _ h t3 [] _ _ _ T2 (send_all_healthy _)) as (_ & -> & ->). rewrite D2. auto.
  - (* the third finds nothing to take *)
    destruct (mgr_idle q h t1 [] ET) as (_ & T1 & D1).
    destruct (mgr_busy _ h t2 [] _ _ _ T1 (send_all_healthy _)) as (_ & T2 & D2).
    destruct (mgr_idle _ h t3 [] T2) as (_ & -> & ->). rewrite D2, D1. auto.
Qed.

(* once the endpoint is healthy, three more halves of proc deliver everything *)
Theorem hook_eventually_all : forall evs h t1 t2 t3,
  in_retention (evs ++ [Mgr h t1 []; Mgr h t2 []; Mgr h t3 []]) -> quiet hq_init evs ->
  let q := qrun hq_init (evs ++ [Mgr h t1 []; Mgr h t2 []; Mgr h t3 []]) in
  map e_msg (q_delivered q h) = enq_msgs h evs /\ q_db q h = [] /\ taken_list q h = [].
Proof.
  intros evs h t1 t2 t3 Ht HQ q.
  assert (HQ' : quiet hq_init (evs ++ [Mgr h t1 []; Mgr h t2 []; Mgr h t3 []]))
    by (apply quiet_app; split; [exact HQ | cbn; tauto]).
  pose proof (hook_order _ h Ht HQ') as Ho. fold q in Ho.
  rewrite enq_msgs_app in Ho. cbn [enq_msgs] in Ho. rewrite app_nil_r in Ho.
  assert (Hp : q_db q h = [] /\ taken_list q h = []) by (unfold q; rewrite qrun_app; apply mgr_thrice_empty).
  destruct Hp as (Hdb & Htk). unfold pending in Ho. rewrite Hdb, Htk in Ho. cbn [app map] in Ho.
  rewrite app_nil_r in Ho. auto.
Qed.
