(* Mutual exclusion of the rwspinlock model for every schedule. *)
From Coq Require Import List ZArith Bool Lia.
From T38 Require Import Base.ListFacts Model.RWSpin.
Import ListNotations.
Open Scope Z_scope.

Definition b2z (b : bool) : Z := if b then 1 else 0.

Lemma count_cons f t l : count f (t :: l) = b2z (f t) + count f l.
Proof. unfold count; cbn. destruct (f t); cbn [b2z length]; lia. Qed.

Lemma count_nonneg f l : 0 <= count f l.
Proof. unfold count; lia. Qed.

(* what the threads other than i contribute to a counter is a fixed c: the counter is c plus the
   indicator of the state thread i is in, before and after a step of thread i *)
Lemma count_at f : forall l i t, nth_error l i = Some t ->
  exists c, 0 <= c /\ count f l = b2z (f t) + c /\ forall t', count f (set_nth i t' l) = b2z (f t') + c.
Proof.
  induction l as [|x l IH]; intros [|i] t H; cbn in H; try discriminate.
  - injection H as ->. exists (count f l).
    split; [apply count_nonneg | split; [|intros t'; unfold set_nth; cbn]; apply count_cons].
  - destruct (IH i t H) as (c & Hc & E & E'). exists (b2z (f x) + c).
    split; [unfold b2z; destruct (f x); lia|]. split; [rewrite count_cons, E; lia|].
    intros t'. specialize (E' t'). unfold set_nth in *; cbn in *. rewrite count_cons, E'. lia.
Qed.

Definition Inv (s : sys) : Prop :=
  panicked s = false /\
  ((lockstate s = -1 /\ writers s = 1 /\ readers s = 0) \/
   (lockstate s = readers s /\ writers s = 0)).

Lemma inv_init n : Inv (init n).
Proof.
  unfold Inv, init, writers, readers, count; cbn. split; [reflexivity|]. right.
  rewrite !filter_none; [cbn; lia | intros t Ht; apply repeat_spec in Ht as ->; reflexivity ..].
Qed.

Lemma step_inv s i c : Inv s -> Inv (step s i c).
Proof.
  intros [Hp Hs]. unfold step.
  destruct (nth_error (threads s) i) as [t|] eqn:Et; [|split; assumption].
  destruct (count_at is_inw _ _ _ Et) as (cw & Hcw & Ew & Cw).
  destruct (count_at is_inr _ _ _ Et) as (cr & Hcr & Er & Cr).
  unfold Inv, writers, readers in *. rewrite Ew, Er in Hs.
  destruct t as [| [v|] | | [v|] | ]; cbn [lockstate threads panicked]; [destruct c| | | | | |].
  all: try destruct (_ && _) eqn:E; cbn [lockstate threads panicked];
    rewrite Cw, Cr, Hp; cbn [is_inw is_inr b2z orb] in *.
  1-2, 4-5, 8-9: split; [reflexivity | lia].
  - (* Lock: the CAS from 0 succeeded *)
    apply andb_true_iff in E as [E1 E2]. apply Z.eqb_eq in E1, E2. split; [reflexivity | lia].
  - (* Unlock: thread i counts as a writer, so the state is -1 *) split; [apply Z.ltb_ge|]; lia.
  - (* RLock: the CAS from v >= 0 succeeded *)
    apply andb_true_iff in E as [E1 E2]. apply Z.leb_le in E1. apply Z.eqb_eq in E2. split; [reflexivity | lia].
  - (* RUnlock: thread i counts as a reader, so the state is at least 1 *) split; [apply Z.ltb_ge|]; lia.
Qed.

Theorem run_inv n sched : Inv (run (init n) sched).
Proof.
  unfold run. apply fold_left_inv; [intros s ic _; apply step_inv | apply inv_init].
Qed.

Theorem rwspin_exclusion n sched :
  let s := run (init n) sched in
  panicked s = false /\
  (writers s = 0 \/ (writers s = 1 /\ readers s = 0)) /\
  (lockstate s = -1 <-> writers s = 1) /\
  (0 <= lockstate s -> lockstate s = readers s).
Proof.
  cbn zeta. pose proof (run_inv n sched) as [Hp Hs].
  pose proof (count_nonneg is_inr (threads (run (init n) sched))) as Hr.
  unfold readers, writers in *.
  split; [exact Hp|]. destruct Hs as [[H1 [H2 H3]]|[H1 H2]]; repeat split; try lia.
Qed.

(* non-vacuity: two threads; one gets the write lock, the other spins, then gets it after the unlock *)
Example rwspin_example :
  let s := run (init 2) [(0%nat, GoW); (0%nat, GoW); (0%nat, GoW); (1%nat, GoW); (1%nat, GoW); (1%nat, GoW)] in
  nth_error (threads s) 0 = Some InW /\ nth_error (threads s) 1 = Some (WantW None) /\ lockstate s = -1.
Proof. vm_compute. repeat split. Qed.
