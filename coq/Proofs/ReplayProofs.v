(* The log of a program, replayed, gives the state the program reached; a kill recovers the state
   after a prefix of the program. Proved once for a command semantics whose "not updated" answers
   leave the dataset alone in every state satisfying an invariant [good] that the commands preserve
   (the keyspace and the hook registry are such: Proofs/KsReplay.v, Proofs/HookLifeProofs.v). *)
From T38 Require Import Base.Bytes Model.Resp Model.Aof Proofs.RespProofs Proofs.AofProofs Model.Replay.
Local Open Scope Z_scope.

Section OnGood.
Variable S : Type.
Variable exec : S -> cmd -> S * bool.

Notation run := (run S exec).
Notation logof := (logof S exec).
Notation replay := (replay S exec).
Notation recover := (recover S exec).

Lemma logof_cons c p s : logof (c :: p) s =
  if snd (exec s c) then c :: logof p (step S exec s c) else logof p (step S exec s c).
Proof. cbn [Replay.logof]. unfold step. destruct (exec s c) as [s' []]; reflexivity. Qed.

Lemma logof_app p1 p2 s0 : logof (p1 ++ p2) s0 = logof p1 s0 ++ logof p2 (run p1 s0).
Proof.
  revert s0; induction p1 as [|c p1 IH]; intros s0; [reflexivity|].
  cbn [app]. rewrite !logof_cons, IH. destruct (snd (exec s0 c)); reflexivity.
Qed.

Lemma firstn_logof p : forall s0 n, exists p1 p2, p = p1 ++ p2 /\ firstn n (logof p s0) = logof p1 s0.
Proof.
  induction p as [|c p IH]; intros s0 n.
  - exists [], []. split; [reflexivity|]. destruct n; reflexivity.
  - rewrite logof_cons. destruct (snd (exec s0 c)) eqn:U; [destruct n as [|n]|].
    + exists [], (c :: p). split; reflexivity.
    + destruct (IH (step S exec s0 c) n) as [p1 [p2 [-> Hf]]]. exists (c :: p1), p2.
      split; [reflexivity|]. rewrite logof_cons, U. cbn [firstn]. rewrite Hf. reflexivity.
    + destruct (IH (step S exec s0 c) n) as [p1 [p2 [-> Hf]]]. exists (c :: p1), p2.
      split; [reflexivity|]. rewrite logof_cons, U. exact Hf.
Qed.

Variable good : S -> Prop.
Hypothesis good_step : forall s c, good s -> good (fst (exec s c)).
Hypothesis noupd : forall s c, good s -> snd (exec s c) = false -> fst (exec s c) = s.

Lemma replay_logof_on p : forall s0, good s0 -> replay (logof p s0) s0 = run p s0.
Proof.
  induction p as [|c p IH]; intros s0 Hg; [reflexivity|].
  rewrite logof_cons. change (run (c :: p) s0) with (run p (fst (exec s0 c))). unfold step.
  rewrite <- (IH _ (good_step s0 c Hg)).
  destruct (snd (exec s0 c)) eqn:U; [reflexivity|]. rewrite (noupd s0 c Hg U). reflexivity.
Qed.

(* A kill leaves a byte prefix q of the file. Start-up recovers exactly the state after a PREFIX p1
   of the program (never a partially applied command), cuts the file to the end of p1's log, and
   every logged command whose bytes were wholly written is inside p1. *)
Theorem crash_prefix_on p s0 q t :
  good s0 -> Forall cmd_ok (logof p s0) -> q ++ t = encs (logof p s0) ->
  exists p1 p2, p = p1 ++ p2 /\
    recover q s0 = Some (run p1 s0, len (encs (logof p1 s0))) /\
    len (encs (logof p1 s0)) <= len q /\
    (forall m, (m <= length (logof p s0))%nat -> len (encs (firstn m (logof p s0))) <= len q ->
               (m <= length (logof p1 s0))%nat).
Proof.
  intros Hg Hok Hq. destruct (cut_log (logof p s0) q t Hok Hq) as [n (Hl & Hle & Hall)].
  destruct (firstn_logof p s0 n) as [p1 [p2 [Hp Hf]]]. unfold cmd in *. rewrite Hf in *.
  exists p1, p2. split; [exact Hp|].
  unfold Replay.recover. rewrite Hl, (replay_logof_on p1 s0 Hg). auto.
Qed.

End OnGood.
