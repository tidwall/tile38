(* The load never stops on a log whose records were all written by a live server — provided every
   error a LOGGED command can return in ANOTHER state is one commandErrIsFatal tolerates.

   "Another state" is the point: a log that is the exact history of the accepted commands replays
   without any error, but after an AOFSHRINK the file is  snapshot ++ tail  where the tail holds the
   commands accepted WHILE the snapshot was taken; they were accepted against the state before the
   snapshot and are replayed on top of a snapshot that may already contain later effects (the object
   they touched is gone, the collection was dropped, ...). *)
From Coq Require Import List Bool.
From T38 Require Import Base.Bytes Model.Replay Model.ReplayTol Proofs.ReplayProofs.
Import ListNotations.

Section ReplayTolProofs.
Variable S : Type.
Variable err : Type.
Variable exec : S -> cmd -> S * bool * option err.
Variable fatal : err -> bool.
Variable good : S -> Prop.             (* the state invariant (every state for the generic theorems) *)

Notation xstate := (xstate S err exec).
Notation xupd := (xupd S err exec).
Notation xerr := (xerr S err exec).
Notation load := (load S err exec fatal).
Notation apply_all := (apply_all S err exec).
Notation harmless := (harmless err fatal).
Notation logged := (logged S err exec good).

(* Model/Replay.v's view of the same server: state and `updated` only *)
Definition exec2 (s : S) (c : cmd) : S * bool := fst (exec s c).

Lemma apply_all_replay l : forall s, apply_all l s = replay S exec2 l s.
Proof. reflexivity. Qed.

(* the load of a concatenation is the load of the first part followed, unless it stopped, by the load of the second
   from where the first arrived *)
Lemma load_app l1 l2 : forall s0,
  load (l1 ++ l2) s0 = match load l1 s0 with inl s1 => load l2 s1 | inr x => inr x end.
Proof.
  induction l1 as [|d l1 IH]; intros s0; [reflexivity|].
  cbn [app ReplayTol.load]. destruct (xerr s0 d) as [y|]; [destruct (fatal y); [reflexivity|]|]; apply IH.
Qed.

Hypothesis good_step : forall s c, good s -> good (xstate s c).

Lemma load_total_on (P : cmd -> Prop) :
  (forall c, P c -> forall s', good s' -> harmless (xerr s' c) = true) ->
  forall l, Forall P l -> forall s0, good s0 -> load l s0 = inl (apply_all l s0).
Proof.
  intros HP. induction 1 as [|c l Hc Hl IH]; intros s0 Hg; [reflexivity|].
  cbn [ReplayTol.load ReplayTol.apply_all fold_left].
  pose proof (HP c Hc s0 Hg) as Hh. unfold ReplayTol.harmless in Hh.
  destruct (xerr s0 c) as [x|]; [destruct (fatal x); [discriminate|]|]; apply IH, good_step, Hg.
Qed.

(* THE OBLIGATION on the command semantics and on commandErrIsFatal together *)
Hypothesis logged_harmless : forall c, logged c -> forall s', good s' -> harmless (xerr s' c) = true.

Lemma load_total l : Forall logged l -> forall s0, good s0 -> load l s0 = inl (apply_all l s0).
Proof. exact (load_total_on logged logged_harmless l). Qed.

Lemma logof_logged p : forall s0, good s0 -> Forall logged (logof S exec2 p s0).
Proof.
  induction p as [|c p IH]; intros s0 Hg; [constructor|].
  rewrite logof_cons. pose proof (IH _ (good_step s0 c Hg)) as Hr.
  destruct (snd (exec2 s0 c)) eqn:U; [constructor; [exists s0; split; assumption|]|]; exact Hr.
Qed.

(* the plain log: start-up on the log of any program goes through and yields the replay *)
Theorem load_log_total p s0 : good s0 ->
  load (logof S exec2 p s0) s0 = inl (replay S exec2 (logof S exec2 p s0) s0).
Proof.
  intros Hg. rewrite load_total; [rewrite apply_all_replay; reflexivity | apply logof_logged; exact Hg | exact Hg].
Qed.

End ReplayTolProofs.

(* the converse, for any command semantics and any classification: if the first l1 records load and
   the next one returns an error classified fatal, the server does not start *)
Lemma load_stops S err exec fatal l1 c l2 : forall s0 s1 x,
  load S err exec fatal l1 s0 = inl s1 -> xerr S err exec s1 c = Some x -> fatal x = true ->
  load S err exec fatal (l1 ++ c :: l2) s0 = inr x.
Proof. intros s0 s1 x Hl He Hf. rewrite load_app, Hl. cbn [ReplayTol.load]. rewrite He, Hf. reflexivity. Qed.
