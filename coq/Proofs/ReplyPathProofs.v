(* Table facts for C08's "a reply leaves only after the flush" (Model/ReplyPath.v). *)
From Coq Require Import String List Bool.
From T38 Require Import Gen.SocketWrites Model.ReplyPath.
Import ListNotations.
Open Scope string_scope.

Lemma no_early_socket_write : early_writes socket_writes = [].
Proof. vm_compute. reflexivity. Qed.

Lemma on_path_write_classified : forall w, In w socket_writes -> sw_on_path w = true ->
  sw_reply_block w = true \/ allowed w = true.
Proof.
  intros w Hin Hp.
  destruct (sw_reply_block w) eqn:Er; [left; reflexivity|]. right.
  destruct (allowed w) eqn:Ea; [reflexivity|]. exfalso.
  assert (H : In w (early_writes socket_writes)).
  { unfold early_writes. apply filter_In. split; [exact Hin|]. rewrite Hp, Er, Ea. reflexivity. }
  rewrite no_early_socket_write in H. exact H.
Qed.
