(* Lemmas about Model/Resp.v: accessors, parseInt/dec round trip, what appended bytes do to the outcome of
   read_next (stability, progress, panics), completeness of the encoder, incompleteness of every strict prefix. *)
From Coq Require Import ZifyN ZifyNat ZifyBool.
From T38 Require Import Base.Bytes Base.ListFacts Model.Resp.
Local Open Scope Z_scope.

Lemma len_acc_spec p a : len_acc p a = a + Z.of_nat (length p).
Proof. revert a; induction p as [|x p IH]; intros a; cbn [len_acc length]; [lia|]. rewrite IH. lia. Qed.
Lemma len_spec p : len p = Z.of_nat (length p).
Proof. unfold len. rewrite len_acc_spec. lia. Qed.
Lemma len_nil : len [] = 0. Proof. reflexivity. Qed.
Lemma len_cons x p : len (x :: p) = 1 + len p.
Proof. rewrite !len_spec. cbn [length]. lia. Qed.
Lemma len_app a b : len (a ++ b) = len a + len b.
Proof. rewrite !len_spec, app_length. lia. Qed.
Lemma len_nonneg p : 0 <= len p.
Proof. rewrite len_spec. lia. Qed.
Lemma len_zero p : len p = 0 -> p = [].
Proof. rewrite len_spec. destruct p; cbn; [auto|lia]. Qed.
Lemma len_pos (p : bytes) : p <> [] -> 0 < len p.
Proof. destruct p; [congruence|]. rewrite len_cons. pose proof (len_nonneg p). lia. Qed.
#[export] Hint Rewrite len_app len_cons len_nil : len.

Lemma nthZ_spec p : forall i, nthZ p i = if i <? 0 then None else nth_error p (Z.to_nat i).
Proof.
  induction p as [|y p IH]; intros i; cbn [nthZ]; [destruct (i <? 0), (Z.to_nat i); reflexivity|].
  destruct (Z.eqb_spec i 0) as [->|N]; [reflexivity|]. rewrite IH.
  destruct (Z.ltb_spec i 0), (Z.ltb_spec (i - 1) 0); try lia; [reflexivity|].
  replace (Z.to_nat i) with (S (Z.to_nat (i - 1))) by lia. reflexivity.
Qed.
Lemma getb_spec p i : getb p i = if i <? 0 then None else nth_error p (Z.to_nat i).
Proof. unfold getb. rewrite nthZ_spec. destruct (i <? 0); reflexivity. Qed.

Lemma getb_dom p i : match getb p i with Some _ => 0 <= i < len p | None => i < 0 \/ len p <= i end.
Proof.
  rewrite getb_spec, len_spec. destruct (Z.ltb_spec i 0); [lia|].
  destruct (nth_error p (Z.to_nat i)) eqn:E; [assert (Z.to_nat i < length p)%nat by (apply nth_error_Some; congruence)|apply nth_error_None in E]; lia.
Qed.
Lemma getb_out p i : i < 0 \/ len p <= i -> getb p i = None.
Proof. intros H. pose proof (getb_dom p i). destruct (getb p i); [lia|reflexivity]. Qed.
Lemma getb_app_lt d e i : i < len d -> getb (d ++ e) i = getb d i.
Proof.
  rewrite !getb_spec, len_spec. intros H. destruct (Z.ltb_spec i 0); [reflexivity|]. apply nth_error_app1. lia.
Qed.
Lemma getb_at p a x b i : p = a ++ x :: b -> len a = i -> getb p i = Some x.
Proof.
  intros -> <-. rewrite getb_spec, len_spec, Nat2Z.id. destruct (Z.ltb_spec (Z.of_nat (length a)) 0); [lia|].
  rewrite nth_error_app2, Nat.sub_diag by lia. reflexivity.
Qed.

Lemma dropZ_spec p : forall i,
  match dropZ p i with Some s => 0 <= i <= len p /\ s = skipn (Z.to_nat i) p | None => i < 0 \/ len p < i end.
Proof.
  induction p as [|y p IH]; intros i; cbn [dropZ]; destruct (Z.eqb_spec i 0) as [->|N].
  1,3: split; [apply (conj (Z.le_refl 0)), len_nonneg|reflexivity].
  - rewrite len_nil. lia.
  - rewrite len_cons. specialize (IH (i - 1)). destruct (dropZ p (i - 1)); [|lia]. destruct IH as [? ->]. split; [lia|].
    replace (Z.to_nat i) with (S (Z.to_nat (i - 1))) by lia. reflexivity.
Qed.
Lemma slice_from_spec p i :
  match slice_from p i with Some s => 0 <= i <= len p /\ s = skipn (Z.to_nat i) p | None => i < 0 \/ len p < i end.
Proof. unfold slice_from. destruct (Z.ltb_spec i 0); [lia|apply dropZ_spec]. Qed.
Lemma slice_from_range p i s : slice_from p i = Some s -> 0 <= i <= len p /\ len s = len p - i.
Proof.
  intros H. pose proof (slice_from_spec p i) as V. rewrite H in V. destruct V as [V ->].
  rewrite !len_spec, skipn_length in *. lia.
Qed.
Lemma slice_from_some p i : 0 <= i <= len p -> exists s, slice_from p i = Some s.
Proof. intros H. pose proof (slice_from_spec p i). destruct (slice_from p i); [eauto|lia]. Qed.
Lemma slice_from_split p i s : slice_from p i = Some s -> exists a, p = a ++ s /\ len a = i.
Proof.
  intros H. pose proof (slice_from_spec p i) as V. rewrite H in V. destruct V as [V ->].
  exists (firstn (Z.to_nat i) p). split; [symmetry; apply firstn_skipn|]. rewrite len_spec, firstn_length in *. lia.
Qed.
Lemma slice_from_app_r a b k : 0 <= k -> slice_from (a ++ b) (len a + k) = slice_from b k.
Proof.
  intros Hk. pose proof (slice_from_spec (a ++ b) (len a + k)) as V. pose proof (slice_from_spec b k) as W.
  rewrite len_app in V. pose proof (len_nonneg a). destruct (slice_from (a ++ b) _), (slice_from b k); try lia; [|reflexivity].
  destruct V as [_ ->], W as [_ ->]. rewrite len_spec, skipn_app, (@skipn_all2 _ _ a) by lia. cbn [app]. do 2 f_equal. lia.
Qed.
Lemma slice_from_at p a b i : p = a ++ b -> len a = i -> slice_from p i = Some b.
Proof. intros -> <-. rewrite <- (Z.add_0_r (len a)), slice_from_app_r by lia. destruct b; reflexivity. Qed.
Lemma slice_from_app_l d e i s : slice_from d i = Some s -> slice_from (d ++ e) i = Some (s ++ e).
Proof. intros H. destruct (slice_from_split _ _ _ H) as [a [-> <-]]. apply (slice_from_at _ a); [apply eq_sym, app_assoc|reflexivity]. Qed.

Lemma takeZ_spec p : forall k,
  match takeZ p k with Some r => 0 <= k <= len p /\ r = firstn (Z.to_nat k) p | None => k < 0 \/ len p < k end.
Proof.
  induction p as [|y p IH]; intros k; cbn [takeZ]; destruct (Z.eqb_spec k 0) as [->|N].
  1,3: split; [apply (conj (Z.le_refl 0)), len_nonneg|reflexivity].
  - rewrite len_nil. lia.
  - rewrite len_cons. specialize (IH (k - 1)). destruct (takeZ p (k - 1)); [|lia]. destruct IH as [? ->]. split; [lia|].
    replace (Z.to_nat k) with (S (Z.to_nat (k - 1))) by lia. reflexivity.
Qed.
Lemma takeZ_neg p : forall k, k < 0 -> takeZ p k = None.
Proof. intros k Hk. pose proof (takeZ_spec p k). destruct (takeZ p k); [lia|reflexivity]. Qed.
Lemma slice_spec p a b :
  match slice p a b with
  | Some r => 0 <= a <= b /\ b <= len p /\ r = firstn (Z.to_nat (b - a)) (skipn (Z.to_nat a) p)
  | None => a < 0 \/ b < a \/ len p < b
  end.
Proof.
  unfold slice. destruct (Z.ltb_spec a 0); cbn [orb]; [lia|]. destruct (Z.ltb_spec b a); [lia|].
  pose proof (dropZ_spec p a) as D. destruct (dropZ p a) as [s|]; [destruct D as [D ->]|lia].
  pose proof (takeZ_spec (skipn (Z.to_nat a) p) (b - a)) as T. rewrite len_spec, skipn_length in T. rewrite len_spec in *.
  destruct (takeZ _ _); [split; [lia|split; [lia|apply T]]|lia].
Qed.
Lemma slice_range p a b r : slice p a b = Some r -> 0 <= a <= b /\ b <= len p /\ len r = b - a.
Proof.
  intros H. pose proof (slice_spec p a b) as V. rewrite H in V. destruct V as (V1 & V2 & ->).
  rewrite !len_spec, firstn_length, skipn_length in *. lia.
Qed.
Lemma slice_some p a b : 0 <= a <= b -> b <= len p -> exists r, slice p a b = Some r.
Proof. intros H1 H2. pose proof (slice_spec p a b). destruct (slice p a b); [eauto|lia]. Qed.
Lemma slice_app_le d e a b : b <= len d -> slice (d ++ e) a b = slice d a b.
Proof.
  intros Hb. pose proof (slice_spec d a b) as V. pose proof (slice_spec (d ++ e) a b) as W.
  rewrite len_app in W. pose proof (len_nonneg e).
  destruct (slice d a b), (slice (d ++ e) a b); try lia; [|reflexivity]. destruct V as (? & ? & ->), W as (_ & _ & ->).
  rewrite skipn_app, firstn_app. replace (_ - length (skipn _ d))%nat with O by (rewrite skipn_length, len_spec in *; lia).
  f_equal. apply app_nil_r.
Qed.
Lemma slice_app_l d e a b r : slice d a b = Some r -> slice (d ++ e) a b = Some r.
Proof. intros H. rewrite slice_app_le; [exact H|apply slice_range in H; lia]. Qed.
Lemma slice_at p a b c i j : p = a ++ b ++ c -> len a = i -> len a + len b = j -> slice p i j = Some b.
Proof.
  intros -> <- <-. pose proof (slice_spec (a ++ b ++ c) (len a) (len a + len b)) as V. autorewrite with len in V.
  pose proof (len_nonneg a). pose proof (len_nonneg b). pose proof (len_nonneg c).
  destruct (slice _ _ _); [|lia]. destruct V as (_ & _ & ->). replace (len a + len b - len a) with (len b) by lia.
  rewrite !len_spec, !Nat2Z.id, skipn_app_exact. f_equal. apply firstn_app_exact.
Qed.

Lemma index_from_app_l c s e : forall i k, index_from c s i = Some k -> index_from c (s ++ e) i = Some k.
Proof.
  induction s as [|x s IH]; intros i k H; cbn [index_from app] in *; [discriminate|].
  destruct (x =? c)%N; auto.
Qed.
Lemma index_from_split c s : forall i k, index_from c s i = Some k ->
  exists a b, s = a ++ c :: b /\ Forall (fun x => x <> c) a /\ k = i + len a.
Proof.
  induction s as [|x s IH]; intros i k H; cbn [index_from] in H; [discriminate|].
  destruct (N.eqb_spec x c) as [->|N].
  - injection H as <-. exists [], s. rewrite len_nil. repeat split; [constructor|lia].
  - destruct (IH _ _ H) as (a & b & -> & Hf & ->). exists (x :: a), b. rewrite len_cons. repeat split; [constructor; assumption|lia].
Qed.
Lemma index_from_skip c a s : forall i, Forall (fun x => x <> c) a -> index_from c (a ++ s) i = index_from c s (i + len a).
Proof.
  induction a as [|x a IH]; intros i Hf; cbn [app index_from].
  - rewrite len_nil, Z.add_0_r. reflexivity.
  - inversion Hf; subst. destruct (N.eqb_spec x c); [contradiction|]. rewrite IH, len_cons by assumption. f_equal. lia.
Qed.
Lemma index_from_none c a i : Forall (fun x => x <> c) a -> index_from c a i = None.
Proof. intros Hf. rewrite <- (app_nil_r a), index_from_skip by assumption. reflexivity. Qed.

Lemma find_byte_app_l c d e i k : find_byte c d i = Some k -> find_byte c (d ++ e) i = Some k.
Proof.
  unfold find_byte. destruct (slice_from d i) eqn:E; [|discriminate]. intros H.
  erewrite slice_from_app_l by eassumption. apply index_from_app_l; assumption.
Qed.
Lemma find_byte_range c p i k : find_byte c p i = Some k -> 0 <= i <= k /\ k < len p /\ getb p k = Some c.
Proof.
  unfold find_byte. destruct (slice_from p i) as [s|] eqn:E; [|discriminate]. intros H.
  destruct (slice_from_split _ _ _ E) as [pre [-> <-]]. destruct (index_from_split _ _ _ _ H) as (a & b & -> & _ & ->).
  pose proof (len_nonneg pre). pose proof (len_nonneg a). pose proof (len_nonneg b). autorewrite with len.
  repeat split; try lia. apply (getb_at _ (pre ++ a) c b); [apply app_assoc|apply len_app].
Qed.
Lemma find_byte_at c p pre a b i : p = pre ++ a ++ c :: b -> len pre = i -> Forall (fun x => x <> c) a ->
  find_byte c p i = Some (i + len a).
Proof. intros E Hi Hf. unfold find_byte. rewrite (slice_from_at p pre _ i E Hi), index_from_skip by assumption. cbn [index_from]. rewrite N.eqb_refl. reflexivity. Qed.
Lemma find_byte_none c pre a : Forall (fun x => x <> c) a -> find_byte c (pre ++ a) (len pre) = None.
Proof. intros Hf. unfold find_byte. rewrite (slice_from_at _ pre a _ eq_refl eq_refl). apply index_from_none; assumption. Qed.

Lemma wrap_small z : -9223372036854775808 <= z < 9223372036854775808 -> wrap z = z.
Proof. intros H. unfold wrap. rewrite Z.mod_small by lia. lia. Qed.
Lemma wrap_range z : -9223372036854775808 <= wrap z < 9223372036854775808.
Proof. unfold wrap. pose proof (Z.mod_pos_bound (z + 9223372036854775808) 18446744073709551616 ltac:(lia)). lia. Qed.
Lemma wrap_add_wrap a b : wrap (a + wrap b) = wrap (a + b).
Proof.
  unfold wrap. f_equal.
  transitivity ((a + (b + 9223372036854775808) mod 18446744073709551616) mod 18446744073709551616); [f_equal; ring|].
  rewrite Z.add_mod_idemp_r by lia. f_equal. ring.
Qed.
Lemma wrap_nonneg_small z : 0 <= z < 13835058055282163712 -> 0 <= wrap z -> wrap z = z.
Proof. unfold wrap. intros H1 H2. Z.div_mod_to_equations. lia. Qed.

Definition digit_ok (c : N) : Prop := (48 <= c <= 57)%N.
Lemma is_digit_true c : digit_ok c -> is_digit c = true.
Proof. unfold digit_ok, is_digit. lia. Qed.

Lemma dec_aux_digits f : forall n acc, Forall digit_ok acc -> Forall digit_ok (dec_aux f n acc).
Proof.
  induction f as [|f IH]; intros n acc Ha; cbn [dec_aux]; [assumption|].
  assert (Hd : digit_ok (48 + n mod 10)%N).
  { unfold digit_ok. pose proof (N.mod_upper_bound n 10 ltac:(lia)). lia. }
  destruct (n / 10 =? 0)%N; [constructor; assumption|]. apply IH. constructor; assumption.
Qed.
Lemma dec_digits n : Forall digit_ok (dec n).
Proof. apply dec_aux_digits. constructor. Qed.
Lemma dec_no c n : ~ digit_ok c -> Forall (fun x => x <> c) (dec n).
Proof.
  intros Hc. eapply Forall_impl; [|apply dec_digits]. intros x Hx ->. contradiction.
Qed.

Lemma dec_aux_S f n acc : dec_aux (S f) n acc =
  if (n / 10 =? 0)%N then (48 + n mod 10)%N :: acc else dec_aux f (n / 10)%N ((48 + n mod 10)%N :: acc).
Proof. reflexivity. Qed.
(* the digits of n, written in front of acc, take parseInt's loop from 0 to n: its last digit takes it from n / 10 to n *)
Lemma parse_digits_dec_aux f : forall n acc, (n < 2 ^ N.of_nat f)%N -> Z.of_N n < 9223372036854775808 ->
  parse_digits (dec_aux (S f) n acc) 0 = parse_digits acc (Z.of_N n).
Proof.
  induction f as [|f IH]; intros n acc Hn Hb.
  - cbn in Hn. assert (n = 0%N) by lia. subst. reflexivity.
  - replace (N.of_nat (S f)) with (N.succ (N.of_nat f)) in Hn by lia. rewrite N.pow_succ_r' in Hn.
    rewrite dec_aux_S. pose proof (N.div_mod n 10 ltac:(lia)) as Hq. pose proof (N.mod_upper_bound n 10 ltac:(lia)) as Hr.
    set (q := (n / 10)%N) in *. set (r := (n mod 10)%N) in *. clearbody q r.
    assert (D : parse_digits ((48 + r)%N :: acc) (Z.of_N q) = parse_digits acc (Z.of_N n)).
    { cbn [parse_digits]. rewrite is_digit_true by (unfold digit_ok; lia). f_equal. rewrite wrap_small; lia. }
    destruct (N.eqb_spec q 0) as [E|E]; [rewrite <- D, E; reflexivity|]. rewrite IH, D; [reflexivity|lia|lia].
Qed.

(* the model's pattern 45%N is a match on the bits of the first byte, opened here once *)
Lemma parse_int_slow_eq b : parse_int_slow b =
  match b with
  | c :: b' => if (c =? 45)%N then match parse_digits b' 0 with Some n => Some (wrap (n * -1)) | None => None end
               else parse_digits b 0
  | [] => Some 0
  end.
Proof.
  destruct b as [|[|p] b']; try reflexivity. do 6 (destruct p as [p|p|]; try reflexivity).
Qed.
Lemma parse_int_digits b : Forall digit_ok b -> parse_int b = parse_digits b 0.
Proof.
  intros Hd. destruct b as [|c [|c2 r]]; [reflexivity| |]; inversion Hd as [|? ? Hc _]; subst; cbn [parse_int parse_digits].
  - rewrite is_digit_true by assumption. unfold digit_ok in Hc. rewrite wrap_small; [reflexivity|lia].
  - rewrite parse_int_slow_eq. unfold digit_ok in Hc. destruct (N.eqb_spec c 45); [lia|reflexivity].
Qed.
Lemma parse_int_dec n : Z.of_N n < 9223372036854775808 -> parse_int (dec n) = Some (Z.of_N n).
Proof.
  intros H. rewrite parse_int_digits by apply dec_digits. unfold dec.
  rewrite parse_digits_dec_aux; [reflexivity|rewrite N2Nat.id; apply N.size_gt|exact H].
Qed.

Definition in63 (n : Z) : Prop := -9223372036854775808 <= n < 9223372036854775808.

Lemma parse_digits_range : forall b v n, in63 v -> parse_digits b v = Some n -> in63 n.
Proof.
  induction b as [|c b IH]; intros v n Hv H; cbn [parse_digits] in H; [inversion H; subst; exact Hv|].
  destruct (is_digit c); [|discriminate]. eapply IH; [|exact H]. apply wrap_range.
Qed.
Lemma parse_int_slow_range b n : parse_int_slow b = Some n -> in63 n.
Proof.
  rewrite parse_int_slow_eq. assert (Z : in63 0) by (unfold in63; lia).
  destruct b as [|c b']; [intros [= <-]; exact Z|]. destruct (c =? 45)%N; [|apply parse_digits_range, Z].
  destruct (parse_digits b' 0); [|discriminate]. intros [= <-]. apply wrap_range.
Qed.
Lemma parse_int_range b n : parse_int b = Some n -> in63 n.
Proof.
  unfold parse_int. destruct b as [|c [|c2 r]]; try apply parse_int_slow_range.
  destruct (is_digit c) eqn:D; [|apply parse_int_slow_range].
  intros H; inversion H; subst. unfold is_digit in D. unfold in63. lia.
Qed.

Lemma split_sp_shorter : forall l racc tok rest, split_sp l racc = (tok, Some rest) -> (length rest < length l)%nat.
Proof.
  induction l as [|c l IH]; intros racc tok rest H; cbn [split_sp] in H; [discriminate|].
  destruct (c =? 32)%N.
  - inversion H; subst. cbn [length]. lia.
  - apply IH in H. cbn [length]. lia.
Qed.
Lemma native_tok_no_fuel : forall fuel line racc, (length line < fuel)%nat -> native_tok fuel line racc <> TFuel.
Proof.
  induction fuel as [|fuel IH]; intros line racc Hf; [lia|].
  cbn [native_tok]. destruct line as [|c0 line']; [discriminate|].
  destruct (c0 =? 123)%N; [discriminate|].
  match goal with |- (if ?q then _ else _) <> _ => destruct q end.
  - destruct (slice (c0 :: line') 1 (len (c0 :: line') - 1)); discriminate.
  - destruct (split_sp (c0 :: line') []) as [tok [rest|]] eqn:Sp; [|discriminate].
    apply split_sp_shorter in Sp. apply IH. lia.
Qed.

Definition BIG : Z := 4611686018427387904.   (* 2^62: a Go slice is shorter *)

Definition ext (e : bytes) (r r' : result) : Prop :=
  match r with
  | Complete a k rest => r' = Complete a k (rest ++ e)
  | Err x => r' = Err x
  | _ => True
  end.

Lemma ext_not_fuel e r r' : ext e r r' -> (match r with Complete _ _ _ | Err _ => True | _ => False end) -> r <> Fuel.
Proof. destruct r; cbn; intros; congruence. Qed.

(* r the outcome on p, r' the outcome on p ++ e: ext, progress (a complete command leaves less than it was given,
   the fuel is enough) and the stability of a panic below BIG in one relation, so that each parser is walked once *)
Definition ext_good (e p : bytes) (r r' : result) : Prop :=
  match r with
  | Complete a k rest => len rest < len p /\ r' = Complete a k (rest ++ e)
  | Err x => r' = Err x
  | Panic => len (p ++ e) < BIG -> r' = Panic
  | Fuel => False
  | Incomplete => True
  end.

Lemma read_len_ext d e from s :
  match read_len d from s with
  | LNone => True
  | LOk n i => read_len (d ++ e) from s = LOk n i /\ 0 <= from <= i /\ i < len d /\ in63 n
  | r => read_len (d ++ e) from s = r
  end.
Proof.
  unfold read_len. destruct (find_byte LF d from) as [k|] eqn:E; [|exact I].
  rewrite (find_byte_app_l _ _ e _ _ E). apply find_byte_range in E. rewrite getb_app_lt, slice_app_le by lia.
  destruct (getb d (k - 1)) as [c|]; [|reflexivity]. destruct (negb (c =? CR)%N); [reflexivity|].
  destruct (slice d s (k - 1)) as [ds|]; [|reflexivity].
  destruct (parse_int ds) as [n|] eqn:P; [|reflexivity]. apply parse_int_range in P. repeat (split; [reflexivity || lia|]). exact P.
Qed.

(* the bulk check `wrap (n + 2) <= L - i3` on a buffer of length L < BIG: an end i3 + n of the bulk that, wrapped, is
   an index below BIG did not wrap, and CRLF fits behind it *)
Lemma bulk_end_inside n i3 L : in63 n -> 0 <= i3 <= L -> L < BIG -> wrap (n + 2) <= L - i3 ->
  0 <= wrap (i3 + n) < BIG -> wrap (i3 + n) <= L - 2.
Proof. unfold in63, BIG, wrap. intros Hn Hi HL Hc Hr. Z.div_mod_to_equations. lia. Qed.

Lemma rest_ext d e i args k : i <= len d -> i <> 0 ->
  ext_good e d (match slice_from d i with None => Panic | Some rest => Complete args k rest end)
    (match slice_from (d ++ e) i with None => Panic | Some rest => Complete args k rest end).
Proof.
  intros Hi H0. destruct (Z.ltb_spec i 0).
  - unfold slice_from. destruct (Z.ltb_spec i 0); [intros _; reflexivity|lia].
  - destruct (slice_from_some d i ltac:(lia)) as [rest SF]. rewrite SF, (slice_from_app_l _ e _ _ SF).
    apply slice_from_range in SF. split; [lia|reflexivity].
Qed.

(* what resp_args and read_native both do behind a length: CR at the end e0 of the payload, LF behind it, the
   payload itself; k is what they go on to do with it *)
Definition crlf_at (p : bytes) (i3 e0 : Z) (bad : perr) (k : bytes -> result) : result :=
  match getb p e0 with
  | None => Panic
  | Some a =>
      if negb (a =? CR)%N then Err bad else
      match getb p (wrap (e0 + 1)) with
      | None => Panic
      | Some b =>
          if negb (b =? LF)%N then Err bad else
          match slice p i3 e0 with None => Panic | Some arg => k arg end
      end
  end.

Lemma crlf_at_ext d e i3 e0 bad k k' :
  in63 e0 -> (len (d ++ e) < BIG -> 0 <= e0 < BIG -> e0 <= len d - 2) ->
  (forall arg, 0 <= i3 <= e0 -> e0 + 1 < len d -> ext_good e d (k arg) (k' arg)) ->
  ext_good e d (crlf_at d i3 e0 bad k) (crlf_at (d ++ e) i3 e0 bad k').
Proof.
  unfold crlf_at, in63. intros He0 Hc K. pose proof (len_nonneg e) as Hle. pose proof (len_app d e) as Hlen.
  pose proof (getb_dom d e0) as Hr. destruct (getb d e0) as [a|] eqn:Ga.
  2:{ intros Hbig. rewrite getb_out; [reflexivity|lia]. }
  rewrite getb_app_lt, Ga by lia.
  destruct (negb (a =? CR)%N); [reflexivity|].
  pose proof (getb_dom d (wrap (e0 + 1))) as Hr1. destruct (getb d (wrap (e0 + 1))) as [b|] eqn:Gb.
  2:{ intros Hbig. unfold BIG in *. rewrite wrap_small in Hr1 by lia. lia. }
  rewrite getb_app_lt, Gb by lia.
  rewrite (wrap_nonneg_small (e0 + 1)) in Hr1 by lia.
  destruct (negb (b =? LF)%N); [reflexivity|].
  rewrite slice_app_le by lia. destruct (slice d i3 e0) as [arg|] eqn:Sl; [|intros _; reflexivity].
  apply slice_range in Sl. apply K; lia.
Qed.

(* i < 0 is not excluded: nothing bounds len d, so the position behind a bulk, wrap (e0 + 2), may have wrapped;
   one more round then panics on d and on d ++ e alike (as does rest_ext's slice) *)
Lemma resp_args_ext e : forall fuel fuel' d count j i racc, (fuel <= fuel')%nat ->
  i <= len d -> (i < 0 -> (1 <= fuel)%nat) -> (0 <= i -> len d - i < Z.of_nat fuel) ->
  ext_good e d (resp_args fuel d (len d) count j i racc) (resp_args fuel' (d ++ e) (len (d ++ e)) count j i racc).
Proof.
  induction fuel as [|fuel IH]; intros fuel' d count j i racc Hf Hi Hneg Hpos; [lia|].
  destruct fuel' as [|fuel']; [lia|]. cbn [resp_args].
  pose proof (len_nonneg e) as Hle. pose proof (len_app d e) as Hlen.
  destruct (Z.eqb_spec i (len d)) as [|Hne]; [exact I|].
  destruct (Z.eqb_spec i (len (d ++ e))) as [|_]; [lia|]. rewrite getb_app_lt by lia.
  pose proof (getb_dom d i) as Hir. destruct (getb d i) as [c|]; [|intros _; reflexivity].
  specialize (Hpos ltac:(lia)). destruct (negb (c =? 36)%N); [reflexivity|].
  pose proof (read_len_ext d e i (i + 1)) as RL.
  destruct (read_len d i (i + 1)) as [| | |n i2]; [exact I|rewrite RL; reflexivity|intros _; rewrite RL; reflexivity|].
  destruct RL as (-> & Hi2 & Hi2' & Hn).
  destruct (count <=? 0); [reflexivity|].
  destruct (Z.leb_spec (wrap (n + 2)) (len d - (i2 + 1))) as [L|L]; [|exact I].
  destruct (Z.leb_spec (wrap (n + 2)) (len (d ++ e) - (i2 + 1))) as [_|L2]; [|lia].
  replace (wrap (i2 + 1 + wrap (n + 2))) with (wrap (wrap (i2 + 1 + n) + 2))
    by (rewrite wrap_add_wrap, (Z.add_comm (wrap _)), wrap_add_wrap; f_equal; lia).
  pose proof (wrap_range (i2 + 1 + n)) as He0.
  apply (crlf_at_ext d e (i2 + 1) (wrap (i2 + 1 + n)) EBulk); [exact He0| |].
  - intros Hbig. apply bulk_end_inside; try assumption; lia.
  - intros arg Hi3 Hr. pose proof (wrap_nonneg_small (wrap (i2 + 1 + n) + 2) ltac:(lia)).
    destruct (j =? count - 1); [apply rest_ext; lia|apply IH; lia].
Qed.

Lemma read_resp_ext d e : ext_good e d (read_resp d) (read_resp (d ++ e)).
Proof.
  unfold read_resp. pose proof (read_len_ext d e 1 1) as RL.
  destruct (read_len d 1 1) as [| | |count i]; [exact I|rewrite RL; reflexivity|intros _; rewrite RL; reflexivity|].
  destruct RL as (-> & Hi & Hil & _).
  destruct (count <? 0); [reflexivity|].
  destruct (count =? 0).
  - apply rest_ext; lia.
  - pose proof (len_spec d). apply resp_args_ext; rewrite ?app_length; lia.
Qed.

Lemma read_native_ext d e : ext_good e d (read_native d) (read_native (d ++ e)).
Proof.
  unfold read_native. pose proof (len_nonneg e) as Hle. pose proof (len_app d e) as Hlen.
  destruct (find_byte 32 d 1) as [i|] eqn:E; [|exact I]. rewrite (find_byte_app_l _ _ e _ _ E).
  apply find_byte_range in E.
  rewrite slice_app_le by lia. destruct (slice d 1 i) as [ds|]; [|intros _; reflexivity].
  destruct (parse_int ds) as [n|]; [|reflexivity].
  destruct (Z.ltb_spec n 0); [reflexivity|].
  destruct (Z.leb_spec (wrap (wrap (i + 1 + n) + 2)) (len d)) as [L|L]; [|exact I].
  destruct (Z.leb_spec (wrap (wrap (i + 1 + n) + 2)) (len (d ++ e))) as [_|L2]; [|lia].
  pose proof (wrap_range (i + 1 + n)) as He0.
  apply (crlf_at_ext d e (i + 1) (wrap (i + 1 + n)) EMessage); [exact He0| |].
  - intros Hbig Hr. unfold BIG in *. rewrite wrap_small in L by lia. lia.
  - intros line Hi Hr.
    pose proof (native_tok_no_fuel (S (length line)) line [] ltac:(lia)) as Hnf.
    destruct (native_tok (S (length line)) line []); [|intros _; reflexivity|congruence].
    pose proof (wrap_nonneg_small (wrap (i + 1 + n) + 2) ltac:(lia)). apply rest_ext; lia.
Qed.

Lemma read_telnet_ext d e : read_telnet d <> Panic /\ ext_good e d (read_telnet d) (read_telnet (d ++ e)).
Proof.
  unfold read_telnet.
  destruct (find_byte LF d 0) as [i|] eqn:E; [|split; [discriminate|exact I]]. rewrite (find_byte_app_l _ _ e _ _ E).
  apply find_byte_range in E. rewrite getb_app_lt by lia.
  set (cr := match getb d (i - 1) with Some c => (0 <? i) && (c =? CR)%N | None => false end).
  assert (Hk : 0 <= (if cr then i - 1 else i) <= i).
  { unfold cr. destruct (getb d (i - 1)); [|lia]. destruct (Z.ltb_spec 0 i); [|cbn; lia]. destruct (_ =? _)%N; cbn; lia. }
  destruct (slice_some d 0 (if cr then i - 1 else i) ltac:(lia) ltac:(lia)) as [line Sl]. rewrite Sl, (slice_app_l _ e _ _ _ Sl).
  destruct (tel_scan line line true false 0%N false [] []); [|split; [discriminate|reflexivity]].
  split; [destruct (slice_from_some d (i + 1) ltac:(lia)) as [rest ->]; discriminate|apply rest_ext; lia].
Qed.

Lemma read_telnet_no_panic d : read_telnet d <> Panic.
Proof. exact (proj1 (read_telnet_ext d [])). Qed.

Theorem read_next_app d e : ext_good e d (read_next d) (read_next (d ++ e)).
Proof.
  destruct d as [|c d]; [exact I|].
  change ((c :: d) ++ e) with (c :: (d ++ e)). unfold read_next.
  destruct (c =? 42)%N; [apply (read_resp_ext (c :: d) e)|].
  destruct (c =? 36)%N; [apply (read_native_ext (c :: d) e)|apply (read_telnet_ext (c :: d) e)].
Qed.

Lemma read_next_good p : match read_next p with Complete _ _ rest => len rest < len p | Fuel => False | _ => True end.
Proof. pose proof (read_next_app p []) as H. destruct (read_next p); cbn in *; tauto. Qed.

Definition hdr (c : N) (n : N) : bytes := c :: dec n ++ [CR; LF].

Lemma bulk_eq a : bulk a = hdr 36 (N.of_nat (length a)) ++ a ++ [CR; LF].
Proof. unfold bulk, hdr. cbn [app]. rewrite <- app_assoc. reflexivity. Qed.
Lemma enc_eq args : enc args = hdr 42 (N.of_nat (length args)) ++ bulks args.
Proof. unfold enc, hdr. cbn [app]. rewrite <- app_assoc. reflexivity. Qed.
Lemma len_hdr c n : len (hdr c n) = len (dec n) + 3.
Proof. unfold hdr. autorewrite with len. lia. Qed.
#[export] Hint Rewrite len_hdr : len.
Lemma len_bulk a : len (bulk a) = len (dec (N.of_nat (length a))) + len a + 5.
Proof. rewrite bulk_eq. autorewrite with len. lia. Qed.
Lemma of_nat_len (A : Type) (l : list A) : Z.of_N (N.of_nat (length l)) = Z.of_nat (length l).
Proof. lia. Qed.
Lemma bulks_cons a rem : bulks (a :: rem) = bulk a ++ bulks rem.
Proof. reflexivity. Qed.
Lemma bulk_nonempty a : bulk a <> [].
Proof. unfold bulk. discriminate. Qed.
Lemma bulks_nil_inv rem : bulks rem = [] -> rem = [].
Proof. destruct rem as [|a rem]; [reflexivity|]. rewrite bulks_cons. unfold bulk. discriminate. Qed.
Lemma bulks_length rem : (length rem <= length (bulks rem))%nat.
Proof. induction rem as [|a rem IH]; [cbn; lia|]. rewrite bulks_cons, app_length. unfold bulk. cbn [length]. lia. Qed.

(* The buffers below are concatenations that every accessor wants associated differently. The buffer is
   kept a variable p with one equation E : p = ...; `side E` proves the side conditions of the *_at
   lemmas: p is the stated concatenation (re-association), an index is the stated length. *)
Ltac side E :=
  first [ rewrite E; unfold hdr; repeat first [rewrite <- app_assoc | progress cbn [app]]; reflexivity
        | autorewrite with len; lia ].

Lemma read_len_hdr p pre skip n rest from s :
  p = pre ++ skip ++ dec n ++ CR :: LF :: rest -> len pre = from -> len pre + len skip = s ->
  Forall (fun x => x <> LF) skip -> Z.of_N n < 9223372036854775808 ->
  read_len p from s = LOk (Z.of_N n) (s + len (dec n) + 1).
Proof.
  intros E <- <- Hs Hn. unfold read_len.
  rewrite (find_byte_at LF p pre (skip ++ dec n ++ [CR]) rest (len pre)); [|side E|reflexivity|].
  2:{ rewrite !Forall_app. repeat split; [exact Hs| |repeat constructor; discriminate].
      apply dec_no. unfold digit_ok, LF. lia. }
  rewrite (getb_at p (pre ++ skip ++ dec n) CR (LF :: rest)) by side E. cbn [negb N.eqb CR Pos.eqb].
  rewrite (slice_at p (pre ++ skip) (dec n) (CR :: LF :: rest)) by side E.
  rewrite parse_int_dec by exact Hn. f_equal. autorewrite with len. lia.
Qed.

Lemma read_len_cut pre0 tail s : Forall (fun x => x <> LF) tail ->
  read_len (pre0 ++ tail) (len pre0) s = LNone.
Proof. intros H. unfold read_len. rewrite find_byte_none by assumption. reflexivity. Qed.

Lemma prefix_cases (A : Type) (q s x w : list A) : q ++ s = x ++ w ->
  (exists l, q = x ++ l /\ l ++ s = w) \/ (exists l, l <> [] /\ q ++ l = x).
Proof.
  intros E. apply app_eq_app in E. destruct E as [l [[-> ->]|[-> ->]]]; [left; eauto|].
  destruct l as [|y l]; [left; exists []; rewrite !app_nil_r; auto|right; exists (y :: l); split; [discriminate|reflexivity]].
Qed.

Lemma resp_args_bulk fuel pre a rest count j racc :
  0 < count -> len (pre ++ bulk a) < BIG ->
  let p := pre ++ bulk a ++ rest in
  resp_args (S fuel) p (len p) count j (len pre) racc =
  if j =? count - 1 then Complete (rev (a :: racc)) Redis rest
  else resp_args fuel p (len p) count (j + 1) (len (pre ++ bulk a)) (a :: racc).
Proof.
  intros Hc Hbig p. set (n := N.of_nat (length a)).
  assert (Hn : Z.of_N n = len a) by (unfold n; rewrite len_spec; lia).
  assert (E : p = pre ++ hdr 36 n ++ a ++ CR :: LF :: rest) by (unfold p; rewrite bulk_eq, <- !app_assoc; reflexivity).
  assert (Lp : len p = len pre + (len (dec n) + 3) + len a + 2 + len rest) by (rewrite E; autorewrite with len; lia).
  assert (Lb : len (pre ++ bulk a) = len pre + (len (dec n) + 3) + len a + 2) by (rewrite len_app, len_bulk; fold n; lia).
  unfold BIG in Hbig. rewrite Lb in *.
  pose proof (len_nonneg pre). pose proof (len_nonneg (dec n)). pose proof (len_nonneg a). pose proof (len_nonneg rest).
  clearbody p. cbn [resp_args].
  destruct (Z.eqb_spec (len pre) (len p)); [lia|].
  rewrite (getb_at p pre 36%N ((dec n ++ [CR; LF]) ++ a ++ CR :: LF :: rest)) by side E. cbn [negb N.eqb Pos.eqb].
  rewrite (read_len_hdr p pre [36%N] n (a ++ CR :: LF :: rest) (len pre) (len pre + 1)); [|side E|reflexivity|reflexivity|repeat constructor; discriminate|lia].
  destruct (Z.leb_spec count 0); [lia|].
  rewrite Hn, !wrap_small by lia.
  destruct (Z.leb_spec (len a + 2) (len p - (len pre + 1 + len (dec n) + 1 + 1))); [|lia].
  rewrite (getb_at p (pre ++ hdr 36 n ++ a) CR (LF :: rest)) by side E. cbn [negb N.eqb CR Pos.eqb].
  rewrite (getb_at p (pre ++ hdr 36 n ++ a ++ [CR]) LF rest) by side E. cbn [negb N.eqb LF Pos.eqb].
  rewrite (slice_at p (pre ++ hdr 36 n) a (CR :: LF :: rest)) by side E.
  replace (len pre + 1 + len (dec n) + 1 + 1 + (len a + 2)) with (len pre + (len (dec n) + 3) + len a + 2) by lia.
  destruct (j =? count - 1); [|reflexivity].
  rewrite (slice_from_at p (pre ++ bulk a) rest); [reflexivity|unfold n in E; rewrite E, bulk_eq, <- !app_assoc; reflexivity|exact Lb].
Qed.

Lemma resp_args_enc : forall rem pre racc count j fuel r,
  rem <> [] -> count - j = Z.of_nat (length rem) -> 0 <= j -> (length rem <= fuel)%nat ->
  len (pre ++ bulks rem) < BIG ->
  resp_args fuel (pre ++ bulks rem ++ r) (len (pre ++ bulks rem ++ r)) count j (len pre) racc
  = Complete (rev racc ++ rem) Redis r.
Proof.
  induction rem as [|a rem IH]; intros pre racc count j fuel r Hne Hc Hj Hf Hbig; [congruence|].
  destruct fuel as [|fuel]; [cbn in Hf; lia|]. cbn [length] in Hc, Hf.
  rewrite bulks_cons, <- app_assoc in *. rewrite app_assoc in Hbig.
  pose proof (len_nonneg (bulks rem)) as Hb0.
  rewrite resp_args_bulk by (rewrite len_app in Hbig; lia).
  destruct (Z.eqb_spec j (count - 1)) as [Ej|Ej].
  - destruct rem; [|cbn [length] in Hc; lia]. cbn [rev bulks flat_map app]. reflexivity.
  - rewrite (app_assoc pre). rewrite IH; try lia.
    + cbn [rev]. rewrite <- app_assoc. reflexivity.
    + intros ->. cbn [length] in Hc. lia.
Qed.

Lemma read_next_star n t : 0 < Z.of_N n < 9223372036854775808 ->
  let p := hdr 42 n ++ t in
  read_next p = resp_args (S (length p)) p (len p) (Z.of_N n) 0 (len (hdr 42 n)) [].
Proof.
  intros Hn p. assert (E : p = hdr 42 n ++ t) by reflexivity.
  replace (read_next p) with (read_resp p) by reflexivity. clearbody p. unfold read_resp.
  rewrite (read_len_hdr p [42%N] [] n t 1 1); [|side E|reflexivity|reflexivity|constructor|lia].
  destruct (Z.ltb_spec (Z.of_N n) 0); [lia|]. destruct (Z.eqb_spec (Z.of_N n) 0); [lia|].
  f_equal. autorewrite with len. lia.
Qed.

(* no argument at all is `*0\r\n`, which read_resp answers before its argument loop, by evaluation (dropZ
   matches on r before it looks at the index, hence the destruct) *)
Lemma read_next_enc args r : len (enc args) < BIG -> read_next (enc args ++ r) = Complete args Redis r.
Proof.
  intros Hbig. assert (Hne : args = [] \/ args <> []) by (destruct args; [left; reflexivity|right; discriminate]).
  destruct Hne as [->|Hne]; [destruct r; reflexivity|].
  rewrite enc_eq in *. pose proof (bulks_length args).
  assert (Hn : 0 < Z.of_N (N.of_nat (length args)) < 9223372036854775808).
  { unfold BIG in Hbig. autorewrite with len in Hbig.
    pose proof (len_spec (bulks args)). pose proof (len_nonneg (dec (N.of_nat (length args)))).
    destruct args; [congruence|]. cbn [length] in *. lia. }
  rewrite <- app_assoc, read_next_star by exact Hn.
  apply resp_args_enc; try assumption; try lia. rewrite !app_length. lia.
Qed.

(* A strict prefix q of an encoded command reads as Incomplete: any other outcome would stay when the missing
   bytes s arrive (read_next_app), but q ++ s reads as the complete command with nothing left over. *)
Lemma read_next_enc_cut args q s : len (enc args) < BIG -> q ++ s = enc args -> s <> [] -> read_next q = Incomplete.
Proof.
  intros Hbig E Hs. pose proof (read_next_app q s) as H.
  rewrite E, <- (app_nil_r (enc args)), (read_next_enc args [] Hbig) in H.
  destruct (read_next q) as [a k rest| | | |]; cbn [ext_good] in H; try congruence.
  - destruct H as [_ H]. injection H as _ _ H. symmetry in H. apply app_eq_nil in H. tauto.
  - rewrite E in H. specialize (H Hbig). discriminate.
  - contradiction.
Qed.
