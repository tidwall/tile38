(* Lemmas about the pattern-vs-literal decision of a ROAM fence (Model.Roam.is_glob = glob.IsGlob,
   roam_parse, id_match): a pattern without '[', '*', '?', '\' matches exactly itself, so the
   literal comparison fenceMatchNearbys uses when IsGlob is false agrees with glob.Match; hence
   id_match of a parsed ROAM clause is glob matching for every id pattern (up to the two stated
   hypotheses).  The variants of IsGlob that forget one of the three bytes are refuted. *)
From Coq Require Import List NArith ZArith Bool Arith Lia.
From T38 Require Import Base.Bytes Base.Utf8 Model.Glob Model.Roam Proofs.GlobProofs Gen.GlobMeta.
From Coq Require Import ZifyN ZifyNat ZifyBool.
Import ListNotations.
Open Scope N_scope.

Definition no_meta (l : bytes) : Prop := forallb (fun c => negb (is_meta c)) l = true.

Lemma scan_body_nometa l : no_meta l -> scan_body l false = (l, []).
Proof. intros H. pose proof (scan_body_lit l [] H) as E. cbn in E. now rewrite !app_nil_r in E. Qed.

(* what matchChunk does on a chunk of plain bytes: strip it from the front of the name *)
Lemma match_chunk_nometa l : forall fuel s,
  no_meta l -> (length l < fuel)%nat -> match_chunk fuel l s = lit_res l s.
Proof.
  intros fuel s Hl Hf. pose proof (match_chunk_lit l fuel [] s Hl ltac:(lia)) as E. rewrite app_nil_r in E.
  rewrite E. destruct (lit_res l s); try reflexivity. destruct (fuel - length l)%nat eqn:F; [lia | reflexivity].
Qed.

(* both sides say lit_res p s = MOk [] *)
Theorem glob_match_literal p s : no_meta p -> (glob_match p s = WTrue <-> p = s).
Proof.
  intros Hp. assert (E : p = s <-> lit_res p s = MOk []) by (rewrite lit_res_ok, app_nil_r; split; congruence).
  rewrite E.
  destruct p as [|x l]; [destruct s; cbn; split; congruence|].
  assert (Hx : x <> STAR).
  { pose proof Hp as Hx. apply andb_true_iff in Hx as [Hx _]. apply negb_true_iff, is_meta_false in Hx. tauto. }
  unfold glob_match. cbn [wmatch].
  rewrite (strip_stars_nostar x l Hx), (scan_body_nometa _ Hp). cbn [andb].
  unfold match_chunk0. rewrite (match_chunk_nometa (x :: l) _ s Hp) by lia.
  destruct (lit_res (x :: l) s) as [[|c t]| | |]; cbn; split; congruence.
Qed.

(* IsGlob, closed form: some byte of the case list occurs and the probe does not fail *)
Lemma is_glob_loop_spec metas whole p :
  is_glob_loop metas whole p =
  existsb (fun c => existsb (N.eqb c) metas) p && match glob_match whole WHATEVER with WBad => false | _ => true end.
Proof.
  induction p as [|a p IH]; cbn [is_glob_loop existsb]; [reflexivity|].
  destruct (existsb (N.eqb a) metas); [reflexivity | exact IH].
Qed.

Lemma is_glob_loop_true metas whole p :
  is_glob_loop metas whole p = true ->
  existsb (fun c => existsb (N.eqb c) metas) p = true /\ glob_match whole WHATEVER <> WBad.
Proof.
  rewrite is_glob_loop_spec. intros H. apply andb_true_iff in H as [Hm Hp].
  split; [exact Hm|]. intros Hb. rewrite Hb in Hp. discriminate.
Qed.

(* the pattern passes IsGlob's probe  Match(pattern, "whatever")  without ErrBadPattern *)
Definition glob_ok (p : bytes) : Prop := glob_match p WHATEVER <> WBad.
(* a '[', '*' or '?' occurs *)
Definition has_wild (p : bytes) : bool := existsb is_glob_meta p.

(* IsGlob's case list, as a list and as a test; Parse's adds the escape *)
Lemma isglob_metas_spec a : existsb (N.eqb a) ISGLOB_METAS = is_glob_meta a.
Proof. unfold ISGLOB_METAS, is_glob_meta. cbn [existsb]. rewrite orb_false_r, orb_assoc. reflexivity. Qed.

Lemma is_glob_spec p :
  is_glob p = has_wild p && match glob_match p WHATEVER with WBad => false | _ => true end.
Proof.
  unfold is_glob, is_glob_with, has_wild. rewrite is_glob_loop_spec. f_equal.
  induction p as [|a p IH]; cbn [existsb]; [reflexivity|]. rewrite isglob_metas_spec, IH. reflexivity.
Qed.

Lemma is_glob_false_no_wild p : is_glob p = false -> glob_ok p -> has_wild p = false.
Proof.
  rewrite is_glob_spec. unfold glob_ok. intros H Hok. destruct (has_wild p); [|reflexivity].
  destruct (glob_match p WHATEVER); (discriminate H || congruence).
Qed.

Lemma no_wild_no_bsl_no_meta p : has_wild p = false -> ~ In BSL p -> no_meta p.
Proof.
  unfold has_wild, no_meta. induction p as [|a p IH]; cbn [existsb forallb]; intros H Hb; [reflexivity|].
  apply orb_false_iff in H as [Ha Hp].
  rewrite (IH Hp) by (intros Hi; apply Hb; right; exact Hi).
  assert (Hne : a <> BSL) by (intros ->; apply Hb; left; reflexivity).
  change (is_meta a) with (is_glob_meta a || (a =? BSL)).
  rewrite Ha, (proj2 (N.eqb_neq a BSL) Hne). reflexivity.
Qed.

(* the literal comparison is justified exactly when IsGlob is false: for a pattern that passes the
   probe and has no escape, IsGlob p = false makes glob.Match p s the same as p = s *)
Theorem roam_shortcut_exact p :
  is_glob p = false -> glob_ok p -> ~ In BSL p ->
  forall s, glob_match p s = WTrue <-> p = s.
Proof.
  intros H Hok Hb s. apply glob_match_literal.
  apply no_wild_no_bsl_no_meta; [exact (is_glob_false_no_wild p H Hok) | exact Hb].
Qed.

Theorem is_glob_plain p : has_wild p = false -> is_glob p = false.
Proof. rewrite is_glob_spec. intros ->. reflexivity. Qed.

(* the ROAM clause as parsed by search.go matches ids by glob.Match, for every id pattern that
   passes the probe and in which an escape only occurs next to a wildcard *)
Theorem roam_idmatch_all_patterns p meters nodwell detnil s :
  glob_ok p -> (In BSL p -> has_wild p = true) ->
  (id_match (roam_parse p meters nodwell detnil) s = true <-> glob_match p s = WTrue).
Proof.
  intros Hok Hesc. unfold id_match, roam_parse. cbn [rs_pattern rs_id].
  destruct (is_glob p) eqn:E.
  - destruct (glob_match p s); split; intros H; try discriminate; reflexivity.
  - pose proof (is_glob_false_no_wild p E Hok) as Hw.
    assert (Hb : ~ In BSL p) by (intros Hi; rewrite (Hesc Hi) in Hw; discriminate).
    rewrite (roam_shortcut_exact p E Hok Hb s). apply bytes_eqb_eq.
Qed.

Definition b_car_q : bytes := [99; 97; 114; 63].      (* car? *)
Definition b_car_s : bytes := [99; 97; 114; 42].      (* car* *)
Definition b_car_c : bytes := [99; 97; 114; 91; 48; 45; 57; 93].   (* car[0-9] *)
Definition b_car1 : bytes := [99; 97; 114; 49].       (* car1 *)
Definition b_car_e1 : bytes := [99; 97; 114; 92; 49]. (* car\1 *)

Ltac no_bsl := let H := fresh in intros H; cbn in H; unfold BSL in H;
  repeat (destruct H as [H|H]; [discriminate H|]); exact H.
Ltac probe_ok := let H := fresh in unfold glob_ok; intros H; vm_compute in H; discriminate H.

Definition shortcut_wrong (metas : list N) : Prop :=
  exists p s, glob_ok p /\ ~ In BSL p /\ is_glob_with metas p = false /\ glob_match p s = WTrue /\ p <> s.

Theorem isglob_without_qm_refuted : shortcut_wrong [LBR; STAR].
Proof. exists b_car_q, b_car1. repeat split; try (vm_compute; reflexivity); [probe_ok | no_bsl | discriminate]. Qed.

Theorem isglob_without_star_refuted : shortcut_wrong [LBR; QM].
Proof. exists b_car_s, b_car1. repeat split; try (vm_compute; reflexivity); [probe_ok | no_bsl | discriminate]. Qed.

Theorem isglob_without_bracket_refuted : shortcut_wrong [STAR; QM].
Proof. exists b_car_c, b_car1. repeat split; try (vm_compute; reflexivity); [probe_ok | no_bsl | discriminate]. Qed.

(* the hypothesis on escapes cannot be dropped: a pattern whose only special byte is an escape is
   compared literally (IsGlob's case list has no '\', unlike Parse's) *)
Theorem roam_escape_only_is_literal :
  exists p s, glob_ok p /\ glob_match p s = WTrue /\
              id_match (roam_parse p 0%Z false true) s = false /\
              id_match (roam_parse p 0%Z false true) p = true.
Proof. exists b_car_e1, b_car1. repeat split; try (vm_compute; reflexivity). probe_ok. Qed.

(* tie to the source: what t38x read from glob.go / search.go / fence.go *)

Theorem isglob_source_tied :
  (forall c, In c isglob_case_bytes <-> In c ISGLOB_METAS) /\
  isglob_probe = WHATEVER /\ roam_pattern_is_isglob = true /\ roam_idmatch_shape = true.
Proof.
  split; [|repeat split; reflexivity].
  intros c. unfold isglob_case_bytes, ISGLOB_METAS, LBR, STAR, QM. cbn [In]. intuition.
Qed.
