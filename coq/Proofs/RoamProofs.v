(* Proofs/RoamProofs.v — lemmas about Model/Roam.v (C20). *)
From Coq Require Import List NArith ZArith Bool Arith Lia Permutation Sorting.Sorted.
From T38 Require Import Base.Bytes Base.ListFacts Base.InsSort Model.Glob Model.Roam.
Import ListNotations.
Local Open Scope nat_scope.

Arguments o_id {G}. Arguments o_geo {G}. Arguments Build_robj {G}.
Arguments m_id {G}. Arguments m_geo {G}. Arguments m_meters {G}. Arguments Build_rmatch {G}.
Arguments RoamDone {G}. Arguments RoamFuel {G}.

Lemma nth_error_last {A} (l : list A) z : nth_error (l ++ [z]) (length (l ++ [z]) - 1) = Some z.
Proof. rewrite app_length, Nat.add_sub, nth_error_app2, Nat.sub_diag by lia. reflexivity. Qed.

Lemma set_nth_app {A} (l1 l2 : list A) a z : set_nth (length l1) z (l1 ++ a :: l2) = l1 ++ z :: l2.
Proof. unfold set_nth. induction l1 as [|x l1 IH]; [reflexivity|]. cbn [length app firstn skipn]. f_equal. exact IH. Qed.

Lemma swap_remove_mid {A} (l1 l2 : list A) a :
  exists r, swap_remove (length l1) (l1 ++ a :: l2) = l1 ++ r /\ Permutation l2 r.
Proof.
  assert (E : forall z, nth_error (l1 ++ a :: l2) (length (l1 ++ a :: l2) - 1) = Some z ->
                        swap_remove (length l1) (l1 ++ a :: l2) = removelast (l1 ++ z :: l2)).
  { intros z Hz. unfold swap_remove. now rewrite Hz, set_nth_app. }
  destruct l2 as [|z l2 _] using rev_ind.
  - exists []. rewrite (E a), removelast_last by apply nth_error_last. now rewrite app_nil_r.
  - exists (z :: l2). rewrite (E z) by (rewrite app_comm_cons, app_assoc; apply nth_error_last).
    split; [|symmetry; apply Permutation_cons_append].
    now rewrite app_comm_cons, app_assoc, removelast_last.
Qed.

Lemma swap_remove_perm {A} (l : list A) i a :
  nth_error l i = Some a -> Permutation l (a :: swap_remove i l).
Proof.
  intro H. destruct (nth_error_split l i H) as (l1 & l2 & -> & <-).
  destruct (swap_remove_mid l1 l2 a) as (r & -> & <-). symmetry. apply Permutation_middle.
Qed.

Lemma scan_ids_spec ids mid scan s i :
  In (s, i) (scan_ids ids mid scan) <->
  (s = true /\ i = mid /\ In mid ids) \/
  (s = false /\ In i ids /\ i <> mid /\ glob_match (mid ++ scan) i = WTrue).
Proof.
  unfold scan_ids. rewrite in_app_iff, in_map_iff.
  pose proof (existsb_eqb_In bytes_eqb bytes_eqb_eq mid ids) as Hex.
  assert (Hne : forall j, negb (bytes_eqb j mid) = true <-> j <> mid).
  { intro j. now rewrite negb_true_iff, <- not_true_iff_false, bytes_eqb_eq. }
  split; (intros [H|H]; [left|right]).
  - destruct (existsb (bytes_eqb mid) ids); [|destruct H]. destruct H as [[= <- <-]|[]]. now rewrite <- Hex.
  - destruct H as (j & [= <- <-] & Hj). apply filter_In in Hj as [Hin Hb]. apply andb_true_iff in Hb as [Hj Hg].
    apply Hne in Hj. repeat split; try assumption. destruct (glob_match (mid ++ scan) j); congruence.
  - destruct H as (-> & -> & Hin). apply Hex in Hin. rewrite Hin. now left.
  - destruct H as (-> & Hin & Hi & Hg). exists i. split; [reflexivity|]. apply filter_In. split; [assumption|].
    apply Hne in Hi. now rewrite Hi, Hg.
Qed.

Section RoamProofs.
  Variable G : Type.
  Variable dist : G -> G -> Z.
  Variable in_rect : G -> Z -> G -> bool.

  Notation robj := (robj G).
  Notation rmatch := (rmatch G).
  Notation visit := (visit G dist).
  Notation nearbys := (nearbys G dist in_rect).
  Notation find_id := (find_id G).
  Notation dwell_loop := (dwell_loop G).
  Notation roam_less := (roam_less G).
  Notation sort_matches := (sort_matches G).
  Notation remeasure := (remeasure G dist).
  Notation fence_match_roam := (fence_match_roam G dist in_rect).

  Definition candidate (sw : roamsw) (ob o : robj) : Prop :=
    o_id o <> o_id ob /\ (dist (o_geo ob) (o_geo o) <= rs_meters sw)%Z /\ id_match sw (o_id o) = true.

  Definition candb (sw : roamsw) (ob o : robj) : bool :=
    negb (bytes_eqb (o_id o) (o_id ob)) && (dist (o_geo ob) (o_geo o) <=? rs_meters sw)%Z && id_match sw (o_id o).

  Lemma candb_spec sw ob o : candb sw ob o = true <-> candidate sw ob o.
  Proof.
    unfold candb, candidate.
    now rewrite !andb_true_iff, negb_true_iff, <- not_true_iff_false, bytes_eqb_eq, Z.leb_le, and_assoc.
  Qed.

  Definition match_of (ob o : robj) : rmatch :=
    {| m_id := o_id o; m_geo := o_geo o; m_meters := dist (o_geo ob) (o_geo o) |}.

  Lemma visit_eq sw ob acc o :
    visit sw ob acc o = acc ++ (if candb sw ob o then [match_of ob o] else []).
  Proof.
    unfold Roam.visit, candb, match_of. rewrite Z.gtb_ltb, Z.ltb_antisym.
    destruct (bytes_eqb (o_id o) (o_id ob)), (dist (o_geo ob) (o_geo o) <=? rs_meters sw)%Z, (id_match sw (o_id o));
      cbn [negb andb]; now rewrite ?app_nil_r.
  Qed.

  Lemma fold_visit sw ob l : forall acc,
    fold_left (visit sw ob) l acc = acc ++ map (match_of ob) (filter (candb sw ob) l).
  Proof.
    induction l as [|o l IH]; intro acc; cbn [fold_left filter]; [now rewrite app_nil_r|].
    rewrite IH, visit_eq. destruct (candb sw ob o); cbn [map]; now rewrite <- app_assoc.
  Qed.

  (* the visited objects are those of the search rectangle; the reported ones are the candidates among them *)
  Lemma nearbys_eq col sw ob :
    nearbys col sw (Some ob) =
    map (match_of ob) (filter (candb sw ob) (filter (fun o => in_rect (o_geo ob) (rs_meters sw) (o_geo o)) col)).
  Proof. apply fold_visit. Qed.

  (* fenceMatchNearbys appends o: col.Intersects reaches it and the iterator takes none of its three skips *)
  Definition visited (sw : roamsw) (ob o : robj) : Prop :=
    in_rect (o_geo ob) (rs_meters sw) (o_geo o) = true /\ candidate sw ob o.

  Lemma nearbys_In col sw ob m :
    In m (nearbys col sw (Some ob)) <-> exists o, In o col /\ visited sw ob o /\ m = match_of ob o.
  Proof.
    rewrite nearbys_eq, in_map_iff. unfold visited. split.
    - intros (o & <- & Ho). rewrite !filter_In, candb_spec in Ho. exists o. tauto.
    - intros (o & Ho & Hv & ->). exists o. rewrite !filter_In, candb_spec. tauto.
  Qed.

  Lemma nearbys_NoDup col sw obj : NoDup (map o_id col) -> NoDup (map m_id (nearbys col sw obj)).
  Proof.
    intro H. destruct obj as [ob|]; [|constructor].
    rewrite nearbys_eq, map_map. cbn [match_of m_id]. now do 2 apply NoDup_map_filter.
  Qed.

  Lemma find_id_spec i l : forall j0,
    match find_id i l j0 with
    | Some j => exists k m, j = (j0 + k)%nat /\ nth_error l k = Some m /\ m_id m = i
    | None => ~ In i (map m_id l)
    end.
  Proof.
    induction l as [|m l IH]; intro j0; cbn [Roam.find_id]; [intros []|].
    destruct (bytes_eqb_spec (m_id m) i) as [He|He].
    - exists 0%nat, m. auto.
    - specialize (IH (S j0)). destruct (find_id i l (S j0)) as [j|].
      + destruct IH as (k & m' & -> & Hk). exists (S k), m'. now rewrite Nat.add_succ_r.
      + intros [E|Hin]; [exact (He E) | auto].
  Qed.

  (* taking a out of one list and b, of the same id, out of the other changes nothing for the rest *)
  Lemma drop_same_id (a b : rmatch) A B x :
    m_id a = m_id b -> ~ In (m_id a) (map m_id A) ->
    (In x A /\ ~ In (m_id x) (map m_id B) <-> In x (a :: A) /\ ~ In (m_id x) (map m_id (b :: B))).
  Proof.
    intros E Ha. cbn [In map]. split.
    - intros [Hx Hn]. split; [now right|]. intros [Ex|?]; [|tauto]. apply Ha. rewrite E, Ex. now apply in_map.
    - intros [[<-|Hx] Hn]; [symmetry in E|]; tauto.
  Qed.

  (* The loop of fenceMatchRoam on any two lists with duplicate-free ids, the old one split at the position
     the loop stands at: none of the entries before it (done) has its id among the new ones.  It ends within
     its fuel.  The old list keeps the entries whose id is not among the new ones; the new list is returned as
     it is, except under NODWELL, where it keeps the entries whose id is not among the old ones.  Only
     membership is stated: sortRoamMatches erases the order the swap-removes leave behind. *)
  Lemma loop_spec nodwell : forall fuel done rest newN,
    NoDup (map m_id (done ++ rest)) -> NoDup (map m_id newN) ->
    (forall x, In x done -> ~ In (m_id x) (map m_id newN)) ->
    (length rest < fuel)%nat ->
    exists far near, dwell_loop fuel nodwell (length done) (done ++ rest) newN = Some (far, near) /\
      (forall x, In x far <-> In x (done ++ rest) /\ ~ In (m_id x) (map m_id newN)) /\
      (if nodwell then forall y, In y near <-> In y newN /\ ~ In (m_id y) (map m_id (done ++ rest)) else near = newN) /\
      NoDup (map m_id far) /\ NoDup (map m_id near).
  Proof.
    induction fuel as [|fuel IH]; intros done rest newN Ho Hn Hdone Hf; [lia|].
    cbn [Roam.dwell_loop]. destruct rest as [|oi rest].
    { (* past the end: every old entry has been compared *)
      rewrite app_nil_r in *. rewrite (proj2 (nth_error_None done (length done)) (le_n _)).
      exists done, newN. split; [reflexivity|]. split; [|split; [|split; assumption]].
      - intro x. split; [intro Hx; split; [exact Hx|exact (Hdone x Hx)]|tauto].
      - destruct nodwell; [|reflexivity]. intro y. split; [intro Hy; split; [exact Hy|]|tauto].
        intro Hin. apply in_map_iff in Hin as (x & E & Hx). apply (Hdone x Hx). rewrite E. now apply in_map. }
    rewrite nth_error_app2, Nat.sub_diag by apply le_n. cbn [nth_error length] in *.
    pose proof (find_id_spec (m_id oi) newN 0) as Hfind.
    destruct (find_id (m_id oi) newN 0) as [j|].
    - (* oi dwells: it leaves the old list, and under NODWELL its new entry nj leaves the new list *)
      destruct Hfind as (k & nj & -> & Hnj & Hid). cbn [Nat.add] in *.
      destruct (swap_remove_mid done rest oi) as (r & -> & Hr).
      assert (Hpo : Permutation (done ++ oi :: rest) (oi :: done ++ r)) by now rewrite <- Permutation_middle, Hr.
      rewrite Hpo in Ho. apply NoDup_cons_iff in Ho as [Hoi' Ho].
      assert (Hf' : (length r < fuel)%nat) by (apply Permutation_length in Hr; lia).
      destruct nodwell.
      + pose proof (swap_remove_perm newN k nj Hnj) as Hpn.
        set (newN' := swap_remove k newN) in *. clearbody newN'.
        rewrite Hpn in Hn. apply NoDup_cons_iff in Hn as [Hnj' Hn].
        destruct (IH done r newN' Ho Hn) as (far & near & -> & Hfar & Hnear & Hnd); [|exact Hf'|].
        { intros x Hx Hin. apply (Hdone x Hx). rewrite Hpn. now right. }
        exists far, near. split; [reflexivity|]. split; [|split; [|exact Hnd]].
        * intro x. rewrite Hfar, Hpo, Hpn. now apply drop_same_id.
        * intro y. rewrite Hnear, Hpo, Hpn. now apply drop_same_id.
      + destruct (IH done r newN Ho Hn Hdone Hf') as (far & near & -> & Hfar & Hnear & Hnd).
        exists far, near. split; [reflexivity|]. split; [|split; assumption].
        intro x. rewrite Hfar, Hpo. cbn [In]. split; [tauto|]. intros [[<-|Hx] Hnx]; [|tauto].
        exfalso. apply Hnx. rewrite <- Hid. eapply in_map, nth_error_In, Hnj.
    - (* no new entry of that id: oi stays, the loop moves on *)
      specialize (IH (done ++ [oi]) rest newN). rewrite app_length, Nat.add_1_r, <- app_assoc in IH.
      apply IH; [assumption|assumption| |lia].
      intros x Hx. apply in_app_iff in Hx as [Hx|[<-|[]]]; auto.
  Qed.

  Definition lex_le (a b : rmatch) : Prop :=
    (m_meters a < m_meters b)%Z \/ (m_meters a = m_meters b /\ bytes_leb (m_id a) (m_id b) = true).

  Lemma roam_less_lex a b : if roam_less a b then lex_le a b else lex_le b a.
  Proof.
    unfold Roam.roam_less, lex_le. rewrite Z.gtb_ltb.
    destruct (Z.ltb_spec (m_meters a) (m_meters b)); [now left|].
    destruct (Z.ltb_spec (m_meters b) (m_meters a)); [now left|].
    unfold bytes_ltb, bytes_leb. rewrite (bytes_cmp_antisym (m_id a) (m_id b)).
    destruct (bytes_cmp (m_id a) (m_id b)); right; (split; [lia|reflexivity]).
  Qed.

  Lemma lex_le_trans a b c : lex_le a b -> lex_le b c -> lex_le a c.
  Proof.
    unfold lex_le. intros [H1|[H1 L1]] [H2|[H2 L2]]; try (left; lia).
    right. split; [lia|]. eapply bytes_leb_trans; eauto.
  Qed.

  Lemma sort_perm l : Permutation (sort_matches l) l.
  Proof. exact (isort_perm roam_less l). Qed.

  Lemma sort_sorted l : StronglySorted lex_le (sort_matches l).
  Proof. exact (isort_sorted roam_less lex_le roam_less_lex lex_le_trans l). Qed.

  Lemma sort_In l m : In m (sort_matches l) <-> In m l.
  Proof. now rewrite sort_perm. Qed.

  Lemma sort_NoDup l : NoDup (map m_id l) -> NoDup (map m_id (sort_matches l)).
  Proof. now rewrite sort_perm. Qed.

  Lemma roam_result col sw obj old :
    NoDup (map o_id col) ->
    let O := nearbys col sw old in
    let N := nearbys col sw (Some obj) in
    exists far near,
      fence_match_roam col sw obj old = RoamDone (sort_matches near) (sort_matches (map (remeasure obj) far)) /\
      (forall x, In x far <-> In x O /\ ~ In (m_id x) (map m_id N)) /\
      (forall y, In y near <-> In y N /\ (rs_nodwell sw = true -> ~ In (m_id y) (map m_id O))) /\
      NoDup (map m_id far) /\ NoDup (map m_id near).
  Proof.
    intros Hnd O N.
    destruct (loop_spec (rs_nodwell sw) (S (length O)) [] O N) as (far & near & Hl & Hfar & Hnear & Hnds);
      [now apply nearbys_NoDup|now apply nearbys_NoDup|intros x []|lia|].
    exists far, near. unfold Roam.fence_match_roam. fold O N. cbn [length app] in Hl. rewrite Hl.
    split; [reflexivity|]. split; [exact Hfar|]. split; [|exact Hnds].
    destruct (rs_nodwell sw); [|subst near]; intro y; [rewrite Hnear|]; intuition discriminate.
  Qed.

  Theorem roam_sorted col sw obj old near far :
    NoDup (map o_id col) ->
    fence_match_roam col sw obj old = RoamDone near far ->
    StronglySorted lex_le near /\ StronglySorted lex_le far /\ NoDup (map m_id near) /\ NoDup (map m_id far).
  Proof.
    intros Hnd Hres.
    destruct (roam_result col sw obj old Hnd) as (far0 & near0 & E & _ & _ & Hnf & Hnn).
    rewrite Hres in E. injection E as -> ->.
    repeat split; try apply sort_sorted; apply sort_NoDup; [assumption|].
    rewrite map_map. exact Hnf.
  Qed.

  Lemma nearbys_id_iff col sw ob o :
    NoDup (map o_id col) -> In o col ->
    (In (o_id o) (map m_id (nearbys col sw (Some ob))) <-> visited sw ob o).
  Proof.
    intros Hnd Ho. rewrite in_map_iff. setoid_rewrite nearbys_In. split.
    - intros (m & Hid & o' & Ho' & Hv & ->). now rewrite <- (NoDup_map_inj o_id col o' o Hnd Ho' Ho Hid).
    - intros Hv. exists (match_of ob o). eauto.
  Qed.

  (* what fenceMatchRoam reports, for any previous object (of the same id or not), any radius and any
     rectangle search *)
  Theorem roam_near_iff col sw obj old near far :
    NoDup (map o_id col) ->
    fence_match_roam col sw obj old = RoamDone near far ->
    forall m, In m near <->
      exists o, In o col /\ visited sw obj o /\
        (rs_nodwell sw = true -> forall ob, old = Some ob -> ~ visited sw ob o) /\ m = match_of obj o.
  Proof.
    intros Hnd Hres m.
    destruct (roam_result col sw obj old Hnd) as (far0 & near0 & E & _ & Hnear & _).
    rewrite Hres in E. injection E as -> _. rewrite sort_In, Hnear, nearbys_In. split.
    - intros [(o & Ho & Hv & ->) Hd]. exists o. split; [assumption|]. split; [assumption|]. split; [|reflexivity].
      intros Hnod ob -> Hvb. now apply (Hd Hnod), nearbys_id_iff.
    - intros (o & Ho & Hv & Hd & ->). split; [eauto|].
      intros Hnod Hin. destruct old as [ob|]; [|destruct Hin].
      apply nearbys_id_iff in Hin; [|assumption..]. exact (Hd Hnod ob eq_refl Hin).
  Qed.

  Theorem roam_far_iff col sw obj old near far :
    NoDup (map o_id col) ->
    fence_match_roam col sw obj old = RoamDone near far ->
    forall m, In m far <->
      exists o ob, old = Some ob /\ In o col /\ visited sw ob o /\ ~ visited sw obj o /\
        m = remeasure obj (match_of ob o).
  Proof.
    intros Hnd Hres m.
    destruct (roam_result col sw obj old Hnd) as (far0 & near0 & E & Hfar & _ & _).
    rewrite Hres in E. injection E as _ ->. rewrite sort_In, in_map_iff. split.
    - intros (x & <- & Hx). apply Hfar in Hx as [Hx Hn]. destruct old as [ob|]; [|destruct Hx].
      apply nearbys_In in Hx as (o & Ho & Hv & ->).
      exists o, ob. split; [reflexivity|]. split; [assumption|]. split; [assumption|]. split; [|reflexivity].
      intro Hv'. now apply Hn, nearbys_id_iff.
    - intros (o & ob & -> & Ho & Hv & Hn & ->). exists (match_of ob o). split; [reflexivity|].
      apply Hfar. split; [apply nearbys_In; eauto|].
      intro Hin. apply nearbys_id_iff in Hin; [|assumption..]. exact (Hn Hin).
  Qed.

  (* the search rectangle contains the circle: every object within the radius is visited.
     geo.RectFromCenter collapses to the centre point for radii below about 0.28 m (cos r rounds
     to 1), so the hypothesis is only asked for radii from rmin upwards (known finding C20-tiny-radius) *)
  Variable rmin : Z.
  Hypothesis Hr : forall c r o, (rmin <= r)%Z -> (dist c o <= r)%Z -> in_rect c r o = true.

  Lemma visited_iff sw ob o : (rmin <= rs_meters sw)%Z -> (visited sw ob o <-> candidate sw ob o).
  Proof. intro Hmin. split; [now intros [_ Hc]|]. intro Hc. split; [|exact Hc]. apply Hr; [exact Hmin|apply Hc]. Qed.

  (* the case at hand: the previous object is the moved object itself, at its previous position, so that
     only the distance tells its candidates from those of the new position *)
  Definition same_id (obj : robj) (old : option robj) : Prop :=
    forall ob, old = Some ob -> o_id ob = o_id obj.

  Lemma candidate_moved sw a b o :
    o_id a = o_id b -> candidate sw a o -> (dist (o_geo b) (o_geo o) <= rs_meters sw)%Z -> candidate sw b o.
  Proof. unfold candidate. intros ->. tauto. Qed.

  Theorem roam_nearby_exact col sw obj old near far :
    (rmin <= rs_meters sw)%Z ->
    NoDup (map o_id col) -> same_id obj old ->
    fence_match_roam col sw obj old = RoamDone near far ->
    forall m, In m near <->
      exists o, In o col /\
        (o_id o <> o_id obj /\ (dist (o_geo obj) (o_geo o) <= rs_meters sw)%Z /\ id_match sw (o_id o) = true) /\
        (rs_nodwell sw = true -> forall ob, old = Some ob -> ~ (dist (o_geo ob) (o_geo o) <= rs_meters sw)%Z) /\
        m = {| m_id := o_id o; m_geo := o_geo o; m_meters := dist (o_geo obj) (o_geo o) |}.
  Proof.
    intros Hmin Hnd Hsame Hres m. rewrite (roam_near_iff col sw obj old near far Hnd Hres m).
    setoid_rewrite (fun ob o => visited_iff sw ob o Hmin).
    split; intros (o & Ho & Hc & Hd & ->); exists o; (split; [assumption|]); (split; [exact Hc|]);
      (split; [|reflexivity]); intros Hnod ob E H; apply (Hd Hnod ob E).
    - exact (candidate_moved sw obj ob o (eq_sym (Hsame ob E)) Hc H).
    - apply H.
  Qed.

  Theorem roam_faraway_exact col sw obj old near far :
    (rmin <= rs_meters sw)%Z ->
    NoDup (map o_id col) -> same_id obj old ->
    fence_match_roam col sw obj old = RoamDone near far ->
    forall m, In m far <->
      exists o ob, old = Some ob /\ In o col /\
        (o_id o <> o_id obj /\ (dist (o_geo ob) (o_geo o) <= rs_meters sw)%Z /\ id_match sw (o_id o) = true) /\
        ~ (dist (o_geo obj) (o_geo o) <= rs_meters sw)%Z /\
        m = {| m_id := o_id o; m_geo := o_geo o; m_meters := dist (o_geo o) (o_geo obj) |}.
  Proof.
    intros Hmin Hnd Hsame Hres m. rewrite (roam_far_iff col sw obj old near far Hnd Hres m).
    setoid_rewrite (fun ob o => visited_iff sw ob o Hmin).
    split; intros (o & ob & -> & Ho & Hc & Hn & ->); pose proof (Hsame ob eq_refl) as Hid;
      exists o, ob; (split; [reflexivity|]); (split; [assumption|]).
    - split; [unfold candidate in Hc; now rewrite Hid in Hc|]. split; [|reflexivity].
      intro Hle. exact (Hn (candidate_moved sw ob obj o Hid Hc Hle)).
    - rewrite <- Hid in Hc. split; [exact Hc|]. split; [|reflexivity]. intro Hc'. apply Hn, Hc'.
  Qed.

End RoamProofs.

(* a concrete instance: the plane with squared distances *)
(* Used for the non-vacuity examples of Props/C20.v and for the refutation of the pinned code. *)
Module Plane.
  Definition P : Type := (Z * Z)%type.
  Definition sq (x : Z) : Z := (x * x)%Z.
  Definition pdist (a b : P) : Z := (sq (fst a - fst b) + sq (snd a - snd b))%Z.
  (* bounding square of the disc: |dx|^2 <= r and |dy|^2 <= r *)
  Definition prect (c : P) (r : Z) (o : P) : bool :=
    Z.leb (sq (fst c - fst o)) r && Z.leb (sq (snd c - snd o)) r.

  (* the shape of the section hypothesis Hr at rmin := 0; the first premise is not used *)
  Lemma prect_contains_disc : forall c r o, (0 <= r)%Z -> (pdist c o <= r)%Z -> prect c r o = true.
  Proof.
    intros c r o _. unfold pdist, prect, sq. intro H.
    pose proof (Z.square_nonneg (fst c - fst o)). pose proof (Z.square_nonneg (snd c - snd o)).
    apply andb_true_iff. split; apply Z.leb_le; lia.
  Qed.

  Definition b (n : N) : bytes := [n].
  Definition sw1000 (nodwell : bool) : roamsw :=
    roam_parse (b 42) 1000000%Z nodwell true.            (* ROAM key * 1000 (squared) *)
  Definition mk (n : N) (x y : Z) : robj P := {| o_id := b n; o_geo := (x, y) |}.
  (* self = 97 at the origin (moved there from (5000,0)); 98 in the corner of the square, outside
     the disc; 99 inside the disc; 100 far away; 101 near the old position only *)
  Definition col : list (robj P) :=
    [mk 97 0 0; mk 98 800 800; mk 99 300 400; mk 100 9000 9000; mk 101 5000 300].

  (* the radius test of the pinned tree: meters := o.Geo().Distance(o.Geo()) *)
  Definition visit_pinned (sw : roamsw) (ob : robj P) (acc : list (rmatch P)) (o : robj P) : list (rmatch P) :=
    if bytes_eqb (o_id o) (o_id ob) then acc
    else
      let meters := pdist (o_geo o) (o_geo o) in
      if Z.gtb meters (rs_meters sw) then acc
      else if negb (id_match sw (o_id o)) then acc
      else acc ++ [{| m_id := o_id o; m_geo := o_geo o; m_meters := pdist (o_geo ob) (o_geo o) |}].
  Definition nearbys_pinned (col : list (robj P)) (sw : roamsw) (ob : robj P) : list (rmatch P) :=
    fold_left (visit_pinned sw ob) (filter (fun o => prect (o_geo ob) (rs_meters sw) (o_geo o)) col) [].

  (* a rectangle function that, like geo.RectFromCenter, collapses to the centre for tiny radii *)
  Definition prect_degenerate (c : P) (r : Z) (o : P) : bool :=
    if Z.ltb r 100 then Z.eqb (fst c) (fst o) && Z.eqb (snd c) (snd o) else prect c r o.
  Definition sw_tiny : roamsw := roam_parse (b 42) 50%Z false true.
  Definition col_tiny : list (robj P) := [mk 97 0 0; mk 98 3 4].
End Plane.
