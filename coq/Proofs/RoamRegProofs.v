(* A roaming fence is only ever selected through hooksOut (it has no Fence.obj): lemmas tying the registry
   model's cmdSetHook to the statement order of the source and stating that, in a registry whose indexes are
   views of Server.hooks (FenceRegProofs.reg_inv: every registry a history of SETHOOK / SETCHAN / DELHOOK /
   DELCHAN / PDELHOOK / PDELCHAN / FLUSHDB leaves), a listed roaming hook is among getQueueCandidates'
   candidates for every write on its key - in particular after it has been re-defined under the same name.
   The variant of cmdSetHook that deletes the previous hook from hooksOut after setting the new one is refuted. *)
From Coq Require Import List Bool ZArith Lia.
From T38 Require Import Base.Bytes Model.Fence Model.HookReg Model.HookRegOps Gen.SetHookOrder
  Proofs.FenceProofs Proofs.FenceRegProofs.
Import ListNotations.

(* Each of the five containers evolves on its own, under the statements that name it. *)
Definition on_cont (c : cont) (s : stmt) : bool :=
  match c, snd s with
  | CHooks, (SDelPrev CHooks | SSetNew CHooks) | COut, (SDelPrev COut | SSetNew COut)
  | CTree, (SDelPrev CTree | SSetNew CTree) | CCross, (SDelPrev CCross | SSetNew CCross)
  | CExp, (SDelPrev CExp | SSetNew CExp) => true
  | _, _ => false
  end.
Definition stmt_on (c : cont) (prev : option hook) (h : hook) (l : list hook) (s : stmt) : list hook :=
  if forallb (guard_holds prev h) (fst s) then
    match snd s, prev with
    | SDelPrev _, Some p => del_name (h_name p) l
    | SDelPrev _, None => l
    | SSetNew _, _ => match c with CTree | CCross => h :: l | _ => set_name h l end
    end
  else l.

Lemma get_cont_exec c prev h r s :
  get_cont c (exec_stmt prev h r s) = if on_cont c s then stmt_on c prev h (get_cont c r) s else get_cont c r.
Proof.
  destruct s as [gs o]. unfold exec_stmt, stmt_on, exec_sop, on_cont. cbn [fst snd].
  destruct (forallb (guard_holds prev h) gs), o as [c'|c'], prev, c, c'; reflexivity.
Qed.

Lemma get_cont_run c prev h l : forall r,
  get_cont c (run_stmts l prev h r) = fold_left (stmt_on c prev h) (filter (on_cont c) l) (get_cont c r).
Proof.
  unfold run_stmts. induction l as [|s l IH]; intros r; cbn [fold_left filter]; [reflexivity|].
  rewrite IH, get_cont_exec. destruct (on_cont c s); reflexivity.
Qed.

Lemma reg_ext a b : (forall c, get_cont c a = get_cont c b) -> a = b.
Proof.
  intros H. destruct a, b.
  pose proof (H CHooks); pose proof (H COut); pose proof (H CTree); pose proof (H CCross); pose proof (H CExp).
  cbn in *. congruence.
Qed.

Theorem sethook_is_source r h e : reg_sethook r h e = sethook_by sethook_stmts r h e.
Proof.
  unfold reg_sethook, sethook_by, sethook_stops.
  set (prev := get_name (h_name h) (hooks r)).
  destruct (match prev with Some p => _ | None => false end); [reflexivity|].
  apply reg_ext. intros c. rewrite get_cont_run.
  destruct c, prev as [p|]; cbn [sethook_stmts filter on_cont snd fold_left]; unfold stmt_on;
    cbn [snd fst andb forallb guard_holds]; rewrite ?andb_true_r; reflexivity.
Qed.

(* histories executed with an arbitrary statement list for cmdSetHook *)
Definition reg_step_by (l : list stmt) (r : reg) (o : rop) : reg :=
  match o with RSet h e => sethook_by l r h e | _ => reg_step r o end.
Definition reg_run_by (l : list stmt) (ops : list rop) : reg := fold_left (reg_step_by l) ops reg_empty.

Theorem run_by_source ops : reg_run_by sethook_stmts ops = reg_run ops.
Proof.
  unfold reg_run_by, reg_run. generalize reg_empty.
  induction ops as [|o ops IH]; intros r; cbn [fold_left]; [reflexivity|].
  rewrite IH. f_equal. destruct o; cbn [reg_step_by reg_step]; try reflexivity.
  symmetry. apply sethook_is_source.
Qed.

Theorem roam_hook_selected_iff r h k old new :
  reg_inv r -> h_area h = None ->
  (In h (candidates r k old new) <-> In h (hooks r) /\ h_key h = k /\ detects (h_detect h) DOutside = true).
Proof.
  intros Hi Ha. rewrite (candidates_local r k old new h Hi).
  unfold cand_cond. rewrite Ha. rewrite orb_false_r. reflexivity.
Qed.

Lemma sethook_lists r h : sethook_stops r h false = false -> In h (hooks (reg_sethook r h false)).
Proof. intros Hs. rewrite sethook_del_ins, Hs. left. reflexivity. Qed.

Lemma reg_run_snoc ops o : reg_run (ops ++ [o]) = reg_step (reg_run ops) o.
Proof. unfold reg_run. rewrite fold_left_app. reflexivity. Qed.

(* re-definition: whatever happened before, once SETHOOK / SETCHAN of a roaming fence without DETECT
   (or with DETECT outside) has been accepted - also when it replaces a hook of that name with other
   arguments - the new hook is a candidate for every write on its key *)
Theorem roam_redefined_selected r h old new :
  views r -> h_area h = None -> detects (h_detect h) DOutside = true ->
  sethook_stops r h false = false ->
  In h (candidates (reg_sethook r h false) (h_key h) old new).
Proof.
  intros Hv Ha Hd Hs.
  apply (roam_hook_selected_iff _ h (h_key h) old new (views_inv _ (sethook_views r h false Hv)) Ha).
  split; [|split; [reflexivity | exact Hd]]. apply sethook_lists. exact Hs.
Qed.

(* the boolean the model driver answers with *)
Theorem selected_iff r n k old new :
  reg_inv r ->
  (selected r n k old new = true <->
   exists h, In h (hooks r) /\ h_name h = n /\ h_key h = k /\ cand_cond h old new = true).
Proof.
  intros Hr. unfold selected. rewrite existsb_exists. split.
  - intros (h & Hi & Hn). apply named_true in Hn.
    apply (candidates_local r k old new h Hr) in Hi. destruct Hi as (H1 & H2 & H3).
    exists h. auto.
  - intros (h & H1 & Hn & H2 & H3). exists h. split; [|apply named_true; exact Hn].
    apply (candidates_local r k old new h Hr). auto.
Qed.

(* the variant that deletes the previous hook from hooksOut after the Set *)

Definition sethook_stmts_late_delete : list stmt := [
  ([GPrev], SDelPrev CHooks);
  ([GPrev; GPrevExp], SDelPrev CExp);
  ([], SSetNew CHooks);
  ([GOutside], SSetNew COut);
  ([GPrev], SDelPrev COut);
  ([GPrevArea], SDelPrev CTree);
  ([GPrevArea; GPrevCross], SDelPrev CCross);
  ([GNewArea], SSetNew CTree);
  ([GNewArea; GNewCross], SSetNew CCross);
  ([GNewExp], SSetNew CExp)
].

Definition n_fence : bytes := [102; 49]%N.   (* f1 *)
Definition k_fleet : bytes := [107]%N.       (* k *)
Definition r_unit : rect := {| minx := 0; miny := 0; maxx := 0; maxy := 0 |}.

(* SETCHAN f1 NEARBY k FENCE ROAM k * 100 ; SETCHAN f1 NEARBY k FENCE ROAM k * 500 : the hook is listed,
   SETCHAN answered 1, and no write on k selects it *)
Theorem late_delete_refuted :
  exists ops h,
    h_area h = None /\ detects (h_detect h) DOutside = true /\
    In h (hooks (reg_run_by sethook_stmts_late_delete ops)) /\
    candidates (reg_run_by sethook_stmts_late_delete ops) (h_key h) (Some r_unit) (Some r_unit) = [].
Proof.
  exists [RSet (roam_hook n_fence true k_fleet true) false; RSet (roam_hook n_fence true k_fleet true) false],
         (roam_hook n_fence true k_fleet true).
  repeat split; try (vm_compute; reflexivity). vm_compute. left. reflexivity.
Qed.

(* the same history on the statement order of the source *)
Example source_order_example :
  let ops := [RSet (roam_hook n_fence true k_fleet true) false; RSet (roam_hook n_fence true k_fleet true) false] in
  selected (reg_run ops) n_fence k_fleet (Some r_unit) (Some r_unit) = true /\
  selected (reg_run (ops ++ [RSet (roam_hook n_fence true k_fleet false) false])) n_fence k_fleet (Some r_unit) (Some r_unit) = false /\
  selected (reg_run (ops ++ [RDel n_fence true])) n_fence k_fleet (Some r_unit) (Some r_unit) = false.
Proof. vm_compute. auto. Qed.
