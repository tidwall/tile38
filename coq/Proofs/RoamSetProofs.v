(* The previous position handed to fenceMatchRoam is the item stored under the id immediately before
   the SET - what GET returned - whatever its deadline: lemmas over Model/RoamSet.v, the corollary
   of roam_faraway_exact for an expired-but-unswept previous object, and the plane data on which
   Props/C20set.v refutes the variant of cmdSET that forgets such an object. *)
From Coq Require Import List NArith ZArith Bool Lia String.
From T38 Require Import Base.Bytes Base.ListFacts Model.Glob Model.Roam Model.RoamSet Proofs.RoamProofs Gen.SetOld.
Import ListNotations.
Arguments s_id {G}. Arguments s_geo {G}. Arguments s_exp {G}. Arguments Build_sobj {G}.
Arguments KSet {G}. Arguments KDel {G}. Arguments KSweep {G}.

Section RoamSetProofs.
  Variable G : Type.
  Variable dist : G -> G -> Z.
  Variable in_rect : G -> Z -> G -> bool.
  Variable rmin : Z.
  Hypothesis Hr : forall c r o, (rmin <= r)%Z -> (dist c o <= r)%Z -> in_rect c r o = true.

  Notation sobj := (sobj G).

  Lemma sid_is_true id (o : sobj) : sid_is G id o = true <-> s_id o = id.
  Proof. unfold sid_is. apply bytes_eqb_eq. Qed.

  Lemma get_unique (col : list sobj) x :
    NoDup (map (@s_id G) col) -> In x col -> col_get G (s_id x) col = Some x.
  Proof.
    apply (find_unique (@s_id G)). intros y. apply sid_is_true.
  Qed.

  (* an object that is still stored - its deadline passed or not - is the old of the next SET of its id *)
  Theorem stored_is_old now (col : list sobj) x o :
    NoDup (map (@s_id G) col) -> In x col -> s_id x = s_id o ->
    snd (set_details G (old_as_is G) now col o) = Some x.
  Proof. intros Hnd Hin He. rewrite <- (get_unique col x Hnd Hin), He. reflexivity. Qed.

  Theorem krun_ids_unique ops : NoDup (map (@s_id G) (krun G ops)).
  Proof.
    unfold krun. apply fold_left_inv; [|constructor]. intros col k _ Hnd.
    destruct k as [now o|id|now]; cbn [kstep set_details col_set fst]; try now apply NoDup_map_filter.
    cbn [map]. constructor; [|now apply NoDup_map_filter].
    rewrite in_map_iff. intros (z & Ez & Hz). apply filter_In in Hz as [_ Hz].
    apply (proj2 (sid_is_true (s_id o) z)) in Ez. now rewrite Ez in Hz.
  Qed.

  (* the faraway entries of a SET are measured from the stored previous object, expired or not *)
  Theorem set_roam_faraway (col : list sobj) now x o rcol sw near far :
    NoDup (map (@s_id G) col) -> In x col -> s_id x = s_id o ->
    (rmin <= rs_meters sw)%Z -> NoDup (map (@o_id G) rcol) ->
    set_roam G dist in_rect (old_as_is G) now col o rcol sw = RoamDone near far ->
    forall m, In m far <->
      exists n, In n rcol /\
        (o_id n <> s_id o /\ (dist (s_geo x) (o_geo n) <= rs_meters sw)%Z /\ id_match sw (o_id n) = true) /\
        ~ (dist (s_geo o) (o_geo n) <= rs_meters sw)%Z /\
        m = {| m_id := o_id n; m_geo := o_geo n; m_meters := dist (o_geo n) (s_geo o) |}.
  Proof.
    intros Hcol Hin He Hmin Hnd Hres m. unfold set_roam in Hres.
    rewrite (stored_is_old now col x o Hcol Hin He) in Hres. cbn [option_map] in Hres.
    assert (Hs : same_id G (to_robj G o) (Some (to_robj G x))).
    { intros ob [= <-]. exact He. }
    rewrite (roam_faraway_exact G dist in_rect rmin Hr rcol sw _ _ near far Hmin Hnd Hs Hres m).
    split.
    - intros (n & ob & [= <-] & H). exists n. exact H.
    - intros (n & H). exists n, (to_robj G x). split; [reflexivity|exact H].
  Qed.
End RoamSetProofs.

(* the variant that forgets an expired previous object, on the plane *)
Module PlaneSet.
  Import Plane.
  Definition so (n : N) (x y : Z) (e : option Z) : sobj P := {| s_id := b n; s_geo := (x, y); s_exp := e |}.
  (* 97 was written at (5000,0) with a deadline of 10 and has not been swept; 101 sits next to it *)
  Definition ops : list (kop P) := [KSet 0 (so 101 5000 300 None); KSet 0 (so 97 5000 0 (Some 10%Z))].
  Definition rcol_after : list (robj P) := [mk 97 0 0; mk 101 5000 300].

  (* under NODWELL the variant reports a dwelling neighbour nearby again *)
  Definition ops2 : list (kop P) := [KSet 0 (so 99 300 400 None); KSet 0 (so 97 100 0 (Some 10%Z))].
End PlaneSet.
