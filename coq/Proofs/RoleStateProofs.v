(* Lemmas about Model/RoleState.v over the regenerated tables of Gen/RoleGates.v: the arms of the lock
   switch under concurrent role changes, READONLY, protected mode, and followStep's caught-up flag. *)
From Coq Require Import String Ascii List Bool ZArith Lia.
From T38 Require Import Base.ListFacts Model.Tables Model.RoleTypes Gen.LockTable Gen.Dispatch Gen.ScriptTables Gen.Mutators
  Gen.RoleGates Model.Gate Model.RoleState Proofs.GateProofs.
Import ListNotations.
Open Scope string_scope.

(* a fact is known: the test that establishes it would not return its error in role r *)
Definition facts_hold (k : facts) (r : role) : Prop :=
  (k_leader k = true -> r_follower r = false) /\
  (k_writable k = true -> r_readonly r = false) /\
  (k_servable k = true -> r_follower r && negb (r_caughtup r) = false).

Lemma facts_hold_nofacts r : facts_hold nofacts r.
Proof. repeat split; cbn; discriminate. Qed.

Lemma env_apply_keeps held m k r :
  facts_hold k r -> facts_hold (forget held k) (env_apply held m r).
Proof.
  intros [Hl [Hw Hs]]. destruct held; cbn [forget env_apply]; [|apply facts_hold_nofacts].
  split; [exact Hl | split; [exact Hw | cbn; intros H]].
  specialize (Hs H). destruct (r_follower r), (r_caughtup r); cbn in *; congruence.
Qed.

Lemma abs_arm_sound steps : forall held k sched r r',
  facts_hold k r -> run_arm steps held sched r = AHandler r' -> facts_hold (abs_arm steps held k) r'.
Proof.
  (* one step of both: of the role after the move and the facts after forgetting, the rest of the step
     needs to know no more than env_apply_keeps says *)
  induction steps as [|st rest IH]; intros held k sched r r' Hk; cbn [run_arm abs_arm];
    generalize (env_apply_keeps held (hd nomove sched) k r Hk);
    generalize (env_apply held (hd nomove sched) r) (forget held k); clear Hk; intros r1 k1 Hk.
  - intros [= <-]. exact Hk.
  - destruct st.
    1-3: apply IH, Hk.
    all: destruct Hk as [Hl [Hw Hs]].
    + destruct (r_follower r1) eqn:Ef; [discriminate|]. apply IH.
      exact (conj (fun _ => Ef) (conj Hw (fun _ => andb_false_intro1 _ _ Ef))).
    + destruct (r_readonly r1) eqn:Er; [discriminate|]. apply IH. exact (conj Hl (conj (fun _ => Er) Hs)).
    + destruct (r_follower r1 && negb (r_caughtup r1)) eqn:Ec; [discriminate|]. apply IH.
      exact (conj Hl (conj Hw (fun _ => Ec))).
    + discriminate.
Qed.

Definition writer_facts (st : list arm_step) : bool := let k := abs_arm st false nofacts in k_leader k && k_writable k.
Definition reader_facts (st : list arm_step) : bool := k_servable (abs_arm st false nofacts).

Lemma writer_role steps sched r r' :
  writer_facts steps = true ->
  run_arm steps false sched r = AHandler r' -> r_follower r' = false /\ r_readonly r' = false.
Proof.
  intros H Hrun. apply andb_true_iff in H as [Hl Hw].
  destruct (abs_arm_sound _ _ _ _ _ _ (facts_hold_nofacts r) Hrun) as [Gl [Gw _]]. auto.
Qed.

Lemma reader_role steps sched r r' :
  reader_facts steps = true ->
  run_arm steps false sched r = AHandler r' -> r_follower r' = false \/ r_caughtup r' = true.
Proof.
  intros H Hrun. destruct (abs_arm_sound _ _ _ _ _ _ (facts_hold_nofacts r) Hrun) as [_ [_ Gs]].
  specialize (Gs H). destruct (r_follower r'); [right; apply negb_false_iff, Gs | left; reflexivity].
Qed.

Definition script_outers : list string := map fst script_tables.

Lemma script_write_role outer c sched r r' :
  In outer script_outers -> changes_script c = true ->
  run_arm (script_steps outer c) false sched r = AHandler r' ->
  r_follower r' = false /\ r_readonly r' = false.
Proof.
  intros Ho Hc. apply writer_role.
  assert (H : forallb (fun o => forallb (fun c => writer_facts (script_steps o c)) changing_script) script_outers = true)
    by (vm_compute; reflexivity).
  rewrite forallb_forall in H. exact (touching_all dispatch_script _ changing_script changing_script_eq (H outer Ho) c Hc).
Qed.

Lemma script_read_role outer c sched r r' :
  In outer script_outers -> reads_objects_script c = true ->
  run_arm (script_steps outer c) false sched r = AHandler r' ->
  r_follower r' = false \/ r_caughtup r' = true.
Proof.
  intros Ho Hc. apply reader_role.
  assert (H : forallb (fun o => forallb (fun c => reader_facts (script_steps o c)) reading_script) script_outers = true)
    by (vm_compute; reflexivity).
  rewrite forallb_forall in H. exact (touching_all dispatch_script _ reading_script reading_script_eq (H outer Ho) c Hc).
Qed.

Lemma readonly_off a ro : snd (readonly_cmd a ro) = false -> ro = false \/ lower a = "no".
Proof.
  unfold readonly_cmd.
  cbv [readonly_validate_folds_case readonly_branch_folds_case readonly_valid_args readonly_on_arg
       fold_case in_strs existsb].
  destruct (String.eqb_spec a "yes") as [E1|E1]; cbn [orb snd].
  - discriminate.
  - destruct (String.eqb_spec a "no") as [E2|E2]; cbn [orb snd].
    + intros _. right. subst a. reflexivity.
    + intros H. left. exact H.
Qed.

Lemma readonly_sticky args :
  Forall (fun a => lower a <> "no") args -> readonly_after args true = true.
Proof.
  intros Hall. rewrite Forall_forall in Hall. unfold readonly_after.
  apply (fold_left_inv _ (fun ro => ro = true)); [|reflexivity].
  intros ro a Ha ->. destruct (snd (readonly_cmd a true)) eqn:E; [reflexivity|].
  destruct (readonly_off a true E) as [H|H]; [discriminate | destruct (Hall a Ha H)].
Qed.

Lemma readonly_cmd_canonical ro :
  readonly_cmd "yes" ro = (RoOK, true) /\ readonly_cmd "no" ro = (RoOK, false).
Proof. split; vm_compute; reflexivity. Qed.

Definition pinv (s : pstate) : Prop := p_mode s = "yes" /\ p_saved s = "".

Lemma set_protected_spec v fl m :
  set_protected v fl = Some m -> lower v <> "no" -> m = "yes".
Proof.
  unfold set_protected.
  cbv [protected_validate_folds_case protected_store_folds_case protected_valid_args protected_default
       fold_case in_strs existsb].
  destruct (String.eqb_spec (lower v) "") as [E0|E0].
  - destruct fl; [|discriminate]. intros H _. inversion H. reflexivity.
  - destruct (String.eqb_spec (lower v) "yes") as [E1|E1]; cbn [orb].
    + intros H _. inversion H. exact E1.
    + destruct (String.eqb_spec (lower v) "no") as [E2|E2]; cbn [orb]; [|discriminate].
      intros _ Hn. contradiction.
Qed.

Lemma pstep_inv s e :
  pinv s -> match e with PSet v => lower v <> "no" | _ => True end -> pinv (pstep s e).
Proof.
  intros [Hm Hs] He. destruct e as [v| |]; cbn [pstep].
  - destruct (set_protected v false) as [m|] eqn:E; [|split; assumption].
    split; [exact (set_protected_spec v false m E He) | exact Hs].
  - split; [exact Hm|]. cbn [p_mode]. rewrite Hm. vm_compute. reflexivity.
  - rewrite Hs. vm_compute. split; reflexivity.
Qed.

Lemma protected_kept es :
  Forall (fun e => match e with PSet v => lower v <> "no" | _ => True end) es -> pinv (prun es pstate0).
Proof.
  intros Hall. rewrite Forall_forall in Hall. unfold prun.
  apply fold_left_inv; [|split; vm_compute; reflexivity].
  intros s e He Hs. exact (pstep_inv s e Hs (Hall e He)).
Qed.

Lemma protected_canonical :
  set_protected "no" false = Some "no" /\ mode_test protected_test "no" = false /\
  set_protected "yes" false = Some "yes" /\ set_protected "maybe" false = None.
Proof. vm_compute. repeat split. Qed.

Open Scope Z_scope.

Definition stream_wf (ms : list fmsg) : Prop :=
  Forall (fun m => 0 <= fm_len m /\ (fm_logged m = false -> lower (fm_cmd m) = "publish"%string)) ms.

Lemma counts_not_publish cmd : lpos_counts cmd = true -> lower cmd <> "publish"%string.
Proof.
  unfold lpos_counts.
  cbv [follow_lpos_skip_folds_case follow_lpos_skips fold_case in_strs existsb].
  destruct (String.eqb_spec (lower cmd) "publish") as [E|E]; cbn [orb negb]; [discriminate|].
  intros _. exact E.
Qed.

Lemma follow_loop_inv ms : forall lpos aofsize cu base,
  stream_wf ms -> lpos <= base -> (cu = true -> aofsize <= base) ->
  fst (follow_loop ms lpos aofsize cu) = true -> aofsize <= base + logged_bytes ms.
Proof.
  induction ms as [|m rest IH]; intros lpos aofsize cu base Hwf Hle Hcu Hres.
  - cbn in *. specialize (Hcu Hres). lia.
  - inversion Hwf as [|? ? [Hlen Hpub] Hrest]; subst.
    cbn [follow_loop logged_bytes] in *.
    set (lpos' := if lpos_counts (fm_cmd m) then lpos + fm_len m else lpos) in *.
    set (add := if fm_logged m then fm_len m else 0).
    assert (Hle' : lpos' <= base + add).
    { unfold lpos', add. destruct (lpos_counts (fm_cmd m)) eqn:Ec.
      - destruct (fm_logged m) eqn:El; [lia|].
        exfalso. exact (counts_not_publish _ Ec (Hpub eq_refl)).
      - destruct (fm_logged m); lia. }
    assert (G := IH lpos' aofsize (cu || (aofsize <=? lpos')) (base + add) Hrest Hle').
    assert (Hadd : 0 <= add) by (unfold add; destruct (fm_logged m); lia).
    enough (aofsize <= base + add + logged_bytes rest) by (unfold add in *; lia).
    apply G; [|exact Hres].
    intros Hc. apply orb_true_iff in Hc as [Hc|Hc]; [specialize (Hcu Hc); lia|].
    apply Z.leb_le in Hc. lia.
Qed.

Lemma caught_up_means_log_consumed pos aofsize ms :
  stream_wf ms -> follow_session pos aofsize ms = true ->
  caughtup_true_calls = 2%nat /\ caughtup_flag_writers = ["Server.setCaughtUp"%string] /\
  aofsize <= pos + logged_bytes ms.
Proof.
  intros Hwf H. split; [vm_compute; reflexivity|]. split; [vm_compute; reflexivity|].
  unfold follow_session in H.
  apply (follow_loop_inv ms pos aofsize (aofsize <=? pos) pos Hwf); [lia| |exact H].
  intros Hc. apply Z.leb_le in Hc. exact Hc.
Qed.
