From Coq Require Import ZArith String List Bool Lia.
From T38 Require Import Base.Bytes Base.ListFacts Model.Expire Proofs.ExpireProofs Model.Tables Gen.ScriptTables Gen.Dispatch Model.Gate Model.ScriptExpire.
From T38 Require Import Proofs.GateProofs.
Import ListNotations.

(* a call that the gate lets run is logged, when the source satisfies dl_check for that command *)
Lemma gate_logged t c e l w fn :
  dl_check t c = true -> script_gate t c e = SRun l w fn -> w && t_logs_on_write t = true.
Proof.
  intros Hc Hg. apply script_gate_run in Hg as (Ed & Er & _ & _ & -> & _).
  unfold dl_check in Hc. rewrite Ed, Er in Hc. exact Hc.
Qed.

Lemma op_cmd_deadline o : In (op_cmd o) deadline_cmds.
Proof. destruct o; cbn; tauto. Qed.

Lemma variant_check v t c : dl_check_all = true -> In (v, t) script_variant -> In c deadline_cmds -> dl_check t c = true.
Proof.
  unfold dl_check_all. intros H Hv Hc. rewrite forallb_forall in H. specialize (H _ Hv). cbn [snd] in H.
  rewrite forallb_forall in H. exact (H _ Hc).
Qed.

(* replaying the log a script run leaves reproduces the live collection *)
Lemma script_log_replays v t : dl_check_all = true -> In (v, t) script_variant ->
  forall calls c0 c log, fold_left apply log c0 = c ->
  fold_left apply (snd (script_run t calls (c, log))) c0 = fst (script_run t calls (c, log)).
Proof.
  intros Hall Hv calls c0 c log Hinv. unfold script_run.
  apply (fold_left_inv (call t) (fun st => fold_left apply (snd st) c0 = fst st)); [|exact Hinv].
  intros st [e o] _ Hst. unfold call; cbn [fst snd].
  destruct (script_gate t (op_cmd o) e) eqn:Hg; try exact Hst.
  rewrite (gate_logged t (op_cmd o) e l write fn (variant_check v t _ Hall Hv (op_cmd_deadline o)) Hg). cbn [fst snd].
  rewrite fold_left_app. cbn [fold_left]. rewrite Hst. reflexivity.
Qed.

(* the same log at another clock: which objects exist and which have a deadline is kept *)
Lemma zstat_refl a : zstat a a. Proof. reflexivity. Qed.

Lemma lookup_sim id l l' : objs_sim l l' ->
  match lookup id l, lookup id l' with
  | Some o, Some o' => o_val o = o_val o' /\ zstat (o_ex o) (o_ex o')
  | None, None => True
  | _, _ => False
  end.
Proof.
  induction 1 as [|[i o] [i' o'] l l' [Hi [Hv Hz]] _ IH]; cbn; [exact I|].
  cbn in Hi, Hv, Hz. subst i'. destruct (bytes_eqb i id); [split; assumption | exact IH].
Qed.

Lemma del_id_sim id l l' : objs_sim l l' -> objs_sim (del_id id l) (del_id id l').
Proof.
  induction 1 as [|[i o] [i' o'] l l' [Hi [Hv Hz]] _ IH]; cbn; [constructor|].
  cbn in Hi. subst i'. destruct (bytes_eqb i id); [exact IH|]. constructor; [|exact IH]. repeat split; assumption.
Qed.

Lemma cset_sim c c' id o o' : objs_sim (objs c) (objs c') -> o_val o = o_val o' -> zstat (o_ex o) (o_ex o') ->
  objs_sim (objs (cset c id o)) (objs (cset c' id o')).
Proof.
  intros H Hv Hz. unfold cset; cbn [objs]. constructor; [repeat split; assumption | apply del_id_sim; exact H].
Qed.

Lemma apply_sim c c' o o' : objs_sim (objs c) (objs c') -> op_sim o o' -> objs_sim (objs (apply c o)) (objs (apply c' o')).
Proof.
  intros H Ho. destruct o, o'; cbn in Ho; try contradiction.
  - destruct Ho as [<- [<- Hz]]. cbn [apply]. apply cset_sim; [exact H | reflexivity | exact Hz].
  - destruct Ho as [<- Hz]. cbn [apply]. pose proof (lookup_sim id _ _ H) as L.
    destruct (lookup id (objs c)), (lookup id (objs c')); try contradiction; [|exact H].
    destruct L as [Hv _]. apply cset_sim; [exact H | exact Hv | exact Hz].
  - subst id0. cbn [apply]. pose proof (lookup_sim id _ _ H) as L.
    destruct (lookup id (objs c)), (lookup id (objs c')); try contradiction; [|exact H].
    destruct L as [Hv _]. apply cset_sim; [exact H | exact Hv | reflexivity].
  - subst id0. cbn [apply]. rewrite !cdel_objs. apply del_id_sim. exact H.
Qed.

Lemma replay_sim log log' : Forall2 op_sim log log' -> forall c c', objs_sim (objs c) (objs c') ->
  objs_sim (objs (fold_left apply log c)) (objs (fold_left apply log' c')).
Proof.
  induction 1 as [|o o' log log' Ho _ IH]; intros c c' H; cbn [fold_left]; [exact H|].
  apply IH. apply apply_sim; assumption.
Qed.

(* restart after a script run: the log of the run, replayed record by record at other clocks, yields
   the same ids in the same order, each with the same payload and the same has-deadline status as in
   the live collection *)
Lemma script_restart_status v t : dl_check_all = true -> In (v, t) script_variant ->
  forall calls pre log',
  let r := script_run t calls (fold_left apply pre cnew, pre) in
  Forall2 op_sim (snd r) log' ->
  objs_sim (objs (fst r)) (objs (fold_left apply log' cnew)).
Proof.
  intros Hall Hv calls pre log' r Hsim.
  rewrite <- (script_log_replays v t Hall Hv calls cnew (fold_left apply pre cnew) pre eq_refl : _ = fst r).
  apply replay_sim; [exact Hsim | constructor].
Qed.

(* PERSIST through a script, then a restart: whatever the replay clocks, the object is there without a
   deadline and no sweep of the restarted server removes it *)
Lemma script_persist_survives_restart v t : dl_check_all = true -> In (v, t) script_variant ->
  forall calls pre e id p l w fn log' now,
  let r0 := script_run t calls (fold_left apply pre cnew, pre) in
  lookup id (objs (fst r0)) = Some p ->
  script_gate t "persist"%string e = SRun l w fn ->
  let r := call t r0 (e, OPersist id) in
  Forall2 op_sim (snd r) log' ->
  exists o', lookup id (objs (fst (sweep now (fold_left apply log' cnew)))) = Some o' /\
             o_val o' = o_val p /\ o_ex o' = 0%Z.
Proof.
  intros Hall Hv calls pre e id p l w fn log' now r0 Hl Hg r Hsim.
  assert (Hr : r = script_run t (calls ++ [(e, OPersist id)]) (fold_left apply pre cnew, pre)).
  { unfold r, r0, script_run. rewrite fold_left_app. reflexivity. }
  assert (Hlive : lookup id (objs (fst r)) = Some (mkObj (o_val p) 0)).
  { unfold r, call; cbn [fst snd op_cmd]. rewrite Hg. cbn [fst apply]. rewrite Hl. cbn. rewrite bytes_eqb_refl. reflexivity. }
  rewrite Hr in Hsim, Hlive.
  pose proof (lookup_sim id _ _ (script_restart_status v t Hall Hv (calls ++ [(e, OPersist id)]) pre log' Hsim)) as S.
  rewrite Hlive in S.
  destruct (lookup id (objs (fold_left apply log' cnew))) as [o'|] eqn:E; [|contradiction].
  destruct S as [Hv' Hz]. cbn in Hv', Hz. symmetry in Hz. apply Z.eqb_eq in Hz.
  exists o'. split; [|split; [symmetry; exact Hv' | exact Hz]].
  apply sweep_lookup; [apply wf_reachable | split; [exact E | left; exact Hz]].
Qed.
