(* Model/ScriptFlush.v: when a reply goes out, every record of every request it acknowledges is in the
   file - for plain write commands and for requests that log from inside a script alike, for every
   interleaving of the micro-steps of all connections, reply writes and background flushes. The one fact
   needed about the source - the condition in front of the pre-reply flush is the server-wide flag that
   writeAOF raises - is computed from Gen/ReplyFlush.v. *)
From Coq Require Import String List Bool Arith Lia.
From T38 Require Import Base.Bytes Base.ListFacts Model.Resp Model.Aof Proofs.AofProofs.
From T38 Require Import Model.Tables Gen.ReplyFlush Model.Gate Model.Replay Model.Script Model.ScriptFlush Proofs.ScriptProofs.
Import ListNotations.
Local Open Scope list_scope.
Local Open Scope nat_scope.

(* the source: both reply blocks of netServe flush on `s.aofdirty.Load()` alone, under the lock, and
   writeAOF raises that flag whenever it appends *)
Lemma source_reply_flush : reply_flush_on_global_flag = true /\ flag_raised_in_writeaof = true.
Proof. vm_compute. split; reflexivity. Qed.

Section FlushProofs.
Variables S val herr : Type.
Variable cname : cmd -> string.
Variable handler : string -> S -> cmd -> S * (val + herr) * bool.
Variable e : env.
Variable s0 : S.
Hypothesis h_noupd : noupd_ok handler.
Hypothesis h_pure : pure_ok handler.

Notation gstate := (gstate S val herr).
Notation fstate := (fstate S val herr).
Notation sstep := (sstep cname handler e).
Notation fstep := (fstep cname handler e).
Notation frun := (frun cname handler e).

Lemma sstep_rid (g : gstate) u t : t_rid (th g t) <= t_rid (th (sstep g u) t).
Proof.
  destruct (step_class cname e h_noupd h_pure g u) as [->|[f [Hc ->]]]; [apply Nat.le_refl|].
  rewrite th_commit. destruct (Nat.eqb_spec t u) as [->|_]; [|apply Nat.le_refl].
  destruct (class_shape Hc) as [[_ [_ [-> _]]] | [[_ [_ [-> _]]] | [_ [_ [-> _]]]]];
    [apply Nat.le_refl.. | apply Nat.le_succ_diag_r].
Qed.

Record FInv (f : fstate) : Prop := mkFI {
  fi_le : f_file f <= length (log (f_g f));
  fi_clean : f_dirty f = false -> f_file f = length (log (f_g f));
  fi_sends : forall u n fl, In (u, (n, fl)) (f_sends f) ->
      n <= t_rid (th (f_g f) u) /\ fl <= f_file f /\
      forall i x, nth_error (log (f_g f)) i = Some x -> r_tid x = u -> r_rid x < n -> i < fl }.

Lemma finv_init progs : FInv (finit s0 progs).
Proof.
  constructor; cbn.
  - lia.
  - reflexivity.
  - intros u n fl [].
Qed.

(* the file catches up with the log (flushAOF); who has been answered is no part of the invariant *)
Lemma finv_flush f dirty acked : FInv f -> FInv (mkF (f_g f) (length (log (f_g f))) dirty acked (f_sends f)).
Proof.
  intros [Hle Hclean Hs]. constructor; cbn [f_g f_file f_dirty f_sends]; [apply Nat.le_refl | reflexivity |].
  intros v n fl Hin. destruct (Hs v n fl Hin) as [Hn [Hfl Hrec]].
  split; [exact Hn|]. split; [exact (Nat.le_trans _ _ _ Hfl Hle) | exact Hrec].
Qed.

(* a reply that goes out while the whole log is in the file *)
Lemma finv_send f u dirty acked :
  FInv f -> dirty = f_dirty f -> f_file f = length (log (f_g f)) ->
  FInv (mkF (f_g f) (f_file f) dirty acked (f_sends f ++ [(u, (t_rid (th (f_g f) u), f_file f))])).
Proof.
  intros [Hle Hclean Hs] -> Hf. constructor; cbn [f_g f_file f_dirty f_sends]; [exact Hle | exact Hclean |].
  intros v n fl Hin. apply in_app_or in Hin as [Hin|[[= <- <- <-]|[]]]; [exact (Hs v n fl Hin)|].
  split; [apply Nat.le_refl|]. split; [apply Nat.le_refl|].
  intros i x Hnth _ _. rewrite Hf. apply nth_error_Some. rewrite Hnth. discriminate.
Qed.

Lemma finv_step f o : FInv f -> FInv (fstep f o).
Proof.
  destruct source_reply_flush as [Hguard Hflag].
  intros HF. pose proof HF as [Hle Hclean Hs]. destruct o as [u|u|]; cbn [ScriptFlush.fstep].
  - (* a micro-step *)
    destruct (sstep_log cname handler e (f_g f) u) as [l [Hl [Hlen Hown]]].
    constructor; cbn [f_g f_file f_dirty f_acked f_sends]; rewrite Hl, ?app_length.
    + apply Nat.le_trans with (1 := Hle), Nat.le_add_r.
    + rewrite Hflag, andb_true_r. intros Hd. apply orb_false_iff in Hd as [Hd Hg].
      apply Nat.ltb_ge in Hg. rewrite (Hclean Hd). exact (Nat.le_antisymm _ _ (Nat.le_add_r _ _) Hg).
    + intros v n fl Hin. destruct (Hs v n fl Hin) as [Hn [Hfl Hrec]].
      split; [exact (Nat.le_trans _ _ _ Hn (sstep_rid (f_g f) u v))|]. split; [exact Hfl|].
      intros i x Hnth Ht Hr. destruct (lt_dec i (length (log (f_g f)))) as [Hi|Hi].
      * rewrite nth_error_app1 in Hnth by exact Hi. exact (Hrec i x Hnth Ht Hr).
      * (* a new record belongs to a request of u that is not acknowledged yet *)
        rewrite nth_error_app2 in Hnth by apply Nat.nlt_ge, Hi. apply nth_error_In in Hnth.
        rewrite Forall_forall in Hown. destruct (Hown x Hnth) as [E1 E2]. rewrite <- Ht, E1, <- E2 in Hn.
        destruct (Nat.lt_irrefl _ (Nat.lt_le_trans _ _ _ Hr Hn)).
  - (* a reply *)
    destruct (t_pc (th (f_g f) u)) eqn:Epc; try exact HF.
    destruct (Nat.ltb (f_acked f u) (t_rid (th (f_g f) u))); [|exact HF].
    rewrite Hguard. cbn [andb]. destruct (f_dirty f) eqn:Ed.
    + destruct (lock_free (f_g f)); [|exact HF].
      apply (finv_send (mkF (f_g f) (length (log (f_g f))) false (f_acked f) (f_sends f))); [|reflexivity..].
      apply finv_flush, HF.
    + apply finv_send; [exact HF | symmetry; exact Ed | exact (Hclean eq_refl)].
  - (* the background flush *)
    destruct (lock_free (f_g f)); [|exact HF]. apply finv_flush, HF.
Qed.

Theorem finv_run progs ops : FInv (frun (finit s0 progs) ops).
Proof.
  unfold ScriptFlush.frun. apply fold_left_inv; [intros f o _; apply finv_step | apply finv_init].
Qed.

(* the file, counted in records of the log, never runs ahead of it *)
Theorem file_is_a_log_prefix progs ops :
  let f := frun (finit s0 progs) ops in f_file f <= length (log (f_g f)).
Proof. cbn zeta. exact (fi_le _ (finv_run progs ops)). Qed.

End FlushProofs.
