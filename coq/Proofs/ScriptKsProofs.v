(* The instance Model/ScriptKs.v satisfies the two hypotheses of Proofs/ScriptProofs.v: they are not
   vacuous, and every theorem there holds for the model the C18 driver executes. *)
From Coq Require Import String List Bool.
From T38 Require Import Base.Bytes Base.SMap Model.Tables Gen.Mutators Model.Gate Model.Replay Model.Script Model.ScriptKs.
Import ListNotations.
Local Open Scope string_scope.

(* case analysis on everything the goal matches on, then the result triple is read off the equation *)
Ltac crunch :=
  repeat match goal with
         | |- context [match ?x with _ => _ end] => destruct x
         end;
  intros [= <- <- <-]; cbn [is_ok andb]; intros; try reflexivity; try discriminate.

(* handler by handler, so that each case analysis runs over one body only: every handler hands back the
   state it was given on each branch but those that succeed with updated = true *)
Lemma ks_noupd fn s c s' r upd :
  khandler fn s c = (s', r, upd) -> is_ok r && upd = false -> s' = s.
Proof.
  unfold khandler.
  destruct (fn =? "cmdSET"); [unfold h_set; crunch|].
  destruct (fn =? "cmdGET"); [unfold h_get; crunch|].
  destruct (fn =? "cmdDEL"); [unfold h_del; crunch|].
  destruct (fn =? "cmdPDEL"); [unfold h_pdel; crunch|].
  destruct (fn =? "cmdDROP"); [unfold h_drop; crunch|].
  destruct (fn =? "cmdRENAME"); [unfold h_rename; crunch|].
  destruct (fn =? "cmdEXISTS"); [unfold h_exists; crunch|].
  crunch.
Qed.

Lemma ks_pure fn s c s' r upd :
  khandler fn s c = (s', r, upd) -> touches dataset_structs (fn_effects fn) = false -> s' = s.
Proof.
  unfold khandler.
  destruct (String.eqb_spec fn "cmdSET") as [->|_]; [intros _ H; vm_compute in H; discriminate|].
  destruct (String.eqb_spec fn "cmdGET") as [->|_]; [intros H _; revert H; unfold h_get; crunch|].
  destruct (String.eqb_spec fn "cmdDEL") as [->|_]; [intros _ H; vm_compute in H; discriminate|].
  destruct (String.eqb_spec fn "cmdPDEL") as [->|_]; [intros _ H; vm_compute in H; discriminate|].
  destruct (String.eqb_spec fn "cmdDROP") as [->|_]; [intros _ H; vm_compute in H; discriminate|].
  destruct (String.eqb_spec fn "cmdRENAME") as [->|_]; [intros _ H; vm_compute in H; discriminate|].
  destruct (String.eqb_spec fn "cmdEXISTS") as [->|_]; [intros H _; revert H; unfold h_exists; crunch|].
  intros H _. inversion H. reflexivity.
Qed.
