(* Scripts over the concurrency model (Model/Script.v): for every handler semantics, every set of
   per-connection programs (plain commands and scripts of every variant, scripts being call
   STRATEGIES) and every schedule,

     - the dataset is what start-up computes from the log, at every instant (also in the middle of a
       script and after a script was aborted by a failing call);
     - the log is exactly the successful updating write calls, in the order they were made;
     - the events of a request whose lock switch took the exclusive lock (EVAL, EVALSHA, every write
       command) are contiguous in the history up to steps of threads that hold no server lock, its
       records are contiguous in the log, and everything any other locked step observes contains
       all or none of them;
     - a request that starts under a script table without a write arm (EVALRO, EVALROSHA) never
       changes the dataset or the log;
     - while a thread holds the exclusive lock - for a whole EVAL, or for one call of an EVALNA
       script - no other thread's step touches the dataset, the log or the lock.

   The locks, arms, refusals and logging flags are read from Gen/LockTable.v, Gen/ScriptTables.v,
   Gen/Dispatch.v and Gen/Mutators.v; the facts needed about them are computed here over the whole
   tables (vm_compute) and lifted to every command string. *)
From Coq Require Import String List Bool Arith Lia.
From T38 Require Import Base.Bytes Base.ListFacts Model.Resp Model.Aof Proofs.AofProofs.
From T38 Require Import Model.Tables Gen.LockTable Gen.Dispatch Gen.ScriptTables Gen.Mutators
  Model.Gate Model.Replay Model.Script Proofs.GateProofs.
From T38 Require Proofs.LuaPoolProofs.
Import ListNotations.
Local Open Scope string_scope.
Local Open Scope list_scope.
Local Open Scope nat_scope.

Lemma Forall_snoc {A} (P : A -> Prop) l x : Forall P l -> P x -> Forall P (l ++ [x]).
Proof. intros Hl Hx. apply Forall_app. split; [exact Hl | constructor; [exact Hx | constructor]]. Qed.

Lemma Forall_snoc_inv {A} (P : A -> Prop) l x : Forall P (l ++ [x]) -> Forall P l /\ P x.
Proof. intros H. apply Forall_app in H as [H1 H2]. inversion H2; subst. split; assumption. Qed.

Lemma in_snoc {A} (x y : A) l : In x (l ++ [y]) -> In x l \/ x = y.
Proof. intros H. apply in_app_or in H as [H|[H|[]]]; [left; exact H | right; symmetry; exact H]. Qed.

Lemma flat_map_snoc {A B} (f : A -> list B) l x : flat_map f (l ++ [x]) = flat_map f l ++ f x.
Proof. rewrite flat_map_app. cbn. rewrite app_nil_r. reflexivity. Qed.

Lemma lockk_eqb_eq a b : lockk_eqb a b = true <-> a = b.
Proof. destruct a, b; cbn; split; congruence. Qed.

Lemma lmax_none_r l : lmax l LNone = l.
Proof. destruct l; reflexivity. Qed.

Lemma lmax_none_l l : lmax LNone l = l.
Proof. destruct l; reflexivity. Qed.

(* in every script variant, an arm that logs runs under the exclusive lock: the one the command that
   started the script took, or the one the arm takes itself *)
Lemma script_write_arm_excl v t c :
  assoc script_variant v = Some t ->
  a_write (arm_of t c) && t_logs_on_write t = true ->
  lmax (a_lock (arm_of lock_table v)) (a_lock (arm_of t c)) = LExcl.
Proof.
  assert (Hw : forallb (fun vt => forallb (fun a => implb (a_write a && t_logs_on_write (snd vt))
                   (lockk_eqb (lmax (a_lock (arm_of lock_table (fst vt))) (a_lock a)) LExcl))
                   (t_default (snd vt) :: t_arms (snd vt))) script_variant = true) by (vm_compute; reflexivity).
  rewrite forallb_forall in Hw. intros Hv H. specialize (Hw _ (LuaPoolProofs.assoc_in _ _ _ Hv)). cbn [fst snd] in Hw.
  pose proof (arm_of_all t _ Hw c) as Hc. cbv beta in Hc. rewrite H in Hc. apply lockk_eqb_eq. exact Hc.
Qed.

(* in every script variant, a sub-command whose handler can change the dataset and that is let
   through falls into an arm that logs *)
Lemma variant_logged v t : assoc script_variant v = Some t -> forall c, script_logged_check t c = true.
Proof.
  assert (Hw : forallb (fun vt => forallb (fun c => in_strs c script_deny ||
                   match a_reject (arm_of (snd vt) c) with RNo => a_write (arm_of (snd vt) c) && t_logs_on_write (snd vt) | _ => true end)
                   changing_script) script_variant = true) by (vm_compute; reflexivity).
  rewrite forallb_forall in Hw. intros Hv. specialize (Hw _ (LuaPoolProofs.assoc_in _ _ _ Hv)). cbn [snd] in Hw.
  exact (lift_touches dispatch_script _ changing_script changing_script_eq Hw).
Qed.

(* start-up sends a logged sub-command through Server.command: same handler as commandInScript *)
Lemma script_handler_is_top_handler c h :
  find_handler dispatch_script c = Some h -> exists h', find_handler dispatch c = Some h' /\ h_fn h' = h_fn h.
Proof.
  assert (Hw : forallb (fun h => match find_handler dispatch (h_cmd h) with
                                 | Some h' => String.eqb (h_fn h') (h_fn h) | None => false end) dispatch_script = true)
    by (vm_compute; reflexivity).
  rewrite forallb_forall in Hw. intros H. destruct (find_handler_spec _ _ _ H) as [Hi Hc].
  specialize (Hw _ Hi). rewrite Hc in Hw.
  destruct (find_handler dispatch c) as [h'|]; [|discriminate].
  exists h'. split; [reflexivity | apply String.eqb_eq; exact Hw].
Qed.

(* the script tables without a write arm, and the commands that start a script under them *)
Definition table_never_logs (t : table) : bool :=
  forallb (fun a => negb (a_write a && t_logs_on_write t)) (t_default t :: t_arms t).

Definition starts_script (v : string) : bool :=
  match find_handler dispatch v with Some h => String.eqb (h_fn h) eval_handler | None => false end.

(* a command word under which a request never logs: it starts a script, under such a table *)
Definition ro_name (v : string) : bool :=
  starts_script v && negb (in_strs v dev_only) &&
  match assoc script_variant v with Some t => table_never_logs t | None => true end.

Lemma evalro_tables :
  forallb (fun v => starts_script v && negb (in_strs v dev_only) &&
                    match assoc script_variant v with Some t => table_never_logs t | None => false end)
          ["evalro"; "evalrosha"] = true.
Proof. vm_compute. reflexivity. Qed.

Lemma eval_takes_excl :
  forallb (fun v => starts_script v && lockk_eqb (a_lock (arm_of lock_table v)) LExcl) ["eval"; "evalsha"] = true.
Proof. vm_compute. reflexivity. Qed.

Lemma evalna_takes_none :
  forallb (fun v => starts_script v && lockk_eqb (a_lock (arm_of lock_table v)) LNone &&
                    match assoc script_variant v with
                    | Some t => forallb (fun a => implb (a_write a) (lockk_eqb (a_lock a) LExcl)) (t_default t :: t_arms t)
                    | None => false end) ["evalna"; "evalnasha"] = true.
Proof. vm_compute. reflexivity. Qed.

(* The two hypotheses about the handler semantics. A command that fails or reports "not updated" leaves
   the dataset as it was (for the keyspace model of C01 this is c01_error_changes_nothing / c03ks_noupd) *)
Definition noupd_ok {S val herr : Type} (handler : string -> S -> cmd -> S * (val + herr) * bool) : Prop :=
  forall fn s c s' r upd, handler fn s c = (s', r, upd) -> is_ok r && upd = false -> s' = s.
(* what Gen/Mutators.v means: a handler from which no mutation of the dataset is reachable does
   not change the dataset *)
Definition pure_ok {S val herr : Type} (handler : string -> S -> cmd -> S * (val + herr) * bool) : Prop :=
  forall fn s c s' r upd, handler fn s c = (s', r, upd) -> touches dataset_structs (fn_effects fn) = false -> s' = s.

Section ScriptProofs.
Variables S val herr : Type.
Variable cname : cmd -> string.
Variable handler : string -> S -> cmd -> S * (val + herr) * bool.
Variable e : env.
Variable s0 : S.
Hypothesis h_noupd : noupd_ok handler.
Hypothesis h_pure : pure_ok handler.

Notation gstate := (gstate S val herr).
Notation effect := (effect S val herr).
Notation event := (event S val herr).
Notation tstate := (tstate val herr).
Notation plan := (plan cname handler e).
Notation sstep := (sstep cname handler e).
Notation srun := (srun cname handler e).
Notation call_body := (call_body cname handler e).
Notation exec_top := (exec_top cname handler).
Notation replay_log := (replay_log cname handler).
Notation outer_lock := (outer_lock cname).
Notation outerh := (outerh cname).

(* an answer, a refusal, the entry into the Lua function: no handler runs *)
Definition quiet (k : ekind S val herr) : bool :=
  match k with KEnter | KRefused _ _ | KAns _ => true | _ => false end.

Definition kind_after (s : S) (kd : ekind S val herr) : S :=
  match kd with KExec _ _ after _ _ _ => after | _ => s end.

Definition kind_rec (kd : ekind S val herr) : option cmd :=
  match kd with KExec c _ _ _ _ true => Some c | _ => None end.

(* what has to hold of a step recorded as kd, made on dataset s inside a request named nm while holding h:
   the lock switch took the lock of the command's arm; a handler is recorded with what it saw, the dataset
   moves exactly as start-up will move it when it meets the record (not at all when there is none), and a
   record is appended under the exclusive lock only and never by a read-only request *)
Definition kind_ok (s : S) (nm : string) (h : lockk) (kd : ekind S val herr) : Prop :=
  match kd with
  | KStart l => l = a_lock (arm_of lock_table nm) /\ h = l
  | KExec c seen after r upd logged =>
      seen = s /\ after = (if logged then fst (exec_top s c) else s) /\
      (logged = true -> (h = LExcl /\ is_ok r = true /\ upd = true) /\ ro_name nm = false)
  | _ => True
  end.

Lemma kind_ok_after s nm h kd :
  kind_ok s nm h kd -> kind_after s kd = match kind_rec kd with Some c => fst (exec_top s c) | None => s end.
Proof. destruct kd as [| |c seen after r upd []| | | | |]; try reflexivity; intros [_ [H _]]; exact H. Qed.

Lemma kind_ok_norec s nm h kd : kind_ok s nm h kd -> h <> LExcl \/ ro_name nm = true -> kind_rec kd = None.
Proof.
  destruct kd as [| |c seen after r upd []| | | | |]; try reflexivity.
  intros [_ [_ H]]. destruct (H eq_refl) as [[Hx _] Hro]. intros [N|N]; [destruct (N Hx) | congruence].
Qed.

Lemma ev_recs_kind (ev : event) :
  ev_recs ev = match kind_rec (e_kind ev) with Some c => [mkRec (e_tid ev) (e_rid ev) c] | None => [] end.
Proof. unfold Script.ev_recs. destruct (e_kind ev) as [| |c ? ? ? ? []| | | | |]; reflexivity. Qed.

(* a handler ran, under an arm whose logging flag is w: with the flag it holds the exclusive lock,
   without it nothing that changes the dataset is reachable from the handler *)
Lemma kind_ok_exec s nm c h' s' r upd w h :
  find_handler dispatch (cname c) = Some h' ->                    (* start-up runs the same handler *)
  handler (h_fn h') s c = (s', r, upd) ->
  (w = true -> h = LExcl /\ ro_name nm = false) ->
  (w = false -> touches dataset_structs (fn_effects (h_fn h')) = false) ->
  kind_ok s nm h (KExec c s s' r upd (w && is_ok r && upd)).
Proof.
  intros Hf Hh Hw Hp. split; [reflexivity|]. rewrite <- andb_assoc. destruct w; cbn [andb].
  - split.
    + destruct (is_ok r && upd) eqn:Eok; [|exact (h_noupd _ _ _ _ _ _ Hh Eok)].
      unfold Script.exec_top. rewrite Hf, Hh. reflexivity.
    + intros Eok. destruct (Hw eq_refl) as [Hx Hro]. apply andb_true_iff in Eok. exact (conj (conj Hx Eok) Hro).
  - split; [exact (h_pure _ _ _ _ _ _ Hh (Hp eq_refl)) | discriminate].
Qed.

(* handleInputCommand running the handler of a plain command *)
Lemma top_body_spec c h s s' r upd :
  find_handler dispatch (cname c) = Some h -> in_strs (cname c) dev_only = false ->
  String.eqb (h_fn h) eval_handler = false -> handler (h_fn h) s c = (s', r, upd) ->
  kind_ok s (cname c) (outer_lock c)
    (KExec c s s' r upd (a_write (arm_of lock_table (cname c)) && t_logs_on_write lock_table && is_ok r && upd)).
Proof.
  intros Hf Hd Hev Hh. apply (kind_ok_exec s _ c h s' r upd _ _ Hf Hh).
  - intros Hw. split; [apply write_arm_excl; apply andb_true_iff in Hw; exact (proj1 Hw)|].
    (* a plain command is not one that starts a script *)
    unfold ro_name, starts_script. rewrite Hf, Hev. reflexivity.
  - intros Hw. pose proof (every_change_logged (cname c)) as L.
    unfold logged_check, changes, handler_effects in L. rewrite Hd, Hw, Hf, andb_true_r in L.
    destruct (touches dataset_structs (fn_effects (h_fn h))); [discriminate L | reflexivity].
Qed.

Lemma never_logs_arm t c : table_never_logs t = true -> a_write (arm_of t c) && t_logs_on_write t = false.
Proof. intros Hn. apply negb_true_iff. exact (arm_of_all t _ Hn c). Qed.

(* luaTile38AtomicRW / AtomicRO / NonAtomic from the gate on, in a script started by the command word v:
   what is recorded, whatever the table and the arm; what it means, when they are the ones
   luaTile38Call chose *)
Lemma call_body_spec v t a s prot c k kd s' rc p' :
  call_body s prot c k t a = (kd, s', rc, p') ->
  (forall l, kd <> KStart l) /\ s' = kind_after s kd /\ rc = kind_rec kd /\
  (assoc script_variant v = Some t -> a = arm_of t (cname c) -> in_strs (cname c) script_deny = false -> a_reject a = RNo ->
   kind_ok s v (lmax (a_lock (arm_of lock_table v)) (a_lock a)) kd).
Proof.
  unfold Script.call_body.
  destruct (arm_verdict a e); [|destruct (find_handler dispatch_script (cname c)) as [h|] eqn:Ef].
  1, 3: (* refused *)
    intros [= <- <- <- _]; split; [discriminate|]; do 2 (split; [reflexivity|]); intros _ _ _ _; exact I.
  destruct (handler (h_fn h) s c) as [[s1 r] upd] eqn:Eh. intros [= <- <- <- _]. split; [discriminate|]. do 2 (split; [reflexivity|]). intros Hv -> Hd Hr.
  destruct (script_handler_is_top_handler _ _ Ef) as [h' [Hf' Hfn]]. rewrite <- Hfn in Eh.
  apply (kind_ok_exec s v c h' s1 r upd _ _ Hf' Eh).
  - intros Hw. split; [exact (script_write_arm_excl v t (cname c) Hv Hw)|].
    (* the table has a logging arm, so v is none of the read-only words *)
    unfold ro_name. rewrite Hv. destruct (table_never_logs t) eqn:En; [|apply andb_false_r].
    rewrite (never_logs_arm t (cname c) En) in Hw. discriminate Hw.
  - intros Hw. pose proof (variant_logged v t Hv (cname c)) as L.
    unfold script_logged_check, changes_script, handler_effects in L. rewrite Hd, Hr, Hw, Ef, <- Hfn in L.
    destruct (touches dataset_structs (fn_effects (h_fn h'))); [discriminate L | reflexivity].
Qed.

Definition pc_ok (ts : tstate) : Prop :=
  match t_pc ts with
  | PCallHeld prot c k t a =>
      assoc script_variant (cname (t_cmd ts)) = Some t /\ a = arm_of t (cname c) /\
      in_strs (cname c) script_deny = false /\ a_reject a = RNo
  | _ => True
  end.

(* the same request of the same connection, somewhere else in handleInputCommand; set_pc and next_call
   are of this form *)
Definition stay (ts : tstate) (n : nat) (p : pc val herr) : tstate := mkT (t_todo ts) (t_rid ts) n (t_cmd ts) p.

(* inside a request, but not inside a call of an EVALNA script: all the thread holds is what the lock
   switch took *)
Definition calm (p : pc val herr) : bool := match p with PEntered _ | PScript _ | PLeave => true | _ => false end.

Lemma calm_holds (ts : tstate) : calm (t_pc ts) = true -> t_pc ts <> PIdle /\ innerh ts = LNone /\ pc_ok ts.
Proof.
  unfold Script.innerh, pc_ok. destruct (t_pc ts); try discriminate; intros _; (split; [discriminate | split; [reflexivity | exact I]]).
Qed.

Definition shape (ts ts' : tstate) (k : ekind S val herr) : Prop :=
  (t_pc ts = PIdle /\ t_pc ts' <> PIdle /\ t_rid ts' = t_rid ts /\ k = KStart (outer_lock (t_cmd ts'))) \/
  (t_pc ts <> PIdle /\ t_pc ts' <> PIdle /\ t_rid ts' = t_rid ts /\ t_cmd ts' = t_cmd ts /\ (forall l, k <> KStart l)) \/
  (t_pc ts <> PIdle /\ t_pc ts' = PIdle /\ t_rid ts' = Datatypes.S (t_rid ts) /\ (forall l, k <> KStart l)).

Section Class.
Variable g : gstate.
Variable u : nat.
Let ts := th g u.
Let nm := cname (t_cmd ts).
Let ol := outer_lock (t_cmd ts).

(* the effects `plan g u` can return *)
Inductive sclass : effect -> Prop :=
| SCstart q rest :
    t_pc ts = PIdle -> t_todo ts = q :: rest -> can_acquire (wr g) (rd g) (outer_lock (q_cmd q)) = true ->
    sclass (mkEff (mkT rest (t_rid ts) 0 (q_cmd q) (PEntered (q_prog q))) (cname (q_cmd q))
                  (KStart (outer_lock (q_cmd q))) (outer_lock (q_cmd q)) (LAcq (outer_lock (q_cmd q))) (shared g) None)
| SCacq prot c k t a :
    t_pc ts = PScript (Call prot c k) -> a_lock a <> LNone -> can_acquire (wr g) (rd g) (a_lock a) = true ->
    pc_ok (set_pc ts (PCallHeld prot c k t a)) ->
    sclass (mkEff (set_pc ts (PCallHeld prot c k t a)) nm (KAcq (a_lock a)) (lmax ol (a_lock a)) (LAcq (a_lock a))
                  (shared g) None)
| SCrel l p :
    t_pc ts = PCallRel l p ->
    sclass (mkEff (next_call ts (PScript p)) nm (KRel l) (lmax ol l) (LRel l) (shared g) None)
| SCend :
    t_pc ts = PLeave ->
    sclass (mkEff (mkT (t_todo ts) (Datatypes.S (t_rid ts)) 0 [] PIdle) nm (KEnd ol) ol (LRel ol) (shared g) None)
| SCint n p kd h :                            (* a step inside the request that leaves the server lock alone *)
    t_pc ts <> PIdle -> p <> PIdle -> innerh (stay ts n p) = innerh ts -> pc_ok (stay ts n p) ->
    h = lmax ol (innerh ts) -> (forall l, kd <> KStart l) ->
    (pc_ok ts -> kind_ok (shared g) nm h kd) ->
    sclass (mkEff (stay ts n p) nm kd h LKeep (kind_after (shared g) kd) (kind_rec kd)).

Lemma calm_step n p kd :
  calm (t_pc ts) = true -> calm p = true -> (forall l, kd <> KStart l) -> kind_ok (shared g) nm ol kd ->
  sclass (mkEff (stay ts n p) nm kd ol LKeep (kind_after (shared g) kd) (kind_rec kd)).
Proof.
  intros Hc Hp Hk Hd. destruct (calm_holds ts Hc) as [Hn [Hi _]]. destruct (calm_holds (stay ts n p) Hp) as [Hn' [Hi' Hok]].
  apply SCint; [exact Hn | exact Hn' | rewrite Hi; exact Hi' | exact Hok | rewrite Hi; symmetry; apply lmax_none_r
               | exact Hk | intros _; exact Hd].
Qed.

Lemma quiet_step n p kd :
  calm (t_pc ts) = true -> calm p = true -> quiet kd = true -> sclass (mkEff (stay ts n p) nm kd ol LKeep (shared g) None).
Proof.
  intros Hc Hp Hq. destruct kd; try discriminate Hq; (apply calm_step; [exact Hc | exact Hp | discriminate | exact I]).
Qed.

Lemma plan_class f : plan g u = Some f -> sclass f.
Proof.
  unfold Script.plan. fold ts. fold nm. fold ol.
  destruct (t_pc ts) as [|p|p|prot c k t a|l p|] eqn:Epc.
  - (* PIdle *)
    destruct (t_todo ts) as [|q rest] eqn:Et; [discriminate|].
    destruct (can_acquire (wr g) (rd g) (Script.outer_lock cname (q_cmd q))) eqn:Ec; [|discriminate].
    intros [= <-]. apply SCstart; assumption.
  - (* PEntered *)
    assert (Hc : calm (t_pc ts) = true) by (rewrite Epc; reflexivity).
    destruct (arm_verdict (arm_of lock_table nm) e); [intros [= <-]; now apply quiet_step|].
    destruct (in_strs nm dev_only) eqn:Edev; [intros [= <-]; now apply quiet_step|].
    destruct (find_handler dispatch nm) as [h|] eqn:Ef; [|intros [= <-]; now apply quiet_step].
    destruct (String.eqb (h_fn h) eval_handler) eqn:Eev; [intros [= <-]; now apply quiet_step|].
    destruct (handler (h_fn h) (shared g) (t_cmd ts)) as [[s1 r] upd] eqn:Eh. intros [= <-].
    apply (calm_step _ PLeave); [exact Hc | reflexivity | discriminate | exact (top_body_spec _ _ _ _ _ _ Ef Edev Eev Eh)].
  - (* PScript *)
    assert (Hc : calm (t_pc ts) = true) by (rewrite Epc; reflexivity).
    destruct p as [v|er|prot c k]; [intros [= <-]; now apply quiet_step..|].
    destruct (in_strs (cname c) script_deny) eqn:Ed; [intros [= <-]; now apply quiet_step|].
    destruct (assoc script_variant nm) as [t|] eqn:Ev; [|intros [= <-]; now apply quiet_step].
    destruct (a_reject (arm_of t (cname c))) eqn:Er; [|intros [= <-]; now apply quiet_step..].
    assert (Hacq : forall l, a_lock (arm_of t (cname c)) = l -> l <> LNone ->
      (if can_acquire (wr g) (rd g) l
       then Some (mkEff (set_pc ts (PCallHeld prot c k t (arm_of t (cname c)))) nm (KAcq l) (lmax ol l) (LAcq l) (shared g) None)
       else None) = Some f -> sclass f).
    { intros l <- Hl. destruct (can_acquire (wr g) (rd g) _) eqn:Ec; [|discriminate].
      intros [= <-]. apply SCacq; try assumption. unfold pc_ok. cbn. fold ts. fold nm. repeat split; assumption. }
    destruct (a_lock (arm_of t (cname c))) eqn:Elk; [apply Hacq; [reflexivity | discriminate]..|].
    destruct (call_body (shared g) prot c k t (arm_of t (cname c))) as [[[kd s1] rc] p'] eqn:Eb. intros [= <-].
    destruct (call_body_spec nm _ _ _ _ _ _ _ _ _ _ Eb) as [B1 [-> [-> B2]]]. specialize (B2 Ev eq_refl Ed Er).
    rewrite Elk, lmax_none_r in B2. exact (calm_step _ (PScript p') _ Hc eq_refl B1 B2).
  - (* PCallHeld *)
    assert (Hn : t_pc ts <> PIdle) by (rewrite Epc; discriminate).
    destruct (call_body (shared g) prot c k t a) as [[[kd s1] rc] p'] eqn:Eb. intros [= <-].
    destruct (call_body_spec nm _ _ _ _ _ _ _ _ _ _ Eb) as [B1 [-> [-> B2]]].
    assert (Hin : innerh ts = a_lock a) by (unfold innerh; rewrite Epc; reflexivity).
    apply (SCint _ (PCallRel _ p')); [exact Hn | discriminate | symmetry; exact Hin | exact I
                                    | rewrite Hin; reflexivity | exact B1 |].
    (* the table and the arm kept since the lock was taken are the ones luaTile38Call chose *)
    unfold pc_ok. rewrite Epc. intros [Ev [Ea [Ed Er]]]. subst a. exact (B2 Ev eq_refl Ed Er).
  - (* PCallRel *)
    intros [= <-]. apply SCrel. exact Epc.
  - (* PLeave *)
    intros [= <-]. apply SCend. exact Epc.
Qed.

Lemma class_data f : sclass f -> f_shared f = kind_after (shared g) (f_kind f) /\ f_rec f = kind_rec (f_kind f).
Proof. intros []; split; reflexivity. Qed.

Lemma class_kind_ok f : sclass f -> pc_ok ts -> kind_ok (shared g) (f_name f) (f_held f) (f_kind f).
Proof. intros [| | | |? ? ? ? ? ? ? ? ? ? H] Hok; [split; reflexivity | exact I.. | exact (H Hok)]. Qed.

Lemma class_after f :
  sclass f -> pc_ok ts -> f_shared f = match f_rec f with Some c => fst (exec_top (shared g) c) | None => shared g end.
Proof.
  intros Hc Hok. destruct (class_data f Hc) as [-> ->]. exact (kind_ok_after _ _ _ _ (class_kind_ok f Hc Hok)).
Qed.

Lemma class_pc_ok f : sclass f -> pc_ok (f_ts f).
Proof. intros [| ? ? ? ? ? ? ? ? H | | | ? ? ? ? ? ? ? H]; try exact H; exact I. Qed.

Lemma class_name f : sclass f -> t_pc ts <> PIdle -> f_name f = nm.
Proof. intros [q rest Hpc| | | |]; [congruence | reflexivity..]. Qed.

Lemma class_norec f : sclass f -> pc_ok ts -> f_held f <> LExcl \/ ro_name (f_name f) = true -> f_rec f = None.
Proof. intros Hc Hok. rewrite (proj2 (class_data f Hc)). exact (kind_ok_norec _ _ _ _ (class_kind_ok f Hc Hok)). Qed.

Lemma class_shape f : sclass f -> shape ts (f_ts f) (f_kind f).
Proof.
  intros [q rest Hpc | prot c k t a Hpc | l p Hpc | Hpc | n p kd h Hpc Hp _ _ _ Hk]; cbn.
  - left. repeat split; [exact Hpc | discriminate].
  - right; left. rewrite Hpc. repeat split; discriminate.
  - right; left. rewrite Hpc. repeat split; discriminate.
  - right; right. rewrite Hpc. repeat split; discriminate.
  - right; left. repeat split; assumption.
Qed.

End Class.

Definition new_event (g : gstate) (u : nat) (f : effect) : event :=
  mkEv u (t_rid (th g u)) (t_cid (th g u)) (f_name f) (f_held f) (length (log g)) (f_kind f).

Lemma commit_eq (g : gstate) u (f : effect) :
  commit g u f =
  mkG (f_shared f) (log g ++ match f_rec f with Some c => [mkRec u (t_rid (th g u)) c] | None => [] end)
      (hist g ++ [new_event g u f])
      (fst (lock_after (wr g) (rd g) u (f_lock f))) (snd (lock_after (wr g) (rd g) u (f_lock f)))
      (set_th (th g) u (f_ts f)).
Proof. unfold Script.commit. destruct (lock_after (wr g) (rd g) u (f_lock f)). reflexivity. Qed.

Lemma th_commit (g : gstate) u (f : effect) t : th (commit g u f) t = if Nat.eqb t u then f_ts f else th g t.
Proof. rewrite commit_eq. reflexivity. Qed.

Lemma new_event_recs (g : gstate) u f :
  sclass g u f ->
  ev_recs (new_event g u f) = match f_rec f with Some c => [mkRec u (t_rid (th g u)) c] | None => [] end.
Proof. intros Hc. rewrite ev_recs_kind, (proj2 (class_data g u f Hc)). reflexivity. Qed.

(* the server lock and what the threads think they hold.
   A thread has two slots, one for the lock of the lock switch (outerh) and one for the lock of a call
   of an EVALNA script (innerh). The lock words count them, lock by lock: wr names the one thread with an
   exclusive slot, rd has one entry per shared slot. A step fills an empty slot with the lock it takes (gain) or
   empties the slot of the lock it gives back (loss); the arithmetic does not care which of the two. *)

(* what a slot holding l adds to the count of lock k; an empty slot adds to none *)
Definition cnt (k l : lockk) : nat := match l with LNone => 0 | _ => if lockk_eqb k l then 1 else 0 end.
Definition slots (k : lockk) (ts : tstate) : nat := cnt k (outerh ts) + cnt k (innerh ts).
Definition held (ts : tstate) : lockk := lmax (outerh ts) (innerh ts).
Definition words (k : lockk) (w : option nat) (r : list nat) (t : nat) : nat :=
  match k with
  | LExcl => match w with Some x => if Nat.eqb t x then 1 else 0 | None => 0 end
  | LShared => count_occ Nat.eq_dec r t
  | LNone => 0
  end.
Definition gain (op : lockop) : lockk := match op with LAcq l => l | _ => LNone end.
Definition loss (op : lockop) : lockk := match op with LRel l => l | _ => LNone end.

Record LockInv (g : gstate) : Prop := mkLI {
  li_pc : forall t, pc_ok (th g t);
  li_cnt : forall k t, slots k (th g t) = words k (wr g) (rd g) t;
  li_wr : wr g <> None -> rd g = [] }.

Lemma outerh_nonidle (ts : tstate) : t_pc ts <> PIdle -> outerh ts = outer_lock (t_cmd ts).
Proof. unfold Script.outerh. destruct (t_pc ts); [congruence | reflexivity..]. Qed.

Lemma holds_excl (g : gstate) t : LockInv g -> outerh (th g t) = LExcl \/ innerh (th g t) = LExcl -> wr g = Some t.
Proof.
  intros LI H. pose proof (li_cnt g LI LExcl t) as E. unfold slots, words in E.
  destruct (wr g) as [x|]; [destruct (Nat.eqb_spec t x); [subst; reflexivity|] |];
    exfalso; (destruct H as [H|H]; rewrite H in E; [|rewrite Nat.add_1_r in E]; discriminate E).
Qed.

Lemma no_lock l : (forall k, cnt k l = 0) -> l = LNone.
Proof. intros H. destruct l; [discriminate (H LExcl) | discriminate (H LShared) | reflexivity]. Qed.

Lemma holds_nothing (ts : tstate) : (forall k, slots k ts = 0) -> held ts = LNone.
Proof.
  unfold slots, held. intros H.
  rewrite (no_lock (outerh ts)), (no_lock (innerh ts)); [reflexivity | intros k..]; apply (proj1 (Nat.eq_add_0 _ _) (H k)).
Qed.

(* the slots of the stepping thread before and after, and the strongest lock it holds while it steps
   (what it has after an acquisition, before a release):
     start (idle, -) -> (l, -) takes l      acquire (ol, -) -> (ol, l) takes l      inside (ol, i) stays
     end   (ol, -) -> (idle, -) gives ol    release (ol, l) -> (ol, -) gives l *)
Lemma class_slots g u f :
  sclass g u f ->
  let ts := th g u in let op := f_lock f in
  can_acquire (wr g) (rd g) (gain op) = true /\
  (forall k, slots k (f_ts f) + cnt k (loss op) = slots k ts + cnt k (gain op)) /\
  f_held f = lmax (held ts) (held (f_ts f)).
Proof.
  intros [q rest Hpc _ Hc | prot c k t a Hpc _ Hc _ | l p Hpc | Hpc | n p kd h Hpc Hp Hin _ -> _ _];
    cbn zeta; cbn [f_lock f_ts f_held gain loss can_acquire]; unfold slots, held.
  5: { rewrite (outerh_nonidle _ Hpc), (outerh_nonidle (stay (th g u) n p) Hp), Hin. cbn [t_cmd stay cnt].
       repeat split. destruct (lmax _ _); reflexivity. }
  all: unfold Script.outerh, Script.innerh; cbn [t_pc t_cmd set_pc next_call]; rewrite Hpc; cbn [cnt].
  - repeat split; [exact Hc | intros ?; now rewrite !Nat.add_0_r | rewrite !lmax_none_r, lmax_none_l; reflexivity].
  - repeat split; [exact Hc | intros ?; now rewrite !Nat.add_0_r | rewrite lmax_none_r; destruct (Script.outer_lock _ _), (a_lock a); reflexivity].
  - repeat split; [intros ?; now rewrite !Nat.add_0_r | rewrite lmax_none_r; destruct (Script.outer_lock _ _), l; reflexivity].
  - repeat split; [intros ?; now rewrite !Nat.add_0_r | rewrite !lmax_none_r; reflexivity].
Qed.

Lemma can_some t r l : can_acquire (Some t) r l = true -> l = LNone.
Proof. destruct l; cbn; [discriminate.. | reflexivity]. Qed.

Lemma other_step_free (g : gstate) t u f :
  LockInv g -> wr g = Some t -> u <> t -> sclass g u f ->
  f_held f = LNone /\ lock_after (wr g) (rd g) u (f_lock f) = (wr g, rd g).
Proof.
  intros [_ Icnt Iwr] Hw Hne Hc. destruct (class_slots g u f Hc) as [Hcan [Hs Hh]].
  (* u has no slot filled, it cannot take the lock, so it has none filled afterwards and gave none back *)
  assert (E0 : forall k, slots k (th g u) = 0).
  { intros k. rewrite Icnt, Hw, Iwr by congruence. apply Nat.eqb_neq in Hne. destruct k; cbn; [rewrite Hne|..]; reflexivity. }
  rewrite Hw in Hcan. apply can_some in Hcan. rewrite Hcan in Hs.
  assert (E1 : forall k, slots k (f_ts f) = 0 /\ cnt k (loss (f_lock f)) = 0)
    by (intros k; apply Nat.eq_add_0; rewrite Hs, E0; reflexivity).
  rewrite Hh, (holds_nothing _ E0), (holds_nothing _ (fun k => proj1 (E1 k))). split; [reflexivity|].
  pose proof (no_lock _ (fun k => proj2 (E1 k))) as Hl. destruct (f_lock f); cbn [gain loss] in Hcan, Hl; subst; reflexivity.
Qed.

Lemma count_remove_one u t l :
  In u l -> count_occ Nat.eq_dec (remove_one u l) t + (if Nat.eqb t u then 1 else 0) = count_occ Nat.eq_dec l t.
Proof.
  induction l as [|x l IH]; cbn [In remove_one]; [tauto|]. intros Hin.
  destruct (Nat.eqb_spec x u) as [->|Hx].
  - destruct (Nat.eqb_spec t u) as [->|Hne].
    + rewrite count_occ_cons_eq by reflexivity. apply Nat.add_1_r.
    + rewrite count_occ_cons_neq by congruence. apply Nat.add_0_r.
  - destruct Hin as [Hin|Hin]; [congruence|]. specialize (IH Hin).
    destruct (Nat.eq_dec x t) as [E|E];
      [rewrite !(count_occ_cons_eq _ _ E), <- IH | rewrite !(count_occ_cons_neq _ _ E), <- IH]; reflexivity.
Qed.

(* what Lock / RLock / Unlock / RUnlock by u do to the words, lock by lock and thread by thread *)
Lemma lock_after_count w r u op :
  can_acquire w r (gain op) = true ->
  (forall k, cnt k (loss op) <= words k w r u + cnt k (gain op)) -> (w <> None -> r = []) ->
  let w' := fst (lock_after w r u op) in let r' := snd (lock_after w r u op) in
  (forall k t, words k w' r' t + (if Nat.eqb t u then cnt k (loss op) else 0) =
               words k w r t + (if Nat.eqb t u then cnt k (gain op) else 0)) /\
  (w' <> None -> r' = []).
Proof.
  intros Hcan Hle Hwr.
  destruct op as [|[]|[]]; cbn [lock_after fst snd gain loss] in *; try (split; trivial; fail).
  - (* Lock: nobody held it *)
    destruct w, r; try discriminate Hcan. split; [|reflexivity]. intros k t. destruct k; cbn; destruct (Nat.eqb t u); reflexivity.
  - (* RLock *)
    destruct w; [discriminate Hcan|]. split; [|congruence]. intros k t. destruct k; [reflexivity | | reflexivity].
    cbn [words cnt lockk_eqb].
    destruct (Nat.eqb_spec t u) as [->|Hne].
    + rewrite count_occ_cons_eq, Nat.add_0_r, Nat.add_1_r; reflexivity.
    + rewrite count_occ_cons_neq by congruence. reflexivity.
  - (* Unlock: only the holder does *)
    assert (Hw : w = Some u).
    { specialize (Hle LExcl). cbn in Hle. destruct w as [x|]; [|inversion Hle].
      destruct (Nat.eqb_spec u x) as [<-|]; [reflexivity | inversion Hle]. }
    subst w. split; [|congruence]. intros k t. destruct k; cbn; destruct (Nat.eqb t u); reflexivity.
  - (* RUnlock *)
    split; [|intros Hw; rewrite (Hwr Hw); reflexivity]. intros k t. destruct k; [reflexivity | | reflexivity].
    cbn [words cnt lockk_eqb].
    rewrite count_remove_one by (apply (count_occ_In Nat.eq_dec); specialize (Hle LShared); rewrite Nat.add_0_r in Hle; exact Hle).
    destruct (Nat.eqb t u); symmetry; apply Nat.add_0_r.
Qed.

Lemma lockinv_commit g u f : LockInv g -> sclass g u f -> LockInv (commit g u f).
Proof.
  intros [Ipc Icnt Iwr] Hc. destruct (class_slots g u f Hc) as [Hcan [Hs _]].
  destruct (lock_after_count (wr g) (rd g) u (f_lock f) Hcan) as [Lw Lwr];
    [intros k; rewrite <- Icnt, <- Hs; apply Nat.le_add_l | exact Iwr |].
  rewrite commit_eq. constructor; cbn [th wr rd]; [intros t | intros k t | exact Lwr]; unfold set_th.
  - destruct (Nat.eqb t u); [exact (class_pc_ok g u f Hc) | apply Ipc].
  - specialize (Lw k t). destruct (Nat.eqb_spec t u) as [E|_]; [subst t|].
    + apply (Nat.add_cancel_r _ _ (cnt k (loss (f_lock f)))). rewrite Hs, Lw, Icnt. reflexivity.
    + rewrite !Nat.add_0_r in Lw. rewrite Lw. apply Icnt.
Qed.

(* per event of the history, while the log is lg: it was made on the dataset start-up computes from the
   records before it *)
Definition ev_inv (lg : list lrec) (ev : event) : Prop :=
  e_pos ev <= length lg /\
  kind_ok (replay_log (map r_cmd (firstn (e_pos ev) lg)) s0) (e_name ev) (e_held ev) (e_kind ev).

Record DataInv (g : gstate) : Prop := mkDI {
  di_replay : shared g = replay_log (aof g) s0;
  di_log : log g = recs_of (hist g);
  di_ev : Forall (ev_inv (log g)) (hist g) }.

Lemma replay_log_snoc l c : replay_log (l ++ [c]) s0 = fst (exec_top (replay_log l s0) c).
Proof. unfold Script.replay_log, replay. rewrite fold_left_app. reflexivity. Qed.

Lemma ev_inv_grow lg x ev : ev_inv lg ev -> ev_inv (lg ++ x) ev.
Proof.
  intros [Hp H]. split; [rewrite app_length; exact (Nat.le_trans _ _ _ Hp (Nat.le_add_r _ _))|].
  rewrite firstn_le_app by exact Hp. exact H.
Qed.

Lemma new_event_inv (g : gstate) u f : pc_ok (th g u) -> DataInv g -> sclass g u f -> ev_inv (log g) (new_event g u f).
Proof.
  intros Hok DI Hc. split; [apply Nat.le_refl|]. cbn [new_event e_pos e_name e_held e_kind].
  rewrite firstn_all. fold (aof g). rewrite <- (di_replay g DI). exact (class_kind_ok g u f Hc Hok).
Qed.

Lemma datainv_commit (g : gstate) u f : pc_ok (th g u) -> DataInv g -> sclass g u f -> DataInv (commit g u f).
Proof.
  intros Hok DI Hc. pose proof DI as [Irep Ilog Iev].
  rewrite commit_eq. constructor; unfold Script.aof; cbn [shared log hist].
  - rewrite (class_after g u f Hc Hok), map_app. fold (aof g).
    destruct (f_rec f) as [c|]; cbn [map]; [rewrite replay_log_snoc | rewrite app_nil_r]; rewrite <- Irep; reflexivity.
  - unfold Script.recs_of. rewrite flat_map_snoc. fold (recs_of (hist g)).
    rewrite <- Ilog, (new_event_recs g u f Hc). reflexivity.
  - apply Forall_snoc.
    + eapply Forall_impl; [|exact Iev]. intros ev. apply ev_inv_grow.
    + apply ev_inv_grow, new_event_inv; assumption.
Qed.

Lemma quiet_commit (g : gstate) u f :
  pc_ok (th g u) -> sclass g u f -> f_rec f = None -> shared (commit g u f) = shared g /\ log (commit g u f) = log g.
Proof.
  intros Hok Hc Hr. rewrite commit_eq. cbn [shared log]. rewrite (class_after g u f Hc Hok), Hr. split; [reflexivity | apply app_nil_r].
Qed.

Lemma rec_own t r (ev : event) x : In x (ev_recs ev) -> own_rec t r x = own t r ev.
Proof. rewrite ev_recs_kind. destruct (kind_rec (e_kind ev)); [intros [<-|[]]; reflexivity | intros []]. Qed.

Lemma filter_recs_of t r (h : list event) :
  filter (own_rec t r) (recs_of h) = recs_of (filter (own t r) h).
Proof.
  induction h as [|ev h IH]; [reflexivity|].
  cbn [Script.recs_of flat_map filter]. fold (recs_of h). rewrite filter_app, IH.
  destruct (own t r ev) eqn:Eo; [rewrite filter_all | rewrite filter_none]; try reflexivity;
    intros x Hx; rewrite (rec_own t r ev x Hx); exact Eo.
Qed.

Lemma recs_owner t r b (h : list event) :
  Forall (fun ev => own t r ev = b \/ ev_recs ev = []) h -> Forall (fun x => own_rec t r x = b) (recs_of h).
Proof.
  intros H. apply Forall_flat_map. eapply Forall_impl; [|exact H]. intros ev [Ho|E]; [|rewrite E; constructor].
  apply Forall_forall. intros x Hx. rewrite (rec_own t r ev x Hx). exact Ho.
Qed.

Definition notown t r (ev : event) : Prop := own t r ev = false.
Definition ownfree t r (ev : event) : Prop := own t r ev || free ev = true.
Definition nrec (h : list event) : nat := length (recs_of h).

Definition opendec t r (h : list event) : Prop :=
  exists pre mid, h = pre ++ mid /\ Forall (notown t r) pre /\ Forall (ownfree t r) mid /\
    Forall (fun ev => e_pos ev <= nrec pre) pre /\ Forall (fun ev => nrec pre <= e_pos ev <= nrec pre + nrec mid) mid.

Definition contig t r (h : list event) : Prop :=
  exists pre mid post, h = pre ++ mid ++ post /\
    Forall (notown t r) pre /\ Forall (ownfree t r) mid /\ Forall (notown t r) post /\
    Forall (fun ev => e_pos ev <= nrec pre) pre /\
    Forall (fun ev => nrec pre <= e_pos ev <= nrec pre + nrec mid) mid /\
    Forall (fun ev => nrec pre + nrec mid <= e_pos ev) post.

Definition marked t r (h : list event) : Prop :=
  exists ev, In ev h /\ own t r ev = true /\ e_kind ev = KStart LExcl.

Lemma nrec_app a b : nrec (a ++ b) = nrec a + nrec b.
Proof. unfold nrec, Script.recs_of. rewrite flat_map_app, app_length. reflexivity. Qed.

Lemma opendec_none t r h : Forall (notown t r) h -> Forall (fun x => e_pos x <= nrec h) h -> opendec t r h.
Proof. intros Hn Hp. exists h, []. rewrite app_nil_r. repeat split; try assumption; constructor. Qed.

Lemma opendec_snoc t r h ev :
  opendec t r h -> ownfree t r ev -> e_pos ev = nrec h -> opendec t r (h ++ [ev]).
Proof.
  intros [pre [mid [-> [Hn [Hm [Hp Hq]]]]]] Ho He. exists pre, (mid ++ [ev]).
  split; [rewrite app_assoc; reflexivity|]. split; [exact Hn|]. split; [apply Forall_snoc; assumption|].
  split; [exact Hp|]. rewrite !nrec_app in *. apply Forall_snoc; [|lia].
  eapply Forall_impl; [|exact Hq]. cbn beta. lia.
Qed.

(* an open request that ends is the contiguous block with nothing behind it *)
Lemma opendec_close t r h : opendec t r h -> contig t r h.
Proof.
  intros [pre [mid [-> [Hn [Hm [Hp Hq]]]]]]. exists pre, mid, []. rewrite app_nil_r.
  repeat split; try assumption; constructor.
Qed.

Lemma contig_snoc t r h ev :
  contig t r h -> notown t r ev -> e_pos ev = nrec h -> contig t r (h ++ [ev]).
Proof.
  intros [pre [mid [post [-> [Hn [Hm [Ho [Hp [Hq Hr]]]]]]]]] Hne He. exists pre, mid, (post ++ [ev]).
  split; [rewrite <- !app_assoc; reflexivity|]. split; [exact Hn|]. split; [exact Hm|].
  split; [apply Forall_snoc; assumption|]. split; [exact Hp|]. split; [exact Hq|].
  apply Forall_snoc; [exact Hr|]. rewrite He, !nrec_app. lia.
Qed.

(* the history as thread t, in state ts, reads it *)
Record HistT (t : nat) (ts : tstate) (h : list event) : Prop := mkHT {
  hi_future : forall r, (t_rid ts < r \/ (r = t_rid ts /\ t_pc ts = PIdle)) -> Forall (notown t r) h;
  hi_open : t_pc ts <> PIdle -> marked t (t_rid ts) h -> outer_lock (t_cmd ts) = LExcl /\ opendec t (t_rid ts) h;
  hi_past : forall r, r < t_rid ts -> marked t r h -> contig t r h }.

Definition HistInv (g : gstate) : Prop := forall t, HistT t (th g t) (hist g).

Lemma marked_snoc t r h ev :
  ~ (own t r ev = true /\ e_kind ev = KStart LExcl) -> marked t r (h ++ [ev]) -> marked t r h.
Proof.
  intros Hn [x [Hin [Ho Hk]]]. apply in_snoc in Hin as [Hin| ->]; [exists x; repeat split; assumption | destruct (Hn (conj Ho Hk))].
Qed.

Lemma marked_notown t r h ev : own t r ev = false -> marked t r (h ++ [ev]) -> marked t r h.
Proof. intros Hno. apply marked_snoc. intros [Ho _]. rewrite Hno in Ho. discriminate Ho. Qed.

Lemma unmarked t r h : Forall (notown t r) h -> ~ marked t r h.
Proof. intros Hf [x [Hin [Ho _]]]. rewrite Forall_forall in Hf. specialize (Hf x Hin). unfold notown in Hf. congruence. Qed.

Lemma past_snoc t r h ev :
  (marked t r h -> contig t r h) -> own t r ev = false -> e_pos ev = nrec h ->
  marked t r (h ++ [ev]) -> contig t r (h ++ [ev]).
Proof.
  intros Hpast Hno Hpos Hm. apply contig_snoc; [exact (Hpast (marked_notown _ _ _ _ Hno Hm)) | exact Hno | exact Hpos].
Qed.

(* another thread steps: nothing t reads changes, provided the step holds no lock while t's request
   runs under the exclusive one *)
Lemma hist_other t ts h ev :
  HistT t ts h -> e_tid ev <> t -> e_pos ev = nrec h ->
  (t_pc ts <> PIdle -> outer_lock (t_cmd ts) = LExcl -> free ev = true) ->
  HistT t ts (h ++ [ev]).
Proof.
  intros [Ifut Iopen Ipast] Hne Hpos Hfree.
  assert (Hno : forall r, own t r ev = false)
    by (intros r; unfold Script.own; destruct (Nat.eqb_spec (e_tid ev) t); [contradiction | reflexivity]).
  constructor.
  - intros r H. apply Forall_snoc; [exact (Ifut r H) | apply Hno].
  - intros Hn Hm. destruct (Iopen Hn (marked_notown _ _ _ _ (Hno _) Hm)) as [Hex Hop]. split; [exact Hex|].
    apply opendec_snoc; [exact Hop | | exact Hpos].
    unfold ownfree. rewrite (Hfree Hn Hex). apply orb_true_r.
  - intros r Hlt. exact (past_snoc t r h ev (Ipast r Hlt) (Hno r) Hpos).
Qed.

Lemma hist_self t ts ts' h ev :
  HistT t ts h -> Forall (fun x => e_pos x <= nrec h) h ->
  e_tid ev = t -> e_rid ev = t_rid ts -> e_pos ev = nrec h -> shape ts ts' (e_kind ev) ->
  HistT t ts' (h ++ [ev]).
Proof.
  intros [Ifut Iopen Ipast] Hall Ht Hr Hpos Hshape.
  assert (Hown : forall r, own t r ev = Nat.eqb (t_rid ts) r)
    by (intros r; unfold Script.own; rewrite Ht, Hr, Nat.eqb_refl; reflexivity).
  assert (Hmine : ownfree t (t_rid ts) ev) by (unfold ownfree; rewrite Hown, Nat.eqb_refl; reflexivity).
  assert (Hfut : forall r, t_rid ts < r -> Forall (notown t r) (h ++ [ev])).
  { intros r Hlt. apply Forall_snoc; [apply Ifut; left; exact Hlt|].
    unfold notown. rewrite Hown. apply Nat.eqb_neq, Nat.lt_neq, Hlt. }
  assert (Hpast : forall r, r < t_rid ts -> marked t r (h ++ [ev]) -> contig t r (h ++ [ev])).
  { intros r Hlt. apply (past_snoc t r h ev (Ipast r Hlt)); [|exact Hpos].
    rewrite Hown. apply Nat.eqb_neq, not_eq_sym, Nat.lt_neq, Hlt. }
  destruct Hshape as [[Hi [Hn' [Hr' Hk]]] | [[Hn [Hn' [Hr' [Hc Hk]]]] | [Hn [Hi' [Hr' Hk]]]]]; constructor; rewrite Hr'.
  - intros r [Hlt|[_ Hi']]; [exact (Hfut r Hlt) | contradiction].
  - (* nothing of the request was in the history: its mark is the KStart just made *)
    intros _ [x [Hin [Ho Hx]]]. pose proof (Ifut _ (or_intror (conj eq_refl Hi))) as Hnone.
    apply in_snoc in Hin as [Hin| ->]; [destruct (unmarked _ _ _ Hnone); exists x; repeat split; assumption|].
    rewrite Hk in Hx. injection Hx as Hx. split; [exact Hx|].
    exact (opendec_snoc _ _ _ _ (opendec_none _ _ _ Hnone Hall) Hmine Hpos).
  - exact Hpast.
  - intros r [Hlt|[_ Hi']]; [exact (Hfut r Hlt) | contradiction].
  - rewrite Hc. intros _ Hm. apply marked_snoc in Hm; [|intros [_ Hx]; exact (Hk _ Hx)].
    destruct (Iopen Hn Hm) as [Hex Hop]. split; [exact Hex | exact (opendec_snoc _ _ _ _ Hop Hmine Hpos)].
  - exact Hpast.
  - intros r [Hlt|[-> _]]; apply Hfut; [apply Nat.lt_succ_l; exact Hlt | apply Nat.lt_succ_diag_r].
  - contradiction.
  - intros r Hlt Hm. apply Nat.lt_succ_r, Nat.le_lteq in Hlt as [Hlt| ->]; [exact (Hpast r Hlt Hm)|].
    (* the request that just ended: it was marked before this step *)
    apply marked_snoc in Hm; [|intros [_ Hx]; exact (Hk _ Hx)].
    exact (opendec_close _ _ _ (opendec_snoc _ _ _ _ (proj2 (Iopen Hn Hm)) Hmine Hpos)).
Qed.

Lemma hist_pos (g : gstate) : DataInv g -> Forall (fun x => e_pos x <= nrec (hist g)) (hist g).
Proof.
  intros [_ Ilog Iev]. unfold nrec. rewrite <- Ilog. eapply Forall_impl; [|exact Iev]. intros ev H. exact (proj1 H).
Qed.

Lemma histinv_commit (g : gstate) u f :
  LockInv g -> DataInv g -> HistInv g -> sclass g u f -> HistInv (commit g u f).
Proof.
  intros LI DI HI Hc t.
  assert (Hpos : e_pos (new_event g u f) = nrec (hist g)) by (cbn; unfold nrec; rewrite <- (di_log g DI); reflexivity).
  rewrite th_commit, commit_eq. cbn [hist]. destruct (Nat.eqb_spec t u) as [->|Hne].
  - apply (hist_self u (th g u)); [apply HI | exact (hist_pos g DI) | reflexivity | reflexivity | exact Hpos | exact (class_shape g u f Hc)].
  - apply hist_other; [apply HI | exact (not_eq_sym Hne) | exact Hpos |].
    intros Hn Hex.
    assert (Hw : wr g = Some t) by (apply (holds_excl g t LI); left; rewrite (outerh_nonidle _ Hn); exact Hex).
    destruct (other_step_free g t u f LI Hw (not_eq_sym Hne) Hc) as [Hh _].
    unfold Script.free. cbn. rewrite Hh. reflexivity.
Qed.

Record AllInv (g : gstate) : Prop := mkAI { ai_lock : LockInv g; ai_data : DataInv g; ai_hist : HistInv g }.

Lemma inv_init progs : AllInv (sinit s0 progs).
Proof.
  constructor.
  - constructor; cbn; [intros t; exact I | intros k t; destruct k; reflexivity | congruence].
  - constructor; cbn; [reflexivity | reflexivity | constructor].
  - intros t. constructor; cbn.
    + intros; constructor.
    + congruence.
    + intros r H. inversion H.
Qed.

Lemma step_class g u : sstep g u = g \/ exists f, sclass g u f /\ sstep g u = commit g u f.
Proof.
  unfold Script.sstep. destruct (plan g u) as [f|] eqn:Hp; [right | left; reflexivity].
  exists f. split; [exact (plan_class g u f Hp) | reflexivity].
Qed.

Lemma inv_step g u : AllInv g -> AllInv (sstep g u).
Proof.
  intros [LI DI HI]. destruct (step_class g u) as [->|[f [Hc ->]]]; [constructor; assumption|].
  constructor; [exact (lockinv_commit g u f LI Hc) | exact (datainv_commit g u f (li_pc g LI u) DI Hc) | exact (histinv_commit g u f LI DI HI Hc)].
Qed.

Theorem reach_inv progs sched : AllInv (srun (sinit s0 progs) sched).
Proof.
  unfold Script.srun. apply fold_left_inv; [intros g t _; apply inv_step | apply inv_init].
Qed.

Section Reach.
Variable progs : nat -> list (req val herr).
Variable sched : list nat.
Let g := srun (sinit s0 progs) sched.

Lemma reach_lock : LockInv g.
Proof. exact (ai_lock g (reach_inv progs sched)). Qed.

Lemma reach_data : DataInv g.
Proof. exact (ai_data g (reach_inv progs sched)). Qed.

Lemma hist_ev ev : In ev (hist g) -> ev_inv (log g) ev.
Proof. apply Forall_forall. exact (di_ev g reach_data). Qed.

Lemma hist_norec ev : In ev (hist g) -> e_held ev <> LExcl \/ ro_name (e_name ev) = true -> ev_recs ev = [].
Proof. intros Hin H. rewrite ev_recs_kind, (kind_ok_norec _ _ _ _ (proj2 (hist_ev ev Hin)) H). reflexivity. Qed.

(* the dataset is what start-up computes from the log - at every instant *)
Theorem state_is_replay_of_log : shared g = replay_log (aof g) s0.
Proof. exact (di_replay g reach_data). Qed.

(* the log is exactly the successful updating write calls, once each, in the order they were
   made; a call that was not logged changed nothing *)
Theorem log_is_the_successful_writes :
  log g = recs_of (hist g) /\
  (forall t r, filter (own_rec t r) (log g) = recs_of (filter (own t r) (hist g))) /\
  (forall ev c seen after r upd logged, In ev (hist g) -> e_kind ev = KExec c seen after r upd logged ->
     (logged = true -> e_held ev = LExcl /\ is_ok r = true /\ upd = true) /\ (logged = false -> after = seen)).
Proof.
  split; [exact (di_log g reach_data)|]. split.
  - intros t r. rewrite (di_log g reach_data). apply filter_recs_of.
  - intros ev c seen after r upd logged Hin Hk. destruct (hist_ev ev Hin) as [_ Hok].
    rewrite Hk in Hok. destruct Hok as [-> [-> Hl]]. split; [exact (fun L => proj1 (Hl L)) | intros ->; reflexivity].
Qed.

(* a request whose lock switch took the exclusive lock is contiguous in the history, up to steps
   of threads that hold no server lock *)
Theorem exclusive_request_contiguous t r : marked t r (hist g) -> contig t r (hist g).
Proof.
  intros Hm. destruct (ai_hist g (reach_inv progs sched) t) as [Ifut Iopen Ipast].
  pose proof (fun H => unmarked t r _ H Hm) as Hnone.
  destruct (lt_eq_lt_dec r (t_rid (th g t))) as [[Hlt|Heq]|Hgt];
    [exact (Ipast r Hlt Hm) | | destruct (Hnone (Ifut r (or_introl Hgt)))].
  (* the current request: it has an event, so the thread is not idle *)
  subst r. assert (Hn : t_pc (th g t) <> PIdle) by (intros Epc; exact (Hnone (Ifut _ (or_intror (conj eq_refl Epc))))).
  exact (opendec_close _ _ _ (proj2 (Iopen Hn Hm))).
Qed.

(* the lock the switch takes is the one Gen/LockTable.v lists for the command *)
Theorem start_lock_from_table ev l :
  In ev (hist g) -> e_kind ev = KStart l -> l = a_lock (arm_of lock_table (e_name ev)) /\ e_held ev = l.
Proof.
  intros Hin Hk. destruct (hist_ev ev Hin) as [_ Hok]. rewrite Hk in Hok. exact Hok.
Qed.

Theorem eval_contiguous ev l :
  In ev (hist g) -> e_kind ev = KStart l -> In (e_name ev) ["eval"; "evalsha"] ->
  contig (e_tid ev) (e_rid ev) (hist g).
Proof.
  intros Hin Hk Hn. apply exclusive_request_contiguous. exists ev. split; [exact Hin|]. split.
  - unfold Script.own. rewrite !Nat.eqb_refl. reflexivity.
  - destruct (start_lock_from_table ev l Hin Hk) as [Hl _]. rewrite Hk, Hl.
    pose proof eval_takes_excl as T. rewrite forallb_forall in T. specialize (T _ Hn).
    apply andb_true_iff in T as [_ T]. apply lockk_eqb_eq in T. rewrite T. reflexivity.
Qed.

(* ... its records are contiguous in the log and in call order; what its own steps see is the log
   before it plus its own records so far; what any other locked step sees contains all or none *)
Theorem contiguous_in_the_log t r :
  contig t r (hist g) ->
  exists lpre lmid lpost,
    log g = lpre ++ lmid ++ lpost /\
    Forall (fun x => own_rec t r x = false) lpre /\ Forall (fun x => own_rec t r x = true) lmid /\
    Forall (fun x => own_rec t r x = false) lpost /\
    forall ev, In ev (hist g) ->
      (own t r ev = true -> length lpre <= e_pos ev <= length lpre + length lmid) /\
      (own t r ev = false -> free ev = false -> e_pos ev <= length lpre \/ length lpre + length lmid <= e_pos ev).
Proof.
  intros [pre [mid [post [Hh [Hn [Hm [Ho [Hp [Hq Hr]]]]]]]]]. rewrite Forall_forall in Hn, Hm, Ho, Hp, Hq, Hr.
  exists (recs_of pre), (recs_of mid), (recs_of post).
  split; [rewrite (di_log g reach_data), Hh; unfold Script.recs_of; rewrite !flat_map_app; reflexivity|].
  split; [apply recs_owner, Forall_forall; intros ev Hin; left; exact (Hn ev Hin)|]. split.
  { (* an event in the middle that is not the request's own was made holding no lock *)
    apply recs_owner, Forall_forall. intros ev Hin. destruct (orb_prop _ _ (Hm ev Hin)) as [H|H]; [left; exact H | right].
    apply hist_norec; [rewrite Hh, !in_app_iff; right; left; exact Hin|].
    left. unfold Script.free in H. apply lockk_eqb_eq in H. rewrite H. discriminate. }
  split; [apply recs_owner, Forall_forall; intros ev Hin; left; exact (Ho ev Hin)|].
  intros ev Hin. rewrite Hh, !in_app_iff in Hin. fold (nrec pre). fold (nrec mid). destruct Hin as [Hin|[Hin|Hin]].
  - split; [intros H; specialize (Hn ev Hin); unfold notown in Hn; congruence|].
    intros _ _. left. exact (Hp ev Hin).
  - split; [intros _; exact (Hq ev Hin)|].
    intros H1 H2. specialize (Hm ev Hin). unfold ownfree in Hm. rewrite H1, H2 in Hm. discriminate.
  - split; [intros H; specialize (Ho ev Hin); unfold notown in Ho; congruence|].
    intros _ _. right. exact (Hr ev Hin).
Qed.

(* in the history: a request under a table without a logging arm logs nothing and no handler it
   runs changes the dataset *)
Theorem ro_request_logs_nothing ev :
  In ev (hist g) -> ro_name (e_name ev) = true ->
  ev_recs ev = [] /\ forall c seen after r upd logged, e_kind ev = KExec c seen after r upd logged -> logged = false /\ after = seen.
Proof.
  intros Hin Hro. pose proof (hist_norec ev Hin (or_intror Hro)) as Hr. split; [exact Hr|].
  intros c seen after r upd logged Hk. destruct (hist_ev ev Hin) as [_ Hok]. unfold Script.ev_recs in Hr. rewrite Hk in Hr, Hok.
  destruct logged; [discriminate Hr|]. destruct Hok as [-> [-> _]]. split; reflexivity.
Qed.

(* as a step: while a thread runs such a request, its steps leave dataset and log as they are *)
Theorem ro_step_changes_nothing u :
  t_pc (th g u) <> PIdle -> ro_name (cname (t_cmd (th g u))) = true ->
  shared (sstep g u) = shared g /\ log (sstep g u) = log g.
Proof.
  intros Hn Hro. destruct (step_class g u) as [->|[f [Hc ->]]]; [split; reflexivity|].
  pose proof (li_pc g reach_lock u) as Hok.
  rewrite <- (class_name g u f Hc Hn) in Hro. exact (quiet_commit g u f Hok Hc (class_norec g u f Hc Hok (or_intror Hro))).
Qed.

(* as a step: while thread t holds the exclusive lock, whatever another thread does touches
   neither the dataset, nor the log, nor the lock, and is done holding no lock *)
Theorem exclusive_holder_excludes t u :
  wr g = Some t -> u <> t ->
  shared (sstep g u) = shared g /\ log (sstep g u) = log g /\
  wr (sstep g u) = wr g /\ rd (sstep g u) = rd g /\
  (hist (sstep g u) = hist g \/
   exists ev, hist (sstep g u) = hist g ++ [ev] /\ e_tid ev = u /\ free ev = true /\ ev_recs ev = []).
Proof.
  intros Hw Hne. destruct (step_class g u) as [->|[f [Hc ->]]]; [repeat split; try reflexivity; left; reflexivity|].
  destruct (other_step_free g t u f reach_lock Hw Hne Hc) as [Hh Hsame].
  pose proof (li_pc g reach_lock u) as Hok.
  assert (Hr : f_rec f = None) by (apply (class_norec g u f Hc Hok); left; rewrite Hh; discriminate).
  destruct (quiet_commit g u f Hok Hc Hr) as [Qs Ql]. split; [exact Qs|]. split; [exact Ql|].
  rewrite commit_eq, Hsame. cbn [wr rd hist fst snd]. split; [reflexivity|]. split; [reflexivity|].
  right. exists (new_event g u f). split; [reflexivity|]. split; [reflexivity|]. split.
  - unfold Script.free. cbn. rewrite Hh. reflexivity.
  - rewrite (new_event_recs g u f Hc), Hr. reflexivity.
Qed.

End Reach.

Lemma sstep_log (g : gstate) u :
  exists l, log (sstep g u) = log g ++ l /\ length l <= 1 /\
            Forall (fun x => r_tid x = u /\ r_rid x = t_rid (th g u)) l.
Proof.
  exists (match plan g u with
          | Some f => match f_rec f with Some c => [mkRec u (t_rid (th g u)) c] | None => [] end
          | None => []
          end).
  unfold Script.sstep. destruct (plan g u) as [f|]; [rewrite commit_eq; cbn [log]; destruct (f_rec f) | rewrite app_nil_r];
    repeat constructor.
Qed.

Lemma srun_snoc (g : gstate) sched u : srun g (sched ++ [u]) = sstep (srun g sched) u.
Proof. unfold Script.srun. rewrite fold_left_app. reflexivity. Qed.

Lemma log_prefix_was_the_log (g0 : gstate) sched n : log g0 = [] ->
  exists k, k <= length sched /\ log (srun g0 (firstn k sched)) = firstn n (log (srun g0 sched)).
Proof.
  intros H0. induction sched as [|u sched [k [Hk Hl]]] using rev_ind.
  - exists 0. cbn. rewrite H0, firstn_nil. split; reflexivity.
  - rewrite srun_snoc. destruct (sstep_log (srun g0 sched) u) as [l [E [Hlen _]]]. rewrite E.
    destruct (le_lt_dec n (length (log (srun g0 sched)))) as [Hle|Hgt].
    + exists k. rewrite !firstn_le_app by assumption. split; [|exact Hl].
      rewrite app_length. apply Nat.le_trans with (1 := Hk), Nat.le_add_r.
    + (* the new record is wanted too: the instant is now *)
      exists (length (sched ++ [u])). rewrite firstn_all, srun_snoc, E. split; [apply Nat.le_refl|].
      symmetry. apply firstn_all2. rewrite app_length. lia.
Qed.

(* a kill at any instant: start-up recovers a dataset the live server was in *)
Theorem crash_recovers_a_live_state progs sched q t :
  let g := srun (sinit s0 progs) sched in
  Forall cmd_ok (aof g) -> q ++ t = encs (aof g) ->
  exists k, k <= length sched /\
    let gk := srun (sinit s0 progs) (firstn k sched) in
    aof gk = firstn (inside (aof g) (len q)) (aof g) /\
    recover S exec_top q s0 = Some (shared gk, len (encs (aof gk))).
Proof.
  cbn zeta. intros Hok Hq.
  set (g := srun (sinit s0 progs) sched) in *.
  set (n := inside (aof g) (len q)).
  destruct (log_prefix_was_the_log (sinit s0 progs) sched n eq_refl) as [k [Hk Hl]].
  exists k. split; [exact Hk|].
  assert (Ha : aof (srun (sinit s0 progs) (firstn k sched)) = firstn n (aof g)).
  { unfold Script.aof. rewrite Hl. fold g. rewrite firstn_map. reflexivity. }
  split; [exact Ha|].
  unfold recover. rewrite (load_whole_cut (aof g) q t Hok Hq). fold n.
  rewrite (state_is_replay_of_log progs (firstn k sched)).
  rewrite Ha. reflexivity.
Qed.

End ScriptProofs.

Arguments contig {S val herr}. Arguments marked {S val herr}.
Arguments notown {S val herr}. Arguments ownfree {S val herr}. Arguments nrec {S val herr}.
Arguments class_shape {S val herr cname handler g u f}.
Arguments step_class {S val herr} cname {handler} e.
Arguments sstep_log {S val herr} cname handler e.

