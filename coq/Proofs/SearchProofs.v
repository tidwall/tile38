(* Proofs/SearchProofs.v — the spatial index neither loses nor invents results (C02). *)
From Coq Require Import ZifyN ZifyNat ZifyBool.
From Flocq Require Import BinarySingleNaN.
From T38 Require Import Base.Bytes Base.ListFacts Model.Float32 Model.Collection Model.Search
  Proofs.Float32Proofs Proofs.CollectionProofs.
Import ListNotations.

(* the float64 bounding rectangles overlap, as Go's comparisons evaluate it (false on NaN) *)
Definition overlap64 (a b : rect64) : Prop :=
  le64 (r64_minx a) (r64_maxx b) = true /\ le64 (r64_minx b) (r64_maxx a) = true /\
  le64 (r64_miny a) (r64_maxy b) = true /\ le64 (r64_miny b) (r64_maxy a) = true.

Lemma le32_not_lt (x y : f32) : le32 x y = true -> lt32 y x = false.
Proof.
  unfold le32, lt32. rewrite (Bcompare_swap 24 128 x y).
  destruct (Bcompare x y) as [[| |]|]; cbn; auto; discriminate.
Qed.

Lemma le32_nonnan_l (x y : f32) : le32 x y = true -> is_nan32 x = false.
Proof. unfold le32. destruct x; cbn; auto. Qed.

Lemma overlap_rounded (a b : rect64) : overlap64 a b ->
  intersects32 (rtree_rect a) (rtree_rect b) = true /\ is_nan32 (r32_minx (rtree_rect b)) = false.
Proof.
  intros (H1 & H2 & H3 & H4).
  pose proof (round_monotone _ _ H1) as R1. pose proof (round_monotone _ _ H2) as R2.
  pose proof (round_monotone _ _ H3) as R3. pose proof (round_monotone _ _ H4) as R4.
  unfold intersects32, gt32, rtree_rect. cbn [r32_minx r32_miny r32_maxx r32_maxy].
  rewrite (le32_not_lt _ _ R2), (le32_not_lt _ _ R1), (le32_not_lt _ _ R4), (le32_not_lt _ _ R3).
  cbn. split; auto. apply (le32_nonnan_l _ _ R2).
Qed.

Lemma filter_map_filter {A B} (f : B -> bool) (g : A -> bool) (p : A -> B) (l : list A) :
  (forall e, In e l -> f (p e) = true -> g e = true) ->
  filter f (map p (filter g l)) = filter f (map p l).
Proof.
  intros H. rewrite !filter_map_comm, filter_filter. f_equal. apply filter_ext_in. intros e He.
  destruct (f (p e)) eqn:F; [rewrite (H e He F)|rewrite andb_false_r]; reflexivity.
Qed.

Lemma geo_search_incl sp qr o : In o (geo_search sp qr) -> In o (map snd sp).
Proof.
  unfold geo_search. destruct (_ && _ && _ && _); [intros []|].
  intros H. apply in_map_iff in H. destruct H as [e [E H]]. apply filter_In in H.
  apply in_map_iff. exists e. tauto.
Qed.

Section Search.
  Variable Q : Type.
  Variable qrect : Q -> rect64.
  Variable hits : obj -> Q -> bool.

  (* The index returns exactly the spatially indexed objects that satisfy the predicate.  The
     hypothesis is needed only of what the index holds: non-empty geometries. *)
  Lemma search_exact_indexed c q : Wf c ->
    (forall o, In o (spatial_list c) -> hits o q = true -> overlap64 (o_rect o) (qrect q)) ->
    search Q qrect hits c q = filter (fun o => hits o q) (spatial_list c).
  Proof.
    intros W Hrect. unfold search, geo_search, spatial_list in *.
    destruct (is_nan32 (r32_minx (rtree_rect (qrect q))) && _ && _ && _) eqn:G.
    - cbn. symmetry. apply filter_none. intros o Ho.
      destruct (hits o q) eqn:Hh; auto. exfalso.
      destruct (overlap_rounded _ _ (Hrect o Ho Hh)) as [_ Hn]. rewrite Hn in G. discriminate.
    - apply filter_map_filter. intros e He Hh.
      pose proof (proj1 (wf_spatial c W e) He) as (_ & _ & Hitem).
      rewrite Hitem. cbn [fst rtree_item].
      apply (overlap_rounded (o_rect (snd e)) (qrect q)). apply Hrect; auto.
      apply in_map. exact He.
  Qed.

  (* ... which are all the retrievable objects for which TEST answers 1.  TEST's helper (test_hits)
     answers false for empty geometries itself, so no assumption about the library's answer on
     empty geometries is left. *)
  Lemma search_equals_test c q : Wf c ->
    (forall o, o_empty o = false -> hits o q = true -> overlap64 (o_rect o) (qrect q)) ->
    (forall o, o_empty o = false -> hits o q = true -> o_spatial o = true) ->
    (forall o, In o (search Q qrect hits c q) <-> In o (test_spec Q hits c q)) /\
    NoDup (map o_id (search Q qrect hits c q)).
  Proof.
    intros W Hrect Hkind.
    destruct (paths_agree c W) as (P1 & _ & P3 & _ & _ & _ & ND & _).
    rewrite (search_exact_indexed c q W).
    2:{ intros o Ho Hh. apply P3 in Ho. destruct Ho as (_ & _ & He). apply Hrect; auto. }
    split; [|apply NoDup_map_filter, ND].
    intros o. unfold test_spec, test_hits. rewrite !filter_In, P3, P1. split.
    - intros [(G & _ & He) Hh]. rewrite He. auto.
    - intros [G Hh]. destruct (o_empty o) eqn:He; [discriminate|].
      pose proof (Hkind o He Hh). auto.
  Qed.

  (* when strings and empty geometries never satisfy the predicate, TEST's own rule for empty
     geometries changes nothing: the index-free evaluation of the predicate itself *)
  Lemma search_spec_equiv c q : Wf c ->
    (forall o, hits o q = true -> overlap64 (o_rect o) (qrect q)) ->
    (forall o, hits o q = true -> o_spatial o = true /\ o_empty o = false) ->
    (forall o, In o (search Q qrect hits c q) <-> In o (search_spec Q hits c q)) /\
    NoDup (map o_id (search Q qrect hits c q)).
  Proof.
    intros W Hrect Hkind. replace (search_spec Q hits c q) with (test_spec Q hits c q).
    - apply search_equals_test; auto. intros o _ Hh. apply (Hkind o Hh).
    - apply filter_ext. intros o. unfold test_hits.
      destruct (o_empty o) eqn:E, (hits o q) eqn:Hh; auto. destruct (Hkind o Hh). congruence.
  Qed.

  Variable leaves : rect64 -> nat -> list rect64.

  Lemma mem_In id l : mem id l = true <-> In id l.
  Proof.
    induction l as [|x l IH]; cbn; [split; [discriminate | intros []]|].
    rewrite orb_true_iff, IH, bytes_eqb_eq. tauto.
  Qed.

  (* `matched` is always the ids of `out`, so the invariant speaks of `out` alone *)
  Definition sinv (sp : list (rect32 * obj)) (q : Q) (out : list obj) : Prop :=
    NoDup (map o_id out) /\ forall o, In o out -> hits o q = true /\ In o (map snd sp).

  Lemma leaf_scan_inv sp q cands : (forall o, In o cands -> In o (map snd sp)) ->
    forall out, sinv sp q out ->
    let '(m1, o1, _) := leaf_scan Q hits q cands (map o_id out) out in m1 = map o_id o1 /\ sinv sp q o1.
  Proof.
    induction cands as [|o r IH]; intros Hc out I; cbn; auto.
    destruct (mem (o_id o) (map o_id out)) eqn:M.
    - apply IH; auto. intros x Hx. apply Hc. right; auto.
    - destruct (hits o q) eqn:Hh; auto.
      destruct I as (I2 & I3). split; [reflexivity|]. split.
      + cbn [map]. constructor; auto. rewrite <- mem_In, M. discriminate.
      + intros x [<-|Hx]; auto. split; auto. apply Hc. left; auto.
  Qed.

  Lemma sparse_loop_inv sp q ls : forall out, sinv sp q out ->
    sinv sp q (sparse_loop Q hits sp q ls (map o_id out) out).
  Proof.
    induction ls as [|l r IH]; intros out I; cbn; [exact I|].
    pose proof (leaf_scan_inv sp q (geo_search sp l) (fun o => geo_search_incl sp l o) out I) as L.
    destruct (leaf_scan Q hits q (geo_search sp l) (map o_id out) out) as [[m1 o1] alive].
    destruct L as [-> L]. destruct alive; auto.
  Qed.

  Lemma sparse_sound c q n : Wf c ->
    (forall o, In o (sparse_search Q qrect hits leaves c q n) ->
       hits o q = true /\ In o (spatial_list c)) /\
    NoDup (map o_id (sparse_search Q qrect hits leaves c q n)).
  Proof.
    intros W. unfold sparse_search.
    destruct (sparse_loop_inv (c_spatial c) q (leaves (qrect q) n) []) as [I2 I3].
    { split; [constructor|]. intros o []. }
    split.
    - intros o Ho. apply in_rev in Ho. apply I3 in Ho. exact Ho.
    - rewrite map_rev. apply NoDup_rev. exact I2.
  Qed.
End Search.

(* a concrete instance of the hypotheses of search_spec_equiv: hits = bounding boxes overlap *)
Definition box_hits (o : obj) (q : rect64) : bool :=
  o_spatial o && negb (o_empty o) &&
  le64 (r64_minx (o_rect o)) (r64_maxx q) && le64 (r64_minx q) (r64_maxx (o_rect o)) &&
  le64 (r64_miny (o_rect o)) (r64_maxy q) && le64 (r64_miny q) (r64_maxy (o_rect o)).

Lemma box_hits_overlap o q : box_hits o q = true -> overlap64 (o_rect o) q.
Proof.
  unfold box_hits, overlap64. intros H.
  repeat (apply andb_true_iff in H; destruct H as [H ?]). auto.
Qed.

Lemma box_hits_kind o q : box_hits o q = true -> o_spatial o = true /\ o_empty o = false.
Proof.
  unfold box_hits. intros H.
  repeat (apply andb_true_iff in H; destruct H as [H ?]). split; auto.
  destruct (o_empty o); auto; discriminate.
Qed.

(* The second oracle hypothesis of search_spec_equiv (only non-empty geometries satisfy the
   predicate) cannot be dropped: a predicate that is vacuously true on an empty geometry — as
   tidwall/geojson's Circle.Contains is for an empty FeatureCollection — makes TEST hold for an
   object the index never holds (known finding C02-empty-in-circle). *)
Definition vacuous_hits (o : obj) (q : rect64) : bool := o_empty o || box_hits o q.

Definition empty_fc : obj := Obj [108]%N true true 0 1 [] 0 (rect64_of_bits 0 0 0 0).

Lemma kind_hypothesis_needed :
  exists c q, Wf c /\
    (forall o, In o (scan_ids c) -> vacuous_hits o q = true -> overlap64 (o_rect o) q) /\
    In empty_fc (search_spec rect64 vacuous_hits c q) /\
    search rect64 (fun q => q) vacuous_hits c q = [].
Proof.
  exists (run [OSet empty_fc]), (rect64_of_bits 0 0 0 0).
  split; [apply wf_run|]. split; [|split].
  - intros o [<-|[]] _. vm_compute. repeat split; reflexivity.
  - vm_compute. left. reflexivity.
  - vm_compute. reflexivity.
Qed.

Lemma quad_leaves_length r n : length (quad_leaves r n) = Nat.pow 4 n.
Proof.
  revert r. induction n as [|n IH]; intros r; [reflexivity|].
  cbn [quad_leaves quads flat_map]. rewrite !app_length, !IH. cbn [length]. cbn [Nat.pow]. lia.
Qed.

Lemma quad_leaves_0 r : quad_leaves r 0 = [r].
Proof. reflexivity. Qed.
