(* C02 — the reply of WITHIN / INTERSECTS is the search result: nothing between the exact predicate
   and the reply drops an object except the filters of the command and its LIMIT. *)
From Coq Require Import List NArith ZArith Bool Lia ZifyN ZifyNat.
From T38 Require Import Base.Bytes Base.ListFacts Model.Float32 Model.Collection Model.Search Model.Cursor Model.SearchReply
  Proofs.CollectionProofs Proofs.CursorProofs Proofs.SearchProofs.
Import ListNotations.
Open Scope N_scope.

Lemma filter_length_le {A} (f : A -> bool) l : (length (filter f l) <= length l)%nat.
Proof. exact (ListFacts.filter_length_le f l). Qed.

Section P.
  Variable Q : Type.
  Variable qrect : Q -> rect64.
  Variable hits : obj -> Q -> bool.
  Variable test : obj -> bool.

  Notation search := (search Q qrect hits).
  Notation reply := (search_reply Q qrect hits test).

  Lemma accepted_is_filtered_search c q :
    filter (fun o => hits o q && test o) (geo_search (c_spatial c) (qrect q)) = filter test (search c q).
  Proof. unfold Search.search. rewrite filter_filter. reflexivity. Qed.

  (* a LIMIT above the number of matching objects: the reply is the filtered search result, cursor 0 *)
  Lemma reply_exact c q limit :
    N.of_nat (length (filter test (search c q))) < limit ->
    reply c q 0 limit = (filter test (search c q), 0).
  Proof.
    intros Hl. rewrite <- accepted_is_filtered_search, <- unlimited_no_stop in Hl |- *.
    exact (page_above_limit _ _ _ 0 limit Hl).   (* rest_at src 0 computes to src *)
  Qed.

  (* any cursor, any LIMIT: the reply holds the first `limit` accepted candidates from the cursor on *)
  Lemma reply_firstn c q cursor limit : 1 <= limit ->
    fst (reply c q cursor limit) =
    firstn (N.to_nat limit) (filter (fun o => hits o q && test o) (rest_at (geo_search (c_spatial c) (qrect q)) cursor)).
  Proof. intros H1. unfold search_reply, geo_page. rewrite page_firstn, unlimited_no_stop by exact H1. reflexivity. Qed.

  (* ... so every object of the reply is a search result that passed the filters *)
  Lemma reply_sound c q cursor limit o :
    1 <= limit -> In o (fst (reply c q cursor limit)) -> In o (search c q) /\ test o = true.
  Proof.
    intros H1 Hin. rewrite (reply_firstn c q cursor limit H1) in Hin.
    apply incl_firstn, filter_In in Hin. destruct Hin as [Hm Hf]. apply andb_prop in Hf. destruct Hf as [Hh Ht].
    split; [|exact Ht]. apply filter_In. split; [exact (incl_skipn _ _ _ Hm) | exact Hh].
  Qed.

  (* with the index theorem: the reply is exactly what TEST says, filtered *)
  Lemma reply_equals_test c q limit :
    Wf c ->
    (forall o, o_empty o = false -> hits o q = true -> overlap64 (o_rect o) (qrect q)) ->
    (forall o, o_empty o = false -> hits o q = true -> o_spatial o = true) ->
    N.of_nat (length (filter test (search c q))) < limit ->
    snd (reply c q 0 limit) = 0 /\
    (forall o, In o (fst (reply c q 0 limit)) <-> In o (test_spec Q hits c q) /\ test o = true) /\
    NoDup (map o_id (fst (reply c q 0 limit))).
  Proof.
    intros Hwf H1 H2 Hl. rewrite (reply_exact c q limit Hl). cbn [fst snd].
    destruct (search_equals_test Q qrect hits c q Hwf H1 H2) as [Hiff Hnd].
    split; [reflexivity|]. split.
    - intros o. rewrite filter_In, Hiff. reflexivity.
    - apply NoDup_map_filter, Hnd.
  Qed.
End P.

(* no MATCH / WHERE*: the ids of the reply are exactly the ids for which TEST answers 1 *)
Lemma reply_no_filter_equals_test (Q : Type) (qrect : Q -> rect64) (hits : obj -> Q -> bool) c q limit :
  Wf c ->
  (forall o, o_empty o = false -> hits o q = true -> overlap64 (o_rect o) (qrect q)) ->
  (forall o, o_empty o = false -> hits o q = true -> o_spatial o = true) ->
  N.of_nat (length (search Q qrect hits c q)) < limit ->
  search_reply Q qrect hits no_filter c q 0 limit = (search Q qrect hits c q, 0) /\
  (forall o, In o (fst (search_reply Q qrect hits no_filter c q 0 limit)) <-> In o (test_spec Q hits c q)).
Proof.
  intros Hwf H1 H2 Hl. rewrite <- (filter_all no_filter (search Q qrect hits c q) (fun _ _ => eq_refl)) in Hl |- *.
  split; [exact (reply_exact Q qrect hits no_filter c q limit Hl)|].
  intros o. rewrite (proj1 (proj2 (reply_equals_test Q qrect hits no_filter c q limit Hwf H1 H2 Hl))). unfold no_filter. tauto.
Qed.
