(* C07 — table theorems about the shared-state writes (Model/SharedState.v) that t38x regenerates
   from /repo on every run. Computed over the complete tables and lifted to every command string. *)
From Coq Require Import String List Bool.
From T38 Require Import Model.Tables Gen.LockTable Gen.Dispatch Gen.ScriptTables Gen.Mutators Model.Gate
  Proofs.GateProofs Model.SharedState.
Import ListNotations.
Open Scope string_scope.

Lemma handler_shared_nil hs c : find_handler hs c = None -> handler_shared hs c = [].
Proof. unfold handler_shared. intros ->. reflexivity. Qed.

Lemma cmd_shared_sound_all : forall c, in_strs c dev_only = false -> cmd_shared_sound c = true.
Proof.
  assert (H : forall c, (in_strs c dev_only || cmd_shared_sound c) = true).
  { apply (lift_dispatch dispatch).
    - vm_compute. reflexivity.
    - intros c _ Hn. apply orb_true_iff. right. unfold cmd_shared_sound.
      rewrite (handler_shared_nil _ _ Hn). cbn [app].
      destruct (a_write (arm_of lock_table c)) eqn:Hw; [|reflexivity].
      rewrite (write_arm_excl c Hw).
      apply forallb_forall. intros w _. reflexivity. }
  intros c Hd. specialize (H c). rewrite Hd in H. exact H.
Qed.

(* the readable form of sw_ok: a write made while less than the exclusive server lock is held is under
   a mutex of the shared state itself / atomic / sync, or its field is allow-listed *)
Lemma sw_ok_guarded o w :
  sw_ok o w = true -> is_excl (ctx_max o (sw_ctx w)) = false -> sw_guard w <> "" \/ In (sw_field w) shared_allow.
Proof.
  unfold sw_ok. intros H Hx. rewrite Hx in H. apply orb_true_iff in H as [H|H].
  - left. unfold sw_self_guarded in H. apply negb_true_iff in H. apply String.eqb_neq in H. exact H.
  - right. apply in_strs_In. exact H.
Qed.

Lemma goroutines_shared_sound : forallb entry_shared_sound go_entries = true.
Proof. vm_compute. reflexivity. Qed.

(* every script sub-command that a script table lets run, under the lock of its outer command *)
Definition script_variants : list (table * lockk) := [(script_rw, LExcl); (script_ro, LShared); (script_na, LNone)].

Lemma script_tables_shared_sound :
  forallb (fun tl => forallb (script_cmd_shared_sound (fst tl) (snd tl)) (map h_cmd dispatch_script)) script_variants = true.
Proof. vm_compute. reflexivity. Qed.

Lemma script_cmd_shared_sound_all t outer c e l w fn :
  In (t, outer) script_variants -> script_gate t c e = SRun l w fn -> script_cmd_shared_sound t outer c = true.
Proof.
  intros Ht Hrun. pose proof script_tables_shared_sound as H. rewrite forallb_forall in H.
  specialize (H _ Ht). cbn [fst snd] in H. rewrite forallb_forall in H. apply H.
  apply script_gate_run in Hrun as (_ & _ & _ & _ & _ & h & Ef & _).
  exact (find_handler_In _ _ _ Ef).
Qed.

Lemma pairwise_on_filter {A} (p : A -> bool) (r : A -> A -> bool) l :
  (forall x y, p x = false -> r x y = true) -> (forall x y, p y = false -> r x y = true) ->
  forallb (fun x => forallb (r x) (filter p l)) (filter p l) = true ->
  forallb (fun x => forallb (r x) l) l = true.
Proof.
  intros Hx Hy H. apply forallb_forall. intros x Ix. apply forallb_forall. intros y Iy.
  destruct (p x) eqn:Px; [|auto]. destruct (p y) eqn:Py; [|auto].
  rewrite forallb_forall in H. specialize (H x (proj2 (filter_In _ _ _) (conj Ix Px))).
  rewrite forallb_forall in H. exact (H y (proj2 (filter_In _ _ _) (conj Iy Py))).
Qed.

(* a linear pass decides it: every write names the guard of the first write to its field *)
Definition first_guard_agrees (l : list swrite) (w : swrite) : bool :=
  match find (fun w' => String.eqb (sw_field w') (sw_field w)) l with
  | Some w' => String.eqb (sw_guard w') (sw_guard w)
  | None => false
  end.

Lemma first_guard_one_guard l w1 w2 :
  forallb (first_guard_agrees l) l = true -> In w1 l -> In w2 l ->
  sw_field w1 = sw_field w2 -> sw_guard w1 = sw_guard w2.
Proof.
  intros H I1 I2 Ef. rewrite forallb_forall in H.
  pose proof (H _ I1) as H1. pose proof (H _ I2) as H2. unfold first_guard_agrees in H1, H2.
  rewrite Ef in H1. destruct (find _ l) as [w'|]; [|discriminate].
  apply String.eqb_eq in H1, H2. congruence.
Qed.

(* Only the self-guarded writes outside the exclusive lock can disagree: the table is cut down to
   those before anything is evaluated. *)
Lemma guards_consistent :
  forallb (fun w1 => forallb (guard_consistent w1) all_shared_writes) all_shared_writes = true.
Proof.
  apply (pairwise_on_filter (fun w => negb (is_excl (sw_ctx w)) && sw_self_guarded w)).
  - intros x y H. unfold guard_consistent.
    destruct (is_excl (sw_ctx x)), (sw_self_guarded x); try discriminate; cbn; rewrite ?orb_true_r; reflexivity.
  - intros x y H. unfold guard_consistent.
    destruct (is_excl (sw_ctx y)), (sw_self_guarded y); try discriminate; cbn; rewrite ?orb_true_r; reflexivity.
  - set (l := filter _ all_shared_writes).
    assert (Hl : forallb (first_guard_agrees l) l = true) by (vm_compute; reflexivity).
    apply forallb_forall. intros x Ix. apply forallb_forall. intros y Iy. unfold guard_consistent.
    destruct (String.eqb_spec (sw_field x) (sw_field y)) as [Ef|]; [|reflexivity].
    rewrite (first_guard_one_guard l x y Hl Ix Iy Ef), String.eqb_refl. apply orb_true_r.
Qed.

(* the expiry pass takes the server lock once, exclusively; and no goroutine that changes the
   dataset reads stored objects outside an exclusive section *)
Lemma sweep_one_exclusive_region :
  fn_regions "backgroundExpiring" = [CExcl] /\ fn_regions "backgroundExpireObjects" = [] /\
  fn_regions "backgroundExpireHooks" = [].
Proof. vm_compute. repeat split. Qed.

Lemma goroutines_decide_under_excl : forallb decides_under_excl go_entries = true.
Proof. vm_compute. reflexivity. Qed.
