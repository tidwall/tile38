(* C09 — lemmas about Model/ShrinkBuf.v (AOFSHRINK and the write buffer).

   The final section of the source reads back as Shrink.final_ops / Shrink.cp_index, its guard as true.  With
   final_ops the buffer is empty after the swap and the open file is snapshot ++ shrinklog (all states, RENAME
   included); when the dataset was reset under the rewrite the final section gives up and the open log stays.
   Under every schedule without RENAME, resets included, file ++ buffer replays to the live dataset.  Refuted: the
   final section without the reset guard.  sched_nf (the final section without its flush) and ex_f0 / ex_bsched
   are data for Props/C09buf.v. *)
From Coq Require Import String.
From Coq Require Import List NArith ZArith Bool Lia.
From T38 Require Import Base.Bytes Base.ListFacts Base.SMap Gen.Consts Model.Shrink Model.ShrinkBuf Proofs.ShrinkProofs.
Import ListNotations.
Local Open Scope nat_scope.

Theorem final_section_transcribed : final_ops_src = final_ops /\ final_marks_src = final_marks.
Proof. split; vm_compute; reflexivity. Qed.

Lemma guard_transcribed : final_guard_src = true.
Proof. vm_compute. reflexivity. Qed.

Theorem swap_log_exact mk mi g b :
  r_shrinking (b_run b) = true -> sh_done (r_sh (b_run b)) = true -> b_reset b = false ->
  bstep mk mi final_ops g b BFinal = mkB (end_rewrite (b_run b)) (newfile (b_run b)) [] false.
Proof. intros Hs Hd Hr. cbn [bstep]. unfold final_with. rewrite Hs, Hd, Hr, andb_false_r. reflexivity. Qed.

(* the dataset was reset under the rewrite: the final section gives up, the open log stays what it is *)
Theorem reset_aborts mk mi ops b :
  r_shrinking (b_run b) = true -> sh_done (r_sh (b_run b)) = true -> b_reset b = true ->
  bstep mk mi ops true b BFinal = mkB (end_rewrite (b_run b)) (b_file b) (b_buf b) false.
Proof. intros Hs Hd Hr. cbn [bstep]. unfold final_with. rewrite Hs, Hd, Hr. reflexivity. Qed.

Lemma final_not_ready mk mi ops g b :
  r_shrinking (b_run b) && sh_done (r_sh (b_run b)) = false -> bstep mk mi ops g b BFinal = b.
Proof. intros H. cbn [bstep]. unfold final_with. rewrite H. reflexivity. Qed.

Lemma exec_same_data a b c : wf a -> wf b -> nr_cmd c = true -> same_data a b ->
  same_data (fst (exec a c)) (fst (exec b c)).
Proof. intros Ha Hb Hc H k i. rewrite !exec_lookup by assumption. rewrite (H k i). reflexivity. Qed.

Lemma do_ev_live mk mi r e :
  r_live (do_ev mk mi r e) = match e with W c => fst (exec (r_live r) c) | _ => r_live r end.
Proof.
  destruct e as [c| |]; [rewrite do_ev_W; reflexivity | reflexivity |].
  cbn [do_ev]. unfold request. destruct (r_shrinking r); reflexivity.
Qed.

Section Inv.
Variables mk mi : nat.

Definition ghost (r : run) : Prop :=
  r_shrinking r = true ->
  exists s1 sched1, wf s1 /\ no_rename sched1 = true /\ r = run_sched mk mi sched1 (run_init s1).

Definition binv (b : bsrv) : Prop :=
  wf (r_live (b_run b)) /\
  same_data (replay (blog b) []) (r_live (b_run b)) /\ (b_reset b = false -> ghost (b_run b)).

Lemma keep_reset_false b : keep_reset b = false -> b_reset b = false -> ghost (b_run b) -> ghost (b_run b).
Proof. auto. Qed.

Lemma ghost_ev r e : wf (r_live r) -> is_rename e = false -> ghost r -> ghost (do_ev mk mi r e).
Proof.
  intros Hwf He Hg Hs'. destruct (r_shrinking r) eqn:Hs.
  - destruct (Hg Hs) as [s1 [sched1 [H1 [H2 H3]]]].
    exists s1, (sched1 ++ [e]). split; [exact H1|]. split.
    + unfold no_rename in *. rewrite forallb_app, H2. cbn. rewrite He. reflexivity.
    + rewrite H3 at 1. symmetry. apply (fold_left_app (do_ev mk mi)).
  - destruct e as [c| |].
    + rewrite do_ev_W in Hs'. cbn in Hs'. congruence.
    + cbn in Hs'. rewrite Hs in Hs'. discriminate.
    + exists (r_live r), []. split; [exact Hwf|]. split; [reflexivity|].
      cbn [do_ev]. unfold request. rewrite Hs. reflexivity.
Qed.

Lemma ghost_of_keep b : (b_reset b = false -> ghost (b_run b)) -> keep_reset b = false -> ghost (b_run b).
Proof.
  intros Hg Hk Hs. unfold keep_reset in Hk. rewrite Hs in Hk. exact (Hg Hk Hs).
Qed.

Lemma binv_same b b' : r_live (b_run b') = r_live (b_run b) -> blog b' = blog b ->
  (b_reset b' = false -> ghost (b_run b')) -> binv b -> binv b'.
Proof. intros El Eb Hg' (Hwf & Hsd & _). unfold binv. rewrite El, Eb. auto. Qed.

Lemma binv_step b e : negb (is_rename_b e) = true -> binv b -> binv (bstep mk mi final_ops true b e).
Proof.
  intros He Hb. pose proof Hb as (Hwf & Hsd & Hg). apply negb_true_iff in He.
  destruct e as [e| | |].
  - cbn [is_rename_b] in He.
    assert (Hgh : keep_reset b = false -> ghost (do_ev mk mi (b_run b) e)).
    { intros Hk. apply ghost_ev; [assumption | assumption | apply ghost_of_keep; assumption]. }
    pose proof (do_ev_live mk mi (b_run b) e) as Hl.
    destruct e as [c| |]; [|apply (binv_same b); [exact Hl | reflexivity | exact Hgh | exact Hb]..].
    pose proof (not_rename_nr c He) as Hc.
    cbn [bstep]. unfold binv, blog. cbn [b_run b_file b_buf b_reset]. rewrite Hl.
    split; [apply exec_wf; exact Hwf|]. split; [|exact Hgh].
    assert (HX : wf (replay (blog b) [])) by (apply replay_wf, wf_nil).
    destruct (logged (snd (exec (r_live (b_run b)) c))) eqn:Hlog.
    + rewrite app_assoc, replay_app. cbn [replay]. apply exec_same_data; assumption.
    + rewrite exec_unlogged_id by assumption. exact Hsd.
  - apply (binv_same b); [reflexivity | unfold blog; cbn; rewrite app_nil_r; reflexivity | exact Hg | exact Hb].
  - destruct (r_shrinking (b_run b) && sh_done (r_sh (b_run b))) eqn:Hc; [|rewrite final_not_ready by exact Hc; exact Hb].
    apply andb_true_iff in Hc. destruct Hc as [Hs Hd]. destruct (b_reset b) eqn:Hr.
    + (* the dataset was reset: the rewrite gives up *)
      rewrite (reset_aborts mk mi final_ops b Hs Hd Hr).
      apply (binv_same b); [reflexivity | reflexivity | intros _ Hx; discriminate Hx | exact Hb].
    + rewrite (swap_log_exact mk mi true b Hs Hd Hr).
      unfold binv, blog. cbn [b_run b_file b_buf b_reset end_rewrite r_live r_shrinking]. rewrite app_nil_r.
      destruct (Hg eq_refl Hs) as [s1 [sched1 [H1 [H2 H3]]]].
      split; [exact Hwf|]. split; [|intros _ Hx; cbn in Hx; discriminate].
      rewrite H3. apply concurrent_partial; [exact H1 | exact H2 | rewrite <- H3; exact Hd].
  - (* a follower starts over *)
    cbn [bstep]. unfold binv, blog. cbn [b_run b_file b_buf b_reset r_live r_shrinking app].
    split; [exact wf_nil|]. split; [intros k i; reflexivity|].
    intros Hk Hx. cbn in Hx. congruence.
Qed.

Lemma binv_run sched b : no_rename_b sched = true -> binv b -> binv (brun mk mi final_ops true sched b).
Proof.
  intros Hs. unfold no_rename_b in Hs. rewrite forallb_forall in Hs.
  apply (fold_left_inv _ binv). intros a e He. apply binv_step, Hs, He.
Qed.

(* (the hypothesis on f0 is not used) *)
Theorem log_tracks_live s0 f0 sched :
  wf s0 -> forallb nr_cmd f0 = true -> same_data (replay f0 []) s0 -> no_rename_b sched = true ->
  let b := brun mk mi final_ops true sched (binit s0 f0) in
  same_data (replay (blog b) []) (r_live (b_run b)).
Proof.
  intros Hwf _ Hsd Hs. apply (binv_run sched (binit s0 f0) Hs).
  unfold binv, binit, blog. cbn [b_run b_file b_buf b_reset idle r_live r_shrinking]. rewrite app_nil_r.
  split; [exact Hwf|]. split; [exact Hsd|]. intros _ Hx; discriminate.
Qed.

End Inv.

(* one object; the rewrite runs to the end of its scan; RENAME a c and SET a 1 y are accepted and
   stay in the buffer (their connection has not reached its pre-write step); the final section;
   the connection's pre-write flush *)
Definition s0_nf : st := [(b1 97, [(b1 49, mkObj (b1 120) [] false)])].
Definition f0_nf : file := [CSet (b1 97) (b1 49) [] false (b1 120)].
Definition sched_nf : list bev :=
  [BE Req; BE Step; BE Step; BE Step;
   BE (W (CRename (b1 97) (b1 99))); BE (W (CSet (b1 97) (b1 49) [] false (b1 121)));
   BFinal; BFlush].

(* a server with its own data is turned into a follower while its rewrite is parked before the
   final section: the dataset is reset, the leader streams SET b 1 y; without the guard the stale
   snapshot is swapped in and a/1 is back after a restart *)
Definition sched_rs : list bev :=
  [BE Req; BE Step; BE Step; BE Step; BReset; BE (W (CSet (b1 98) (b1 49) [] false (b1 121))); BFlush; BFinal].

Theorem reset_without_guard_refuted :
  exists s0 f0 sched, wf s0 /\ replay f0 [] = s0 /\ no_rename_b sched = true /\
    (let b := brun maxkeys maxids final_ops true sched (binit s0 f0) in
     replay (blog b) [] = r_live (b_run b) /\ r_live (b_run b) <> []) /\
    (let b := brun maxkeys maxids final_ops false sched (binit s0 f0) in
     exists k i, lookup k i (replay (blog b) []) <> lookup k i (r_live (b_run b))).
Proof.
  exists s0_nf, f0_nf, sched_rs. split; [apply wfb_ok; vm_compute; reflexivity|].
  split; [vm_compute; reflexivity|]. split; [vm_compute; reflexivity|].
  split; [split; [vm_compute; reflexivity | vm_compute; discriminate]|].
  exists (b1 97), (b1 49). vm_compute. discriminate.
Qed.

(* the log that made ex_data, the concurrent schedule ex_sched with flushes in between, two writers
   whose commands are still buffered at the final section, the final section, a writer, a flush, and
   a second complete rewrite *)
Definition ex_f0 : file := map rec_of (flatten ex_data).
Definition ex_bsched : list bev :=
  [BE Req] ++ flat_map (fun e => match e with W _ => [BE e; BFlush] | _ => [BE e] end) ex_sched
  ++ [BE (W (CSet (b1 97) (ex_id 3) [] false (b1 122))); BE (W (CDel (b1 98) (ex_id 0))); BFinal;
      BE (W (CSet (b1 97) (ex_id 4) [] true (b1 122))); BFlush; BE Req] ++ repeat (BE Step) 40 ++ [BFinal].
