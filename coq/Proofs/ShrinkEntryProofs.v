(* The regenerated entry section of aofshrink() is Model/Shrink.v's `request` on the flag and the log;
   hence a refused AOFSHRINK changes nothing. *)
From Coq Require Import String List Bool.
From T38 Require Import Model.Shrink Gen.ShrinkEntry Gen.ShrinkFinal Model.ShrinkEntry Proofs.ShrinkProofs.
Import ListNotations.

(* the entry section, on any state with the log file open: what `request` does to flag and log *)
Lemma entry_transcribed : forall r,
  exec_section true entry_section r =
  Some (if r_shrinking r then r else mkRun (r_live r) (r_sh r) [] true).
Proof. intros [l sh lg [|]]; vm_compute; reflexivity. Qed.

Lemma entry_is_request : forall r,
  exists r', exec_section true entry_section r = Some r' /\
    r_shrinking r' = r_shrinking (request r) /\ r_log r' = r_log (request r) /\ r_live r' = r_live (request r).
Proof.
  intros r. rewrite entry_transcribed. eexists. split; [reflexivity|].
  unfold request. destruct (r_shrinking r) eqn:E; cbn; rewrite ?E; auto.
Qed.

Lemma requests_change_nothing (mk mi : nat) : forall sched r,
  r_shrinking r = true ->
  run_sched mk mi (filter (fun e => match e with Req => false | _ => true end) sched) r = run_sched mk mi sched r.
Proof.
  induction sched as [|e rest IH]; intros r H; [reflexivity|].
  pose proof (shrinking_ev mk mi r e H) as Hs.
  destruct e as [c| |]; cbn [filter run_sched fold_left]; [apply (IH _ Hs) | apply (IH _ Hs) |].
  rewrite (request_is_noop mk mi r H). apply (IH r H).
Qed.

