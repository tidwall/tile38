(* C09 — lemmas about Model/ShrinkLoad.v (what a restart makes of the rewritten log).

   Field names: with the reserved-name check on the stored (trimmed) name every reachable dataset has a
   snapshot the loader accepts and executes as it is; with a check of SET that is stricter than FSET's: refuted.
   Coordinates that are not finite: payload round trip; the pinned writer: refuted.
   Start-up order: restore before migrate recovers every crash point whatever legacy file is around.
   c_padded (the check on the name as sent) and n_dflt / n_legacy / f_old (migrate before restore) are data
   for the refutations of Props/C09load.v. *)
From Coq Require Import String.
From Coq Require Import List NArith ZArith Bool Lia.
From T38 Require Import Base.Bytes Base.ListFacts Base.SMap Model.Shrink Model.ShrinkLoad Proofs.ShrinkProofs.
Import ListNotations.
Local Open Scope nat_scope.

Theorem load_checks_transcribed :
  set_txs_src = Some [TTrim] /\ fset_txs_src = Some [TTrim] /\
  check_sites_src = ["cmdFSET"; "cmdSET"]%string /\ startup_src = Some startup_ops.
Proof. repeat split; vm_compute; reflexivity. Qed.

Section Names.
Variable trim : bytes -> bytes.
Variables f_set f_fset : bytes -> bytes.
(* SET's check lets a stored name through when the creating site let the name as sent through *)
Hypothesis set_of_stored : forall n, reserved (f_set n) = false -> reserved (f_set (trim n)) = false.
Hypothesis fset_then_set : forall n, reserved (f_fset n) = false -> reserved (f_set (trim n)) = false.
Hypothesis trim_idem : forall n, trim (trim n) = trim n.

Notation exec_n' := (exec_n trim f_set f_fset).
Notation replay_n' := (replay_n trim f_set f_fset).

(* a stored name: trimmed, and accepted by SET ... FIELD name on replay *)
Definition nm_ok (n : bytes) : Prop := reserved (f_set n) = false /\ trim n = n.
Definition fields_ok (fs : smap fval) : Prop := Forall (fun nv => nm_ok (fst nv)) fs.
Definition col_ok (c : coll) : Prop := Forall (fun io => fields_ok (o_fields (snd io))) c.
Definition names_ok (s : st) : Prop := Forall (fun kc => col_ok (snd kc)) s.
Definition us_names_ok (us : fupd) : Prop := Forall (fun u => nm_ok (fst u)) us.

Lemma norm_us_names f us : (forall n, reserved (f n) = false -> reserved (f_set (trim n)) = false) ->
  us_ok f us = true -> us_names_ok (norm_us trim us).
Proof.
  intros Hf. unfold us_ok, us_names_ok, norm_us. induction us as [|u us IH]; cbn [forallb map]; intros H; [constructor|].
  apply andb_true_iff in H. destruct H as [Hu Hr]. constructor; [|apply IH; exact Hr].
  split; [apply Hf, negb_true_iff, Hu | apply trim_idem].
Qed.

Lemma norm_names c : cmd_ok f_set f_fset c = true -> us_names_ok (cmd_fields (norm trim c)).
Proof.
  destruct c; cbn; intros H; try constructor.
  - eapply norm_us_names; [exact set_of_stored | exact H].
  - eapply norm_us_names; [exact fset_then_set | exact H].
Qed.

Lemma fset1_ok fs u : fields_ok fs -> nm_ok (fst u) -> fields_ok (fset1 fs u).
Proof.
  intros Hf Hu. unfold fset1. destruct (snd u).
  - apply Forall_set; [exact Hf | exact Hu].
  - apply Forall_del; exact Hf.
Qed.

Lemma names_get s k col : names_ok s -> get k s = Some col -> col_ok col.
Proof. intros H G. exact (Forall_get (fun kc => col_ok (snd kc)) k s col H G). Qed.

Lemma col_get col i o : col_ok col -> get i col = Some o -> fields_ok (o_fields o).
Proof. intros H G. exact (Forall_get (fun io => fields_ok (o_fields (snd io))) i col o H G). Qed.

Lemma exec_names_ok s c : names_ok s -> us_names_ok (cmd_fields c) -> names_ok (fst (exec s c)).
Proof.
  apply (exec_keeps names_ok col_ok fields_ok (fun u => nm_ok (fst u))).
  - constructor.
  - intros s0 k col. apply (Forall_set (fun kc => col_ok (snd kc))).
  - intros s0 k. apply Forall_del.
  - exact names_get.
  - constructor.
  - intros col i o. apply (Forall_set (fun io => fields_ok (o_fields (snd io)))).
  - intros col i. apply Forall_del.
  - intros col f. apply Forall_filter.
  - exact col_get.
  - constructor.
  - exact fset1_ok.
Qed.

Theorem exec_n_names_ok s c s' o :
  names_ok s -> exec_n' s c = Some (s', o) -> names_ok s'.
Proof.
  unfold exec_n. intros Hs H. destruct (cmd_ok f_set f_fset c) eqn:Hc; [|discriminate].
  inversion H as [H1]. pose proof (exec_names_ok s (norm trim c) Hs (norm_names c Hc)) as Hn.
  rewrite H1 in Hn. exact Hn.
Qed.

Definition rec_plain (c : cmd) : Prop := cmd_ok f_set f_fset c = true /\ norm trim c = c.

Lemma exec_n_plain s c : rec_plain c -> exec_n' s c = Some (exec s c).
Proof. intros [Hc Hn]. unfold exec_n. rewrite Hc, Hn. reflexivity. Qed.

Lemma names_plain us : us_names_ok us -> us_ok f_set us = true /\ norm_us trim us = us.
Proof.
  unfold us_ok, norm_us. induction 1 as [|[n v] us [Hr Ht] _ [I1 I2]]; cbn [forallb map fst snd] in *; [split; reflexivity|].
  rewrite Hr, Ht, I2. split; [exact I1 | reflexivity].
Qed.

Lemma rec_cmd_plain k i o : fields_ok (o_fields o) -> rec_plain (rec_cmd k i o).
Proof.
  intros H. destruct (names_plain (fields_of (o_fields o))) as [H1 H2]; [apply Forall_map; exact H|].
  split; [exact H1 | unfold rec_cmd; cbn [norm]; f_equal; exact H2].
Qed.

Lemma replay_n_plain l : forall s, Forall rec_plain l -> replay_n' l s = Some (replay l s).
Proof.
  induction l as [|c l IH]; intros s H; cbn; [reflexivity|].
  inversion H as [|x t Hc Ht]; subst. rewrite (exec_n_plain s c Hc).
  destruct (exec s c) as [s' o]. apply IH; exact Ht.
Qed.

Lemma flatten_plain s : names_ok s -> Forall rec_plain (map rec_of (flatten s)).
Proof.
  intros Hs. apply Forall_map, Forall_flat_map. refine (Forall_impl _ _ Hs). intros [k col] Hc.
  apply Forall_map. refine (Forall_impl _ _ Hc). intros [i o]. apply rec_cmd_plain.
Qed.

(* the whole snapshot of a dataset that was built by accepted commands loads, and loads to what
   the unchecked replay (the subject of the other C09 theorems) gives *)
Theorem snapshot_loads s s0 :
  names_ok s -> replay_n' (map rec_of (flatten s)) s0 = Some (replay (map rec_of (flatten s)) s0).
Proof. intros Hs. apply replay_n_plain, flatten_plain, Hs. Qed.

(* datasets reachable through accepted commands *)
Fixpoint run_n (l : list cmd) (s : st) : st :=
  match l with
  | [] => s
  | c :: r => match exec_n' s c with
              | Some (s', _) => run_n r s'
              | None => run_n r s           (* refused: -ERR invalid argument *)
              end
  end.

Lemma run_n_names_ok l : forall s, names_ok s -> names_ok (run_n l s).
Proof.
  induction l as [|c l IH]; intros s Hs; cbn; [exact Hs|].
  destruct (exec_n' s c) as [[s' o]|] eqn:E; apply IH; [eapply exec_n_names_ok; eauto | exact Hs].
Qed.

Theorem reachable_snapshot_loads l s0 :
  let s := run_n l [] in
  replay_n' (map rec_of (flatten s)) s0 = Some (replay (map rec_of (flatten s)) s0).
Proof. intros s. apply snapshot_loads. apply run_n_names_ok. constructor. Qed.

End Names.

(* both checks on the trimmed name (the repaired tree): the hypotheses hold for every idempotent trim *)
Theorem snapshot_loads_trim trim : (forall n, trim (trim n) = trim n) ->
  forall l s0, let s := run_n trim trim trim l [] in
    replay_n trim trim trim (map rec_of (flatten s)) s0 = Some (replay (map rec_of (flatten s)) s0).
Proof. intros H. apply reachable_snapshot_loads; [intros n Hn; rewrite H; exact Hn.. | exact H]. Qed.

(* the check on the name as sent (pinned tree): SET k id FIELD " z" 5 ... is accepted, stored as z, and
   the snapshot record "set k id field z 5 ..." is refused by the loader: the server does not start *)
Definition c_padded : cmd := CSet [107%N] [105%N; 100%N] [([32%N; 122%N], Some [53%N])] false [120%N].
Definition f_id (n : bytes) : bytes := n.

(* SET stricter than FSET (SET lower-cases the name before the check, FSET does not): FSET k id LON 7
   is accepted; the snapshot re-expresses the object as "set k id field LON 7 ..." and the loader
   refuses it, while the un-shrunk log (SET ...; FSET ...) loads *)
Definition f_set_lower (n : bytes) : bytes := f_of trim_ws [TLower; TTrim] n.
Definition l_upper : list cmd :=
  [CSet [107%N] [105%N; 100%N] [] false [120%N]; CFset [107%N] [105%N; 100%N] [([76%N; 79%N; 78%N], Some [55%N])]].

Theorem names_set_stricter_refuted :
  exists l, let s := run_n trim_ws f_set_lower trim_ws l [] in
    replay_n trim_ws f_set_lower trim_ws l [] = Some s /\
    (exists k i o, lookup k i s = Some o /\ o_fields o <> []) /\
    replay_n trim_ws f_set_lower trim_ws (map rec_of (flatten s)) [] = None /\
    (exists n, reserved (trim_ws n) = false /\ reserved (f_set_lower (trim_ws n)) = true).
Proof.
  exists l_upper. split; [vm_compute; reflexivity|].
  split; [exists [107%N], [105%N; 100%N]; eexists; split; [vm_compute; reflexivity | discriminate]|].
  split; [vm_compute; reflexivity|]. exists [76%N; 79%N; 78%N]. split; vm_compute; reflexivity.
Qed.

Lemma all_some_finite cs : forallb finite cs = true -> all_some (map nof_strict (map jof cs)) = Some cs.
Proof.
  induction cs as [|c cs IH]; intros H; cbn in *; [reflexivity|].
  apply andb_true_iff in H. destruct H as [Hc Hr]. destruct c; try discriminate. cbn. rewrite IH by exact Hr. reflexivity.
Qed.

Lemma eqb_polygon_point : bytes_eqb k_polygon k_point = false.
Proof. vm_compute. reflexivity. Qed.

Lemma valid_finite n : valid n = true -> finite n = true.
Proof. destruct n; cbn; congruence. Qed.

(* the JSON text of a finite coordinate reads back as the coordinate *)
Lemma nof_jof n : finite n = true -> nof_point (jof n) = n.
Proof. destruct n; cbn; congruence. Qed.

(* the repaired writer, with or without REQUIREVALID: every point and rectangle POINT / BOUNDS can
   create, and every other object that the same server accepted through the GeoJSON reader (finite
   coordinates; valid ones when it runs with REQUIREVALID), is read back with the same type and the
   same coordinates *)
Theorem geo_roundtrip rv g :
  match g with
  | GOther k cs => bytes_eqb k k_point = false /\ forallb finite cs = true /\ (rv = true -> forallb valid cs = true)
  | _ => True
  end ->
  option_map coords (dec rv (enc g)) = Some (coords g).
Proof.
  destruct g as [y x|y x z|a b c d|k cs]; intros H; cbn [enc].
  - destruct (valid y && valid x) eqn:F; [|reflexivity]. apply andb_true_iff in F as [Fy Fx].
    unfold enc_orig. cbn [coords fst snd map dec].
    rewrite bytes_eqb_refl, !nof_jof, Fy, Fx by auto using valid_finite. destruct rv; reflexivity.
  - destruct (valid y && valid x && finite z) eqn:F; [|reflexivity].
    apply andb_true_iff in F as [F Fz]. apply andb_true_iff in F as [Fy Fx].
    unfold enc_orig. cbn [coords fst snd map dec].
    rewrite bytes_eqb_refl, !nof_jof, Fy, Fx by auto using valid_finite. destruct rv; reflexivity.
  - destruct (valid a && valid b && valid c && valid d) eqn:F; [|reflexivity].
    apply andb_true_iff in F as [F Fd]. apply andb_true_iff in F as [F Fc]. apply andb_true_iff in F as [Fa Fb].
    (* the five-corner polygon goes through the strict reader *)
    unfold enc_orig. cbn [coords fst snd dec]. rewrite eqb_polygon_point, all_some_finite; cbn [forallb].
    + rewrite Fa, Fb, Fc, Fd. destruct rv; reflexivity.
    + rewrite !valid_finite by assumption. reflexivity.
  - destruct H as [Hk [Hf Hv]]. unfold enc_orig. cbn [coords fst snd dec]. rewrite Hk.
    rewrite all_some_finite by exact Hf. destruct rv; cbn; [rewrite (Hv eq_refl); reflexivity | reflexivity].
Qed.

Definition t1 : bytes := [49%N].
Definition t2 : bytes := [50%N].
Definition t4 : bytes := [52%N].
Definition t5 : bytes := [53%N].
Definition t100 : bytes := [49%N; 48%N; 48%N].
Definition t200 : bytes := [50%N; 48%N; 48%N].
Definition k_line : bytes := bytes_of_string "LineString".

(* the pinned writer: POINT 1 inf comes back as POINT 1 NaN; BOUNDS 1 2 nan 4 does not load *)
Theorem geo_orig_refuted :
  (exists g g', dec false (enc_orig g) = Some g' /\ coords g' <> coords g) /\
  (exists g, dec false (enc_orig g) = None).
Proof.
  split.
  - exists (GPoint (Fin t1 true) PInf), (GPoint (Fin t1 true) NaN). split; [vm_compute; reflexivity | vm_compute; discriminate].
  - exists (GRect (Fin t1 true) (Fin t2 true) NaN (Fin t4 true)). vm_compute. reflexivity.
Qed.

Lemma migrate_keeps dflt legacy n fs : get n fs <> None -> get n (migrate dflt legacy fs) = get n fs.
Proof.
  intros H. unfold migrate. destruct (get dflt fs) eqn:E; [reflexivity|]. destruct (get legacy fs); [|reflexivity].
  apply get_set_other. intros ->. exact (H E).
Qed.

(* on any file system: once the restore has put a log under <n>, migrateAOF leaves it alone (it acts
   only when <dflt> is missing) and the start-up loads what the start-up without migration loads *)
Theorem startup_restores dflt legacy n fs : get n (restore_backup n fs) <> None ->
  startup startup_ops dflt legacy n fs = Some (recover_fs n n fs).
Proof.
  intros H. pose proof (migrate_keeps dflt legacy n _ H) as M.
  unfold startup, recover_fs. cbn [startup_ops fold_left do_sop fst snd].
  destruct (get n (restore_backup n fs)) as [f|]; [|contradiction]. rewrite M. cbv iota. rewrite M. reflexivity.
Qed.

Theorem startup_recovers dflt legacy n d rest :
  msorted rest -> (d_live d <> None \/ d_bak d <> None) ->
  startup startup_ops dflt legacy n (to_fs n d rest) = Some (recover_dir d).
Proof.
  intros Hs Hd. rewrite <- (recover_fs_is_recover_dir n d rest Hs). apply startup_restores.
  rewrite restore_to_fs by exact Hs. destruct (d_live d), (d_bak d); [discriminate..|tauto].
Qed.

Lemma crash_at_has_log fi c : d_live (crash_at fi c) <> None \/ d_bak (crash_at fi c) <> None.
Proof. destruct c; unfold crash_at, dir_start; cbn; first [left; discriminate | right; discriminate]. Qed.

(* every crash point of the final section, whatever legacy file (and other files) the directory
   holds, under every log name *)
Theorem crash_points_legacy dflt legacy n rest fi c :
  msorted rest -> crash_hyp fi ->
  exists s, startup startup_ops dflt legacy n (to_fs n (crash_at fi c) rest) = Some s /\
    (same_data s (replay (f_live fi) []) \/ same_data s (replay (f_live fi ++ f_pend fi) [])).
Proof.
  intros Hs H. exists (recover_dir (crash_at fi c)). split.
  - apply startup_recovers; [exact Hs | apply crash_at_has_log].
  - apply crash_points; exact H.
Qed.

(* migrate first: after a crash between the two renames the legacy file is migrated into the live
   name and the backup is ignored *)
Definition n_dflt : bytes := [100%N].
Definition n_legacy : bytes := [97%N].
Definition f_old : file := [CSet [111%N] [49%N] [] false [120%N]].
