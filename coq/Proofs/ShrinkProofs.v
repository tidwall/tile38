(* C09 — lemmas about Model/Shrink.v.

   exec and replay: what exec keeps (exec_keeps), the per-object action of a command (act, exec_lookup),
   replaying a log on its own result (replay_on_result; acts_idem, log_idempotent), snapshot records.
   The rewrite: one locked section as a relation (stepR, step_spec), which every invariant inverts.  Records
   come out in strictly increasing (key, id) order under every schedule (front, batches_never_repeat).
   snapshot ++ shrinklog replays to the live dataset when no RENAME runs (replay_inv; concurrent_partial with its
   instance quiescent; log_replay_idempotent from replay_inv too), refuted with RENAME.  With no writer a locked
   section moves records from what the cursor leaves to be written (todo) to the output (step_todo): the snapshot
   is the flattened dataset, and todo with the sections that write nothing is the measure of termination (mu).
   AOFSHRINK requests.
   The final section: crash points, leftovers of an interrupted rewrite, file names.
   Hooks: the repaired loader (hginv, hooks_preserved), the pinned one as a corollary under one kind per name.
   TTL digits.  Example data for Props/C09.v. *)
From Coq Require Import List NArith ZArith Bool Lia Sorted.
From Coq Require Import ZifyN ZifyNat ZifyBool.
From T38 Require Import Base.Bytes Base.ListFacts Base.SMap Model.Shrink.
Import ListNotations.
Local Open Scope nat_scope.

Definition wfc (col : coll) : Prop := msorted col /\ Forall (fun io => msorted (o_fields (snd io))) col.
Definition wf (s : st) : Prop :=
  msorted s /\
  Forall (fun kc => msorted (snd kc) /\ Forall (fun io => msorted (o_fields (snd io))) (snd kc)) s.
Definition same_data (a b : st) : Prop := forall k i, lookup k i a = lookup k i b.

Lemma leb_nil i : bytes_leb [] i = true.
Proof. destruct i; reflexivity. Qed.

Lemma ascend_from_nil_id {V} (m : smap V) : ascend_from [] m = m.
Proof. destruct m as [|[k v] r]; cbn; [reflexivity|]. rewrite bytes_ltb_nil_r. reflexivity. Qed.

Lemma ascend_from_skip {V} p (pre m : smap V) :
  Forall (fun k => bytes_ltb k p = true) (keys pre) -> ascend_from p (pre ++ m) = ascend_from p m.
Proof.
  induction pre as [|[k v] pre IH]; cbn; intros H; [reflexivity|].
  inversion H as [|? ? Hk Hr]; subst. rewrite Hk. apply IH, Hr.
Qed.

Lemma ascend_from_spec {V} p (m : smap V) : msorted m -> exists pre, m = pre ++ ascend_from p m /\
  Forall (fun k => bytes_ltb k p = true) (keys pre) /\ Forall (fun k => bytes_leb p k = true) (keys (ascend_from p m)).
Proof.
  induction m as [|[k v] r IH]; cbn; intros Hs; [exists []; repeat split; constructor|].
  destruct (bytes_ltb k p) eqn:E.
  - destruct (IH (msorted_tail _ _ Hs)) as (pre & Hr & Hlt & Hge).
    exists ((k, v) :: pre). cbn. rewrite <- Hr. repeat split; [constructor|]; assumption.
  - exists []. repeat split; [constructor|]. apply bytes_ltb_false_leb in E. apply msorted_inv in Hs as [_ Hs].
    cbn. constructor; [exact E|]. eapply Forall_impl; [|exact Hs]. intros x Hx. apply bytes_ltb_leb. eapply bytes_leb_ltb_trans; eauto.
Qed.

(* A scan from p that stops early cuts what Ascend(p) yields into the batch a and the rest b; the next scan, from
   the head of b, yields b. *)
Lemma ascend_cut {V} p (m a b : smap V) : msorted m -> ascend_from p m = a ++ b ->
  msorted a /\ Forall (fun x => bytes_leb p x = true) (keys a) /\ incl a m /\
  match b with
  | [] => True
  | (y, _) :: _ => Forall (fun x => bytes_ltb x y = true) (keys a) /\ bytes_leb p y = true /\ ascend_from y m = b
  end.
Proof.
  intros Hs Hab. destruct (ascend_from_spec p m Hs) as (pre & Hm & Hpre & Hge). rewrite Hab in Hm, Hge.
  pose proof Hs as Hs'. unfold msorted, keys in Hs', Hge. rewrite Hm, !map_app in Hs'. rewrite map_app in Hge.
  apply SS_app_inv in Hs' as (_ & Hs' & Hpab). apply SS_app_inv in Hs' as (Hsa & _ & Hlt). apply Forall_app in Hge as [Hga Hgb].
  split; [exact Hsa|]. split; [exact Hga|]. split; [intros x Hx; rewrite Hm; auto using in_or_app|].
  destruct b as [|[y w] t]; [exact I|].
  assert (Hay : Forall (fun x => bytes_ltb x y = true) (keys a)) by (apply Forall_forall; intros x Hx; apply Hlt; [exact Hx | left; reflexivity]).
  split; [exact Hay|]. split; [inversion Hgb; assumption|].
  rewrite Hm, app_assoc. rewrite ascend_from_skip; [cbn; rewrite ltb_irrefl; reflexivity|].
  unfold keys. rewrite map_app. apply Forall_app. split; [|exact Hay].
  apply Forall_forall. intros x Hx. apply Hpab; [exact Hx | apply in_or_app; right; left; reflexivity].
Qed.

Lemma ascend_cover {V} p (m a b : smap V) k v : msorted m -> ascend_from p m = a ++ b ->
  In (k, v) m -> bytes_leb p k = true ->
  In (k, v) a \/ exists y w t, b = (y, w) :: t /\ bytes_leb y k = true.
Proof.
  intros Hs Hab Hin Hp. destruct (ascend_from_spec p m Hs) as (pre & Hm & Hpre & _). rewrite Hab in Hm.
  rewrite Hm in Hin. apply in_app_iff in Hin as [Hin|Hin].
  - rewrite Forall_forall in Hpre. apply (in_map fst) in Hin. apply Hpre in Hin. apply bytes_ltb_false_leb in Hp. cbn in Hin. congruence.
  - apply in_app_iff in Hin as [Hin|Hin]; [left; exact Hin | right].
    destruct (ascend_cut p m a b Hs Hab) as (_ & _ & _ & Hb). destruct b as [|[y w] t]; [destruct Hin|].
    exists y, w, t. split; [reflexivity|]. destruct Hb as (_ & _ & Ey).
    destruct (ascend_from_spec y m Hs) as (_ & _ & _ & Hge). rewrite Ey, Forall_forall in Hge. apply Hge, (in_map fst _ _ Hin).
Qed.

Lemma in_keys_get {V} k (m : smap V) : In k (keys m) -> exists v, get k m = Some v.
Proof. exact (SMap.in_keys_get k m). Qed.

Lemma get_put {V} k (o : option V) m k2 : msorted m ->
  get k2 (match o with Some v => set k v m | None => del k m end) = if bytes_eqb k2 k then o else get k2 m.
Proof. intros Hs. destruct o; [apply get_set | apply get_del, Hs]. Qed.

Lemma msorted_put {V} k (o : option V) m : msorted m -> msorted (match o with Some v => set k v m | None => del k m end).
Proof. intros Hs. destruct o; [apply msorted_set | apply msorted_del]; exact Hs. Qed.

Lemma if_cong {A} (b : bool) (x y z : A) : (b = true -> x = y) -> (if b then x else z) = (if b then y else z).
Proof. destruct b; auto. Qed.

Lemma if_noop {A} (b : bool) (x y : A) : (b = true -> y = x) -> x = if b then y else x.
Proof. destruct b; intros H; [symmetry|]; auto. Qed.

Lemma lookup_nil k i : lookup k i [] = None.
Proof. reflexivity. Qed.

Lemma lookup_set k c s k2 i : lookup k2 i (set k c s) = if bytes_eqb k2 k then get i c else lookup k2 i s.
Proof. unfold lookup. rewrite get_set. destruct (bytes_eqb k2 k); reflexivity. Qed.

Lemma lookup_del k s k2 i : msorted s -> lookup k2 i (del k s) = if bytes_eqb k2 k then None else lookup k2 i s.
Proof. intros H. unfold lookup. rewrite get_del by exact H. destruct (bytes_eqb k2 k); reflexivity. Qed.

Lemma lookup_some s k i v : lookup k i s = Some v -> exists col, get k s = Some col /\ get i col = Some v.
Proof. unfold lookup. destruct (get k s) as [col|]; [|discriminate]. intros H. exists col. auto. Qed.

Lemma col_lookup (s : st) k (col : coll) : get k s = Some col -> forall j, get j col = lookup k j s.
Proof. intros H j. unfold lookup. rewrite H. reflexivity. Qed.

Lemma lookup_no_key (s : st) k i : get k s = None -> lookup k i s = None.
Proof. intros H. unfold lookup. rewrite H. reflexivity. Qed.

(* the collection under a key; a missing one counts as empty (cmdSET; the ids batch of a key that is gone) *)
Definition colof (k : bytes) (s : st) : coll := match get k s with Some c => c | None => [] end.

Lemma get_colof k s j : get j (colof k s) = lookup k j s.
Proof. unfold colof, lookup. destruct (get k s); reflexivity. Qed.

Lemma obj_eta o : mkObj (o_geo o) (o_fields o) (o_dl o) = o.
Proof. destruct o; reflexivity. Qed.

Lemma wf_nil : wf [].
Proof. split; constructor. Qed.

Lemma wfc_nil : wfc [].
Proof. split; constructor. Qed.

Lemma wf_get s k col : wf s -> get k s = Some col -> wfc col.
Proof. intros [_ HF] Hg. exact (Forall_get _ _ _ _ HF Hg). Qed.

Lemma wf_colof s k : wf s -> wfc (colof k s).
Proof. intros Hwf. unfold colof. destruct (get k s) eqn:E; [exact (wf_get _ _ _ Hwf E) | exact wfc_nil]. Qed.

Lemma wfc_get col i o : wfc col -> get i col = Some o -> msorted (o_fields o).
Proof. intros [_ HF] Hg. exact (Forall_get _ _ _ _ HF Hg). Qed.

Lemma wf_lookup s k i o : wf s -> lookup k i s = Some o -> msorted (o_fields o).
Proof.
  intros Hwf H. rewrite <- get_colof in H. exact (wfc_get _ _ _ (wf_colof s k Hwf) H).
Qed.

Lemma wfc_set col i o : wfc col -> msorted (o_fields o) -> wfc (set i o col).
Proof. intros [H1 H2] Ho. split; [apply msorted_set; exact H1 | apply Forall_set; assumption]. Qed.

Lemma wfc_del col i : wfc col -> wfc (del i col).
Proof. intros [H1 H2]. split; [apply msorted_del; exact H1 | apply Forall_del; exact H2]. Qed.

Lemma keys_filter_in {V} (f : bytes * V -> bool) (m : smap V) x : In x (keys (filter f m)) -> In x (keys m).
Proof. apply incl_map, incl_filter. Qed.

Lemma msorted_filter {V} (f : bytes * V -> bool) (m : smap V) : msorted m -> msorted (filter f m).
Proof.
  induction m as [|[k v] r IH]; intros Hs; cbn; [exact Hs|].
  pose proof (msorted_inv _ _ _ Hs) as [Hr Hall]. destruct (f (k, v)); [|apply IH; exact Hr].
  apply msorted_cons; [apply IH; exact Hr|]. rewrite Forall_forall in *. intros x Hx. apply Hall.
  eapply keys_filter_in; exact Hx.
Qed.

Lemma wfc_filter col f : wfc col -> wfc (filter f col).
Proof. intros [H1 H2]. split; [apply msorted_filter; exact H1 | apply Forall_filter; exact H2]. Qed.

Lemma wf_set s k col : wf s -> wfc col -> wf (set k col s).
Proof. intros [H1 H2] Hc. split; [apply msorted_set; exact H1 | apply Forall_set; assumption]. Qed.

Lemma wf_del s k : wf s -> wf (del k s).
Proof. intros [H1 H2]. split; [apply msorted_del; exact H1 | apply Forall_del; exact H2]. Qed.

Lemma fset1_sorted fs u : msorted fs -> msorted (fset1 fs u).
Proof. apply msorted_put. Qed.

Lemma apply_fields_sorted us : forall fs, msorted fs -> msorted (apply_fields fs us).
Proof. apply fold_left_inv. intros fs u _. apply fset1_sorted. Qed.

Lemma apply_fields_app fs a b : apply_fields fs (a ++ b) = apply_fields (apply_fields fs a) b.
Proof. unfold apply_fields. apply fold_left_app. Qed.

Lemma ofval_eqb_eq a b : ofval_eqb a b = true -> a = b.
Proof. destruct a, b; cbn; try discriminate; try reflexivity. intros H. apply bytes_eqb_eq in H. congruence. Qed.

Lemma fset1_same fs u : msorted fs -> get (fst u) fs = snd u -> fset1 fs u = fs.
Proof.
  intros Hs H. unfold fset1. destruct (snd u) as [v|]; [apply set_same | apply del_absent]; assumption.
Qed.

Lemma fset_loop_apply us : forall fs n, msorted fs -> fst (fset_loop fs us n) = apply_fields fs us.
Proof.
  induction us as [|u r IH]; intros fs n Hs; cbn; [reflexivity|].
  destruct (ofval_eqb (get (fst u) fs) (snd u)) eqn:E.
  - apply ofval_eqb_eq in E. rewrite (fset1_same fs u Hs E). apply IH; exact Hs.
  - apply IH. apply fset1_sorted; exact Hs.
Qed.

Lemma fset_loop_count us : forall fs n,
  n <= snd (fset_loop fs us n) /\ (snd (fset_loop fs us n) = n -> fst (fset_loop fs us n) = fs).
Proof.
  induction us as [|u r IH]; intros fs n; cbn; [auto|].
  destruct (ofval_eqb (get (fst u) fs) (snd u)); [apply IH|].
  destruct (IH (fset1 fs u) (S n)) as [H1 H2]. split; lia.
Qed.

Definition samepair (k i k' i' : bytes) : bool := bytes_eqb k k' && bytes_eqb i i'.

Lemma samepair_true k i k' i' : samepair k i k' i' = true -> k = k' /\ i = i'.
Proof. unfold samepair. intros H. apply andb_true_iff in H. destruct H as [H1 H2]. apply bytes_eqb_eq in H1, H2. auto. Qed.

Lemma samepair_refl k i : samepair k i k i = true.
Proof. unfold samepair. rewrite !bytes_eqb_refl. reflexivity. Qed.

Lemma lookup_upd s k' col i' o k i :
  (forall j, get j col = lookup k' j s) ->
  lookup k i (set k' (set i' o col) s) = if samepair k i k' i' then Some o else lookup k i s.
Proof.
  intros Hc. rewrite lookup_set, get_set. unfold samepair.
  destruct (bytes_eqb_spec k k') as [->|_]; [rewrite Hc|]; reflexivity.
Qed.

Lemma lookup_modify (s : st) k' i' (col : coll) o (g : obj -> obj) k i : get k' s = Some col -> get i' col = Some o ->
  lookup k i (set k' (set i' (g o) col) s) = if samepair k i k' i' then option_map g (lookup k i s) else lookup k i s.
Proof.
  intros Ek Ei. rewrite (lookup_upd s k' col i' _ k i (col_lookup _ _ _ Ek)). apply if_cong. intros E.
  apply samepair_true in E as [-> ->]. rewrite <- (col_lookup _ _ _ Ek), Ei. reflexivity.
Qed.

Lemma lookup_put_col s k' col' k i : msorted s ->
  lookup k i (put_col k' col' s) = if bytes_eqb k k' then get i col' else lookup k i s.
Proof.
  intros Hs. unfold put_col. destruct col'; [rewrite lookup_del by exact Hs | rewrite lookup_set]; reflexivity.
Qed.

Lemma get_filter_sorted {V} (f : bytes * V -> bool) (m : smap V) n : msorted m ->
  get n (filter f m) = match get n m with Some v => if f (n, v) then Some v else None | None => None end.
Proof.
  induction m as [|[k v] r IH]; intros Hs; cbn; [reflexivity|].
  pose proof (msorted_inv _ _ _ Hs) as [Hr Hall]. destruct (bytes_eqb n k) eqn:E.
  - apply bytes_eqb_eq in E; subst k. destruct (f (n, v)); cbn; [rewrite bytes_eqb_refl; reflexivity|].
    apply get_not_in. intros Hin. apply keys_filter_in in Hin. rewrite Forall_forall in Hall.
    apply Hall in Hin. rewrite ltb_irrefl in Hin. discriminate.
  - destruct (f (k, v)); cbn; [rewrite E|]; apply IH; exact Hr.
Qed.

Lemma get_filter_key {V} (p : bytes -> bool) (m : smap V) i : msorted m ->
  get i (filter (fun iv => negb (p (fst iv))) m) = if p i then None else get i m.
Proof. intros Hs. rewrite get_filter_sorted by exact Hs. cbn [fst]. destruct (get i m), (p i); reflexivity. Qed.

Definition cmd_fields (c : cmd) : fupd := match c with CSet _ _ us _ _ | CFset _ _ us => us | _ => [] end.

Section Keeps.
Variables (Pd : st -> Prop) (Pc : coll -> Prop) (Pf : smap fval -> Prop) (Pu : bytes * option fval -> Prop).
Hypothesis Pd_nil : Pd [].
Hypothesis Pd_set : forall s k col, Pd s -> Pc col -> Pd (set k col s).
Hypothesis Pd_del : forall s k, Pd s -> Pd (del k s).
Hypothesis Pd_get : forall s k col, Pd s -> get k s = Some col -> Pc col.
Hypothesis Pc_nil : Pc [].
Hypothesis Pc_set : forall col i o, Pc col -> Pf (o_fields o) -> Pc (set i o col).
Hypothesis Pc_del : forall col i, Pc col -> Pc (del i col).
Hypothesis Pc_filter : forall col f, Pc col -> Pc (filter f col).
Hypothesis Pc_get : forall col i o, Pc col -> get i col = Some o -> Pf (o_fields o).
Hypothesis Pf_nil : Pf [].
Hypothesis Pf_fset1 : forall fs u, Pf fs -> Pu u -> Pf (fset1 fs u).

Lemma apply_fields_keeps us : forall fs, Pf fs -> Forall Pu us -> Pf (apply_fields fs us).
Proof.
  intros fs Hf Hu. revert fs Hf. apply fold_left_inv. intros fs u Hin Hf.
  apply Pf_fset1; [exact Hf | exact (proj1 (Forall_forall Pu us) Hu u Hin)].
Qed.

Lemma fset_loop_keeps us : forall fs n, Pf fs -> Forall Pu us -> Pf (fst (fset_loop fs us n)).
Proof.
  induction us as [|u us IH]; intros fs n Hf Hu; cbn; [exact Hf|].
  inversion Hu; subst. destruct (ofval_eqb _ _); apply IH; try apply Pf_fset1; assumption.
Qed.

Lemma exec_keeps s c : Pd s -> Forall Pu (cmd_fields c) -> Pd (fst (exec s c)).
Proof.
  intros Hs Hc.
  assert (Hput : forall k col, Pc col -> Pd (put_col k col s)).
  { intros k col Hcol. unfold put_col. destruct col; [apply Pd_del, Hs | apply Pd_set; assumption]. }
  destruct c as [k i us ex geo|k i us|k i|k i|k i|k pat|k|a b|]; cbn [exec cmd_fields] in *.
  - (* SET: a missing collection counts as empty, a missing object as one without fields *)
    assert (Hcol : Pc (colof k s)).
    { unfold colof. destruct (get k s) eqn:E; [exact (Pd_get _ _ _ Hs E) | exact Pc_nil]. }
    apply Pd_set; [exact Hs|]. apply Pc_set; [exact Hcol|]. apply apply_fields_keeps; [|exact Hc].
    destruct (get i _) eqn:Ei; [exact (Pc_get _ _ _ Hcol Ei) | exact Pf_nil].
  - destruct (get k s) as [col|] eqn:E; [destruct (get i col) as [o|] eqn:Ei|]; [|exact Hs..].
    pose proof (Pd_get _ _ _ Hs E) as Hcol.
    pose proof (fset_loop_keeps us (o_fields o) 0 (Pc_get _ _ _ Hcol Ei) Hc) as Hl.
    destruct (fset_loop (o_fields o) us 0) as [fs' n]. apply Pd_set, Pc_set; assumption.
  - destruct (get k s) as [col|] eqn:E; [destruct (get i col) as [o|] eqn:Ei|]; [|exact Hs..].
    pose proof (Pd_get _ _ _ Hs E) as Hcol. apply Pd_set, Pc_set; [| |exact (Pc_get _ _ _ Hcol Ei)]; assumption.
  - destruct (get k s) as [col|] eqn:E; [destruct (get i col) as [o|] eqn:Ei; [destruct (o_dl o)|]|]; [|exact Hs..].
    pose proof (Pd_get _ _ _ Hs E) as Hcol. apply Pd_set, Pc_set; [| |exact (Pc_get _ _ _ Hcol Ei)]; assumption.
  - destruct (get k s) as [col|] eqn:E; [destruct (get i col)|]; [|exact Hs..]. apply Hput, Pc_del, (Pd_get _ _ _ Hs E).
  - destruct (get k s) as [col|] eqn:E; [destruct (Nat.eqb _ _)|]; [exact Hs| |exact Hs].
    apply Hput, Pc_filter, (Pd_get _ _ _ Hs E).
  - destruct (get k s); [apply Pd_del|]; exact Hs.
  - destruct (get a s) as [col|] eqn:E; [|exact Hs]. apply Pd_set; [apply Pd_del, Pd_del, Hs | exact (Pd_get _ _ _ Hs E)].
  - exact Pd_nil.
Qed.

End Keeps.

Lemma exec_wf s c : wf s -> wf (fst (exec s c)).
Proof.
  intros Hwf. apply (exec_keeps wf wfc msorted (fun _ => True) wf_nil wf_set wf_del wf_get wfc_nil wfc_set wfc_del
                      wfc_filter wfc_get msorted_nil (fun fs u H _ => fset1_sorted fs u H) s c Hwf).
  apply Forall_forall. intros; exact I.
Qed.

Definition nr_cmd (c : cmd) : bool := match c with CRename _ _ => false | _ => true end.

Lemma not_rename_nr c : is_rename (W c) = false -> nr_cmd c = true.
Proof. destruct c; cbn; congruence. Qed.

Definition oflds (x : option obj) : smap fval := match x with Some o => o_fields o | None => [] end.

(* the effect of a (non-RENAME) command on the object (k,i), as a function of its old value *)
Definition act (c : cmd) (k i : bytes) (x : option obj) : option obj :=
  match c with
  | CSet k' i' us ex geo =>
      if samepair k i k' i' then Some (mkObj geo (apply_fields (oflds x) us) ex) else x
  | CFset k' i' us =>
      if samepair k i k' i'
      then option_map (fun o => mkObj (o_geo o) (apply_fields (o_fields o) us) (o_dl o)) x else x
  | CExpire k' i' =>
      if samepair k i k' i' then option_map (fun o => mkObj (o_geo o) (o_fields o) true) x else x
  | CPersist k' i' =>
      if samepair k i k' i' then option_map (fun o => mkObj (o_geo o) (o_fields o) false) x else x
  | CDel k' i' => if samepair k i k' i' then None else x
  | CPdel k' pat => if bytes_eqb k k' && pmatch pat i then None else x
  | CDrop k' => if bytes_eqb k k' then None else x
  | CRename _ _ => x
  | CFlushdb => None
  end.

(* the object the command is aimed at is missing: nothing changes, for the command and for act *)
Ltac absent Ek Ei :=
  apply if_noop; intros E; apply samepair_true in E as [-> ->]; unfold lookup; rewrite Ek, ?Ei; reflexivity.

Lemma exec_lookup s c k i : wf s -> nr_cmd c = true ->
  lookup k i (fst (exec s c)) = act c k i (lookup k i s).
Proof.
  intros Hwf Hnr. pose proof Hwf as [Hs _].
  destruct c as [k' i' us ex geo|k' i' us|k' i'|k' i'|k' i'|k' pat|k'|a b|]; try discriminate; cbn [exec act].
  - cbn [fst]. rewrite (lookup_upd s k' (colof k' s) i' _ k i (get_colof k' s)). apply if_cong. intros E. apply samepair_true in E as [-> ->].
    rewrite <- get_colof. reflexivity.
  - destruct (get k' s) as [col|] eqn:Ek; [destruct (get i' col) as [o|] eqn:Ei|]; [|absent Ek Ei|absent Ek Ek].
    pose proof (fset_loop_apply us (o_fields o) 0 (wfc_get _ _ _ (wf_get _ _ _ Hwf Ek) Ei)) as Hfl.
    destruct (fset_loop (o_fields o) us 0) as [fs' n]. cbn [fst] in *. subst fs'.
    exact (lookup_modify s k' i' col o (fun o => mkObj (o_geo o) (apply_fields (o_fields o) us) (o_dl o)) k i Ek Ei).
  - destruct (get k' s) as [col|] eqn:Ek; [destruct (get i' col) as [o|] eqn:Ei|]; [|absent Ek Ei|absent Ek Ek].
    exact (lookup_modify s k' i' col o (fun o => mkObj (o_geo o) (o_fields o) true) k i Ek Ei).
  - (* PERSIST: without a deadline the object stays as it is *)
    destruct (get k' s) as [col|] eqn:Ek; [destruct (get i' col) as [o|] eqn:Ei|]; [|absent Ek Ei|absent Ek Ek].
    destruct (o_dl o) eqn:Ed; cbn [fst].
    + exact (lookup_modify s k' i' col o (fun o => mkObj (o_geo o) (o_fields o) false) k i Ek Ei).
    + apply if_noop. intros E. apply samepair_true in E as [-> ->].
      rewrite <- (col_lookup _ _ _ Ek), Ei. cbn. rewrite <- Ed, obj_eta. reflexivity.
  - destruct (get k' s) as [col|] eqn:Ek; [destruct (get i' col) as [o|] eqn:Ei|]; [|absent Ek Ei|absent Ek Ek]. cbn [fst].
    rewrite lookup_put_col, get_del by (exact Hs || apply (wf_get _ _ _ Hwf Ek)). unfold samepair.
    destruct (bytes_eqb_spec k k') as [->|_]; [rewrite <- (col_lookup _ _ _ Ek)|]; reflexivity.
  - (* PDEL: in both cases the collection is the filtered one *)
    destruct (get k' s) as [col|] eqn:Ek.
    + set (col' := filter (fun iv => negb (pmatch pat (fst iv))) col).
      assert (H : lookup k i (fst (if Nat.eqb (length col') (length col) then (s, NotUpdated) else (put_col k' col' s, Updated)))
                  = if bytes_eqb k k' then get i col' else lookup k i s).
      { destruct (Nat.eqb_spec (length col') (length col)) as [El|El]; cbn [fst]; [|apply lookup_put_col, Hs].
        unfold col'. rewrite (filter_length_eq _ _ El). apply if_noop. intros E. apply bytes_eqb_eq in E as ->. apply (col_lookup _ _ _ Ek). }
      rewrite H. unfold col'. rewrite get_filter_key by apply (wf_get _ _ _ Hwf Ek).
      destruct (bytes_eqb_spec k k') as [->|_]; [rewrite <- (col_lookup _ _ _ Ek)|]; reflexivity.
    + apply if_noop. intros E. apply andb_true_iff in E as [E _]. apply bytes_eqb_eq in E as ->. symmetry. apply lookup_no_key, Ek.
  - destruct (get k' s) eqn:Ek; cbn [fst]; [apply lookup_del, Hs|].
    apply if_noop. intros E. apply bytes_eqb_eq in E as ->. symmetry. apply lookup_no_key, Ek.
  - reflexivity.
Qed.

Fixpoint acts (l : list cmd) (k i : bytes) (x : option obj) : option obj :=
  match l with [] => x | c :: r => acts r k i (act c k i x) end.

Lemma acts_app a b k i x : acts (a ++ b) k i x = acts b k i (acts a k i x).
Proof. revert x. induction a as [|c a IH]; intros x; cbn; [reflexivity | apply IH]. Qed.

Lemma replay_app a b s : replay (a ++ b) s = replay b (replay a s).
Proof. revert s. induction a as [|c a IH]; intros s; cbn; [reflexivity | apply IH]. Qed.

Lemma replay_wf l s : wf s -> wf (replay l s).
Proof. apply fold_left_inv. intros s' c _. apply exec_wf. Qed.

Lemma replay_lookup l : forall s k i, wf s -> forallb nr_cmd l = true ->
  lookup k i (replay l s) = acts l k i (lookup k i s).
Proof.
  induction l as [|c l IH]; intros s k i Hwf Hnr; cbn; [reflexivity|].
  cbn in Hnr. apply andb_true_iff in Hnr. destruct Hnr as [Hc Hl].
  rewrite IH by (try apply exec_wf; assumption). rewrite exec_lookup by assumption. reflexivity.
Qed.

Lemma exec_unlogged_id s c : wf s -> logged (snd (exec s c)) = false -> fst (exec s c) = s.
Proof.
  intros Hwf. destruct c as [k i us ex geo|k i us|k i|k i|k i|k pat|k|a b|]; cbn [exec]; try discriminate.
  - (* FSET that changed no field: the object is written back as it was *)
    destruct (get k s) as [col|] eqn:Ek; [destruct (get i col) as [o|] eqn:Ei|]; [|reflexivity..].
    pose proof (fset_loop_count us (o_fields o) 0) as [_ Hcnt].
    destruct (fset_loop (o_fields o) us 0) as [fs' [|n]]; [|discriminate]. cbn [fst snd] in *. intros _.
    rewrite (Hcnt eq_refl), obj_eta. pose proof (wf_get _ _ _ Hwf Ek) as [Hc _].
    rewrite (set_same i) by assumption. apply set_same; [apply Hwf | exact Ek].
  - destruct (get k s) as [col|]; [destruct (get i col)|]; reflexivity || discriminate.
  - destruct (get k s) as [col|]; [destruct (get i col) as [o|]; [destruct (o_dl o)|]|]; reflexivity || discriminate.
  - destruct (get k s) as [col|]; [destruct (get i col)|]; reflexivity || discriminate.
  - destruct (get k s) as [col|]; [destruct (Nat.eqb _ _)|]; reflexivity || discriminate.
  - destruct (get k s); reflexivity || discriminate.
  - destruct (get a s); reflexivity || discriminate.
Qed.

(* FSET / EXPIRE / PERSIST act on (k,i) only when the object exists *)
Definition cond (c : cmd) (k i : bytes) : bool :=
  match c with
  | CFset k' i' _ | CExpire k' i' | CPersist k' i' => samepair k i k' i'
  | _ => false
  end.

Lemma exec_logged_cond s c k i : logged (snd (exec s c)) = true -> cond c k i = true -> lookup k i s <> None.
Proof.
  destruct c as [k' i' us ex geo|k' i' us|k' i'|k' i'|k' i'|k' pat|k'|a b|]; cbn [exec cond]; try discriminate;
    intros Hl Hc; apply samepair_true in Hc; destruct Hc; subst k' i'; unfold lookup;
    (destruct (get k s) as [col|]; [|discriminate Hl]); (destruct (get i col); [discriminate | discriminate Hl]).
Qed.

(* every conditional entry for (k,i) finds the object: true of a shrinklog, whose entries were
   all `Updated` when they ran *)
Fixpoint okl (l : list cmd) (k i : bytes) (x : option obj) : Prop :=
  match l with
  | [] => True
  | c :: r => (cond c k i = true -> x <> None) /\ okl r k i (act c k i x)
  end.

Lemma okl_app a b k i x : okl (a ++ b) k i x <-> okl a k i x /\ okl b k i (acts a k i x).
Proof.
  revert x. induction a as [|c a IH]; intros x; cbn; [tauto|]. rewrite IH. tauto.
Qed.

Fixpoint lastupd (n : bytes) (us : fupd) : option (option fval) :=
  match us with
  | [] => None
  | u :: r => match lastupd n r with Some x => Some x | None => if bytes_eqb n (fst u) then Some (snd u) else None end
  end.

Lemma get_fset1 fs u n : msorted fs -> get n (fset1 fs u) = if bytes_eqb n (fst u) then snd u else get n fs.
Proof. apply get_put. Qed.

Lemma get_apply_fields us : forall fs n, msorted fs ->
  get n (apply_fields fs us) = match lastupd n us with Some u => u | None => get n fs end.
Proof.
  induction us as [|u r IH]; intros fs n Hs; [reflexivity|].
  change (apply_fields fs (u :: r)) with (apply_fields (fset1 fs u) r).
  rewrite IH by (apply fset1_sorted; exact Hs). cbn [lastupd]. destruct (lastupd n r); [reflexivity|].
  rewrite get_fset1 by exact Hs. destruct (bytes_eqb n (fst u)); reflexivity.
Qed.

Definition fsorted (x : option obj) : Prop := match x with Some o => msorted (o_fields o) | None => True end.

Lemma wf_fsorted s k i : wf s -> fsorted (lookup k i s).
Proof. intros Hwf. unfold fsorted. destruct (lookup k i s) eqn:E; [exact (wf_lookup _ _ _ _ Hwf E) | exact I]. Qed.

Lemma oflds_sorted x : fsorted x -> msorted (oflds x).
Proof. destruct x; [auto | constructor]. Qed.

Lemma act_fsorted c k i x : fsorted x -> fsorted (act c k i x).
Proof.
  intros H. destruct c as [k' i' us ex geo|k' i' us|k' i'|k' i'|k' i'|k' pat|k'|a b|]; cbn [act];
    try destruct (samepair k i k' i'); try exact H; try exact I.
  - apply apply_fields_sorted, oflds_sorted, H.
  - destruct x; [apply apply_fields_sorted|]; exact H.
  - destruct x; exact H.
  - destruct x; exact H.
  - destruct (_ && _); [exact I | exact H].
  - destruct (bytes_eqb k k'); [exact I | exact H].
Qed.

(* Replaying a log on its own result y changes nothing, given a relation R y between the value u in the
   original run and the value w in the replay that holds at the start (the replay starts at y), that every
   command keeps whose logged-condition ok held in the original run, and that at the end (where the original
   is y) forces w = y.  P is a property all commands keep.  Objects (cmix) and hooks (HInv) are instances. *)
Section ReplayOnResult.
Variables (C X : Type) (act1 : C -> X -> X) (ok : C -> X -> Prop) (run : list C -> X -> X) (oks : list C -> X -> Prop).
Variables (P : X -> Prop) (R : X -> X -> X -> Prop).
Hypothesis run_nil : forall x, run [] x = x.
Hypothesis run_cons : forall c l x, run (c :: l) x = run l (act1 c x).
Hypothesis oks_cons : forall c l x, oks (c :: l) x -> ok c x /\ oks l (act1 c x).
Hypothesis P_act : forall c x, P x -> P (act1 c x).
Hypothesis R_init : forall y x, R y x y.
Hypothesis R_step : forall y c u w, ok c u -> P u -> P w -> R y u w -> R y (act1 c u) (act1 c w).
Hypothesis R_final : forall y w, P y -> P w -> R y y w -> w = y.

Lemma run_keeps l : forall x, P x -> P (run l x).
Proof. induction l as [|c l IH]; intros x H; [rewrite run_nil; exact H | rewrite run_cons; apply IH, P_act, H]. Qed.

Lemma run_related y l : forall u w, oks l u -> P u -> P w -> R y u w -> R y (run l u) (run l w).
Proof.
  induction l as [|c l IH]; intros u w Hok Hu Hw HJ; [rewrite !run_nil; exact HJ|].
  rewrite !run_cons. apply oks_cons in Hok as [Hc Hok]. apply IH; auto.
Qed.

Theorem replay_on_result l x0 : P x0 -> oks l x0 -> run l (run l x0) = run l x0.
Proof.
  intros H0 Hok. pose proof (run_keeps l x0 H0) as Hy.
  apply R_final; [exact Hy | apply run_keeps, Hy | apply run_related; auto].
Qed.

End ReplayOnResult.

(* For objects: a command overwrites a component of the object — payload, deadline flag, a field — in both
   runs or in neither, so each component of the replayed value w is at every moment the original's or the final
   one's.  Payload and flag are compared as options, so existence rides on them: a command that acts only on an
   existing object found one in the original run (okl); where the replay has none, neither has y. *)
Definition mix {A} (u w y : A) : Prop := w = u \/ w = y.
Definition cmix (y u w : option obj) : Prop :=
  mix (option_map o_geo u) (option_map o_geo w) (option_map o_geo y) /\
  mix (option_map o_dl u) (option_map o_dl w) (option_map o_dl y) /\
  forall n, mix (get n (oflds u)) (get n (oflds w)) (get n (oflds y)).

Lemma cmix_none y : cmix y None None.
Proof. repeat split; left; reflexivity. Qed.

Lemma mix_apply_fields {fu fw fy : smap fval} us : msorted fu -> msorted fw ->
  (forall n, mix (get n fu) (get n fw) (get n fy)) ->
  forall n, mix (get n (apply_fields fu us)) (get n (apply_fields fw us)) (get n fy).
Proof. intros Hu Hw H n. rewrite !get_apply_fields by assumption. destruct (lastupd n us); [left; reflexivity | apply H]. Qed.

Lemma cmix_step y c k i u w : (cond c k i = true -> u <> None) -> fsorted u -> fsorted w ->
  cmix y u w -> cmix y (act c k i u) (act c k i w).
Proof.
  intros Hc Hu Hw HJ.
  (* FSET / EXPIRE / PERSIST: the original has the object; the replay too, or neither it nor y *)
  assert (Hmod : forall g : obj -> obj, u <> None ->
            (forall ou ow, u = Some ou -> w = Some ow -> cmix y (Some (g ou)) (Some (g ow))) ->
            cmix y (option_map g u) (option_map g w)).
  { intros g Hne Hg. destruct u as [ou|]; [|contradiction]. destruct w as [ow|]; [apply Hg; reflexivity|].
    destruct HJ as ([H1|H1] & _); [discriminate|]. destruct y; [discriminate|].
    repeat split; right; reflexivity. }
  destruct c as [k' i' us ex geo|k' i' us|k' i'|k' i'|k' i'|k' pat|k'|a b|]; cbn [act cond] in *;
    try (destruct (samepair k i k' i'); [|exact HJ]); try apply cmix_none.
  - destruct HJ as (_ & _ & H3). repeat split; try (left; reflexivity).
    apply mix_apply_fields; auto using oflds_sorted.
  - apply Hmod; [auto|]. intros ou ow -> ->. destruct HJ as (H1 & H2 & H3).
    repeat split; try assumption. apply mix_apply_fields; assumption.
  - apply Hmod; [auto|]. intros ou ow -> ->. destruct HJ as (H1 & H2 & H3).
    repeat split; try assumption. left; reflexivity.
  - apply Hmod; [auto|]. intros ou ow -> ->. destruct HJ as (H1 & H2 & H3).
    repeat split; try assumption. left; reflexivity.
  - destruct (_ && _); [apply cmix_none | exact HJ].
  - destruct (bytes_eqb k k'); [apply cmix_none | exact HJ].
  - exact HJ.
Qed.

Lemma cmix_final y w : fsorted y -> fsorted w -> cmix y y w -> w = y.
Proof.
  intros Hy Hw (H1 & H2 & H3). destruct w as [[gw fw dw]|], y as [[gy fy dy]|]; cbn in *;
    [|destruct H1; discriminate..|reflexivity].
  f_equal. f_equal; [destruct H1; congruence| |destruct H2; congruence].
  apply smap_ext; [assumption..|]. intros n. destruct (H3 n); assumption.
Qed.

Theorem acts_idem l k i x0 : fsorted x0 -> okl l k i x0 ->
  acts l k i (acts l k i x0) = acts l k i x0.
Proof.
  apply (replay_on_result cmd (option obj) (fun c => act c k i) (fun c x => cond c k i = true -> x <> None)
           (fun l => acts l k i) (fun l => okl l k i) fsorted cmix); auto using act_fsorted, cmix_step, cmix_final.
  intros y x. repeat split; right; reflexivity.
Qed.

(* the form used for the new file: the snapshot holds the value at some earlier time (after the
   prefix l1 of the final log l1 ++ l2); replaying the whole log on it gives the final value *)
Theorem log_idempotent k i l1 l2 x0 : fsorted x0 -> okl (l1 ++ l2) k i x0 ->
  acts (l1 ++ l2) k i (acts l1 k i x0) = acts (l1 ++ l2) k i x0.
Proof.
  intros Hs Hok. apply okl_app in Hok. destruct Hok as [Hok _].
  rewrite !acts_app. rewrite acts_idem by assumption. reflexivity.
Qed.

Definition is_cset (c : cmd) : Prop := match c with CSet _ _ _ _ _ => True | _ => False end.

Definition rec_lt (a b : cmd) : Prop :=
  match a, b with
  | CSet k i _ _ _, CSet k' i' _ _ _ => bytes_ltb k k' = true \/ (k = k' /\ bytes_ltb i i' = true)
  | _, _ => False
  end.

Definition rec_sorted (l : list cmd) : Prop := Forall is_cset l /\ StronglySorted rec_lt l.

Lemma cset_nr l : Forall is_cset l -> forallb nr_cmd l = true.
Proof. induction 1 as [|c l Hc _ IH]; cbn; [reflexivity|]. rewrite IH. destruct c; cbn in *; tauto. Qed.

Lemma fields_of_inj a : forall b, fields_of a = fields_of b -> a = b.
Proof.
  induction a as [|[n v] a IH]; intros [|[n' v'] b]; cbn; try discriminate; [reflexivity|].
  intros H. inversion H; subst. f_equal. apply IH; assumption.
Qed.

Lemma rec_cmd_inj k i o k' i' o' : rec_cmd k i o = rec_cmd k' i' o' -> k = k' /\ i = i' /\ o = o'.
Proof.
  unfold rec_cmd. intros H. inversion H as [[H1 H2 H3 H4 H5]]. apply fields_of_inj in H3.
  split; [reflexivity|]. split; [reflexivity|]. destruct o, o'; cbn in *; subst; reflexivity.
Qed.

Lemma lastupd_fields_of fs n : msorted fs ->
  lastupd n (fields_of fs) = match get n fs with Some v => Some (Some v) | None => None end.
Proof.
  induction fs as [|[m v] r IH]; intros Hs; [reflexivity|].
  change (fields_of ((m, v) :: r)) with ((m, Some v) :: fields_of r). cbn [lastupd get fst snd].
  pose proof (msorted_inv _ _ _ Hs) as [Hr Hall]. rewrite IH by exact Hr.
  destruct (bytes_eqb_spec n m) as [->|_]; [rewrite (get_below _ _ Hall) | destruct (get n r)]; reflexivity.
Qed.

Lemma apply_fields_of fs : msorted fs -> apply_fields [] (fields_of fs) = fs.
Proof.
  intros Hs. apply smap_ext; [apply apply_fields_sorted; constructor | exact Hs|]. intros n.
  rewrite get_apply_fields by constructor. rewrite lastupd_fields_of by exact Hs. destruct (get n fs); reflexivity.
Qed.

Lemma act_rec_none k i o : msorted (o_fields o) -> act (rec_cmd k i o) k i None = Some o.
Proof. intros Hs. cbn. rewrite samepair_refl. cbn. rewrite apply_fields_of by exact Hs. rewrite obj_eta. reflexivity. Qed.

Theorem snapshot_record_exact k i o s : wf s -> msorted (o_fields o) -> lookup k i s = None ->
  lookup k i (fst (exec s (rec_cmd k i o))) = Some o.
Proof. intros Hwf Hs Hl. rewrite exec_lookup by (exact Hwf || reflexivity). rewrite Hl. apply act_rec_none; exact Hs. Qed.

Definition recwf (c : cmd) : Prop := exists k i o, c = rec_cmd k i o /\ msorted (o_fields o).

Lemma acts_miss l k i : Forall recwf l -> (forall o, ~ In (rec_cmd k i o) l) -> forall x, acts l k i x = x.
Proof.
  induction 1 as [|c l (k' & i' & o' & -> & _) _ IH]; intros Hm x; cbn [acts]; [reflexivity|].
  rewrite IH by (intros o Ho; apply (Hm o); right; exact Ho). cbn.
  destruct (samepair k i k' i') eqn:E; [|reflexivity]. apply samepair_true in E as [-> ->]. destruct (Hm o'). left; reflexivity.
Qed.

Lemma snap_value out k i : rec_sorted out -> Forall recwf out ->
  match acts out k i None with
  | Some o => In (rec_cmd k i o) out
  | None => forall o, ~ In (rec_cmd k i o) out
  end.
Proof.
  intros [_ Hss] Hwf. induction Hwf as [|c out (k' & i' & o' & -> & Hs) Hwf IH]; cbn [acts]; [intros o []|].
  apply StronglySorted_inv in Hss as [Hss Hlt]. specialize (IH Hss).
  destruct (samepair k i k' i') eqn:E.
  - (* the record of (k,i); by the order no later record is for (k,i) *)
    apply samepair_true in E as [-> ->]. rewrite act_rec_none by exact Hs. rewrite acts_miss; [left; reflexivity | exact Hwf|].
    intros o Ho. rewrite Forall_forall in Hlt. specialize (Hlt _ Ho). cbn in Hlt. rewrite !ltb_irrefl in Hlt.
    destruct Hlt as [H|[_ H]]; discriminate.
  - cbn [act rec_cmd]. rewrite E. destruct (acts out k i None) as [o|]; [right; exact IH|].
    intros o [Heq|Hin]; [|exact (IH o Hin)]. apply rec_cmd_inj in Heq as (-> & -> & _). rewrite samepair_refl in E. discriminate.
Qed.

Definition recs (k : bytes) (l : list (bytes * val)) : list cmd := map (fun iv => rec_cmd k (fst iv) (snd iv)) l.

Lemma in_recs c k l : In c (recs k l) -> exists i v, c = rec_cmd k i v /\ In (i, v) l.
Proof. unfold recs. intros H. apply in_map_iff in H. destruct H as [[i v] [<- H]]. exists i, v. auto. Qed.

Lemma recs_in k l i v : In (i, v) l -> In (rec_cmd k i v) (recs k l).
Proof. intros H. unfold recs. apply in_map_iff. exists (i, v). auto. Qed.

Lemma recs_length k l : length (recs k l) = length l.
Proof. apply map_length. Qed.

Lemma recs_cset k l : Forall is_cset (recs k l).
Proof. rewrite Forall_forall. intros c H. apply in_recs in H. destruct H as [i [v [-> _]]]. exact I. Qed.

Section Steps.
Variables mk mi : nat.

Lemma keys_scan_cut {V} (l : smap V) : forall acc kd nk, exists a b, l = a ++ b /\ (b = [] \/ length acc + length a = mk) /\
  keys_scan mk (keys l) acc kd nk = (acc ++ keys a, match b with [] => kd | _ => false end, hd nk (keys b)).
Proof.
  unfold keys. induction l as [|[k v] r IH]; intros acc kd nk; cbn [map fst keys_scan].
  - exists [], []. cbn. rewrite app_nil_r. auto.
  - destruct (Nat.eqb_spec (length acc) mk) as [E|E].
    + exists [], ((k, v) :: r). cbn. rewrite app_nil_r, Nat.add_0_r. auto.
    + destruct (IH (acc ++ [k]) kd nk) as (a & b & -> & Hfull & ->). exists ((k, v) :: a), b.
      rewrite app_length, <- Nat.add_assoc in Hfull. rewrite <- app_assoc. auto.
Qed.

Lemma ids_scan_cut key l : forall count idsdone nid out, exists a b, l = a ++ b /\ (b = [] \/ count + length a = mi) /\
  ids_scan mi key l count idsdone nid out =
  (match b with [] => idsdone | _ => false end, match b with [] => nid | (y, _) :: _ => y end, out ++ recs key a).
Proof.
  induction l as [|[id v] r IH]; intros count idsdone nid out; cbn [ids_scan].
  - exists [], []. cbn. rewrite app_nil_r. auto.
  - destruct (Nat.eqb_spec count mi) as [E|E].
    + exists [], ((id, v) :: r). cbn. rewrite app_nil_r, Nat.add_0_r. auto.
    + destruct (IH (S count) idsdone nid (out ++ [rec_cmd key id v])) as (a & b & -> & Hfull & ->). exists ((id, v) :: a), b.
      cbn in *. rewrite <- app_assoc, <- plus_n_Sm. auto.
Qed.

(* What `top` establishes: a keys batch is fetched only when the last one is used up and keysdone has been
   set, and an ids batch belongs to the head of a non-empty keys batch (keys[0] does not panic). *)
Definition pos_ok (sh : shrink) : Prop :=
  match sh_pos sh with
  | AtKeys => sh_keys sh = [] /\ sh_keysdone sh = true
  | AtIds _ => sh_keys sh <> []
  | ScanDone => True
  end.

(* The ways a locked section can go.  A scan cuts what Ascend yields into the batch and what it left (empty, or the
   batch is full); the collection of a key that is gone by now gives the empty ids batch. *)
Inductive stepR (live : st) (sh : shrink) : shrink -> Prop :=
| SR_done : sh_pos sh = ScanDone -> stepR live sh sh
| SR_keys A1 A2 : sh_pos sh = AtKeys ->
    ascend_from (sh_nextkey sh) live = A1 ++ A2 -> A2 = [] \/ length A1 = mk ->
    stepR live sh (top (keys A1) (hd (sh_nextkey sh) (keys A2)) (match A2 with [] => true | _ => false end) (sh_out sh))
| SR_ids nid k0 rest a b : sh_pos sh = AtIds nid -> sh_keys sh = k0 :: rest ->
    ascend_from nid (colof k0 live) = a ++ b -> b = [] \/ length a = mi ->
    stepR live sh (match b with
                   | [] => top rest (sh_nextkey sh) (sh_keysdone sh) (sh_out sh ++ recs k0 a)
                   | (y, _) :: _ => mkShrink (k0 :: rest) (sh_nextkey sh) (sh_keysdone sh) (AtIds y) (sh_out sh ++ recs k0 a)
                   end).

Lemma step_spec live sh : pos_ok sh -> stepR live sh (step mk mi live sh).
Proof.
  unfold pos_ok, step. intros Hs. destruct (sh_pos sh) as [|nid|] eqn:Ep.
  - destruct Hs as [-> ->].
    destruct (keys_scan_cut (ascend_from (sh_nextkey sh) live) [] true (sh_nextkey sh)) as (A1 & A2 & Hab & Hfull & ->).
    exact (SR_keys live sh A1 A2 Ep Hab Hfull).
  - destruct (sh_keys sh) as [|k0 rest] eqn:Ek; [contradiction|].
    pose proof (SR_ids live sh nid k0 rest) as H. unfold colof in H. destruct (get k0 live) as [col|].
    + destruct (ids_scan_cut k0 (ascend_from nid col) 0 true nid (sh_out sh)) as (a & b & Ha & Hfull & ->).
      destruct b as [|[y w] t]; exact (H a _ Ep Ek Ha Hfull).
    + rewrite <- (app_nil_r (sh_out sh)). exact (H [] [] Ep Ek eq_refl (or_introl eq_refl)).
  - apply SR_done, Ep.
Qed.

Lemma top_pos_ok keys nk kd out : pos_ok (top keys nk kd out).
Proof. unfold top, pos_ok. destruct keys; [destruct kd|]; cbn; auto. discriminate. Qed.

Lemma top_out keys nk kd out : sh_out (top keys nk kd out) = out.
Proof. unfold top. destruct keys; [destruct kd|]; reflexivity. Qed.

Lemma step_pos_ok live sh : pos_ok sh -> pos_ok (step mk mi live sh).
Proof.
  intros Hs. destruct (step_spec live sh Hs) as [| |nid k0 rest a [|[y w] t]]; try apply top_pos_ok; [exact Hs | discriminate].
Qed.

Lemma step_out live sh : wf live -> pos_ok sh ->
  exists new, sh_out (step mk mi live sh) = sh_out sh ++ new /\
              forall c, In c new -> exists k i v, c = rec_cmd k i v /\ lookup k i live = Some v.
Proof.
  intros Hwf Hs.
  destruct (step_spec live sh Hs) as [|A1 A2|nid k0 rest a b ? ? Ha]; rewrite ?top_out.
  1-2: exists []; rewrite app_nil_r; split; [reflexivity | intros ? []].
  exists (recs k0 a). split; [destruct b as [|[y w] t]; rewrite ?top_out; reflexivity|].
  intros c Hc. apply in_recs in Hc as (i & v & -> & Hin). exists k0, i, v. split; [reflexivity|].
  pose proof (wf_colof live k0 Hwf) as [Hcol _]. rewrite <- get_colof. apply In_get; [exact Hcol|].
  apply (ascend_cut nid _ a b Hcol Ha), Hin.
Qed.

Definition pending (k i : bytes) (sh : shrink) : Prop :=
  match sh_pos sh with
  | AtKeys => bytes_leb (sh_nextkey sh) k = true
  | AtIds nid =>
      match sh_keys sh with
      | [] => False
      | k0 :: rest => (k = k0 /\ bytes_leb nid i = true) \/ In k rest \/
                      (sh_keysdone sh = false /\ bytes_leb (sh_nextkey sh) k = true)
      end
  | ScanDone => False
  end.

Lemma top_pending k i rest nk kd out :
  In k rest \/ (kd = false /\ bytes_leb nk k = true) -> pending k i (top rest nk kd out).
Proof.
  unfold top, pending. destruct rest as [|k1 rest']; [destruct kd|]; cbn.
  - intros [[]|[H _]]; discriminate.
  - intros [[]|[_ H]]; exact H.
  - intros [[H|H]|H]; [left; split; [auto | apply leb_nil] | right; left; exact H | right; right; exact H].
Qed.

Lemma step_cover live sh k i v : wf live -> pos_ok sh -> lookup k i live = Some v -> pending k i sh ->
  In (rec_cmd k i v) (sh_out (step mk mi live sh)) \/ pending k i (step mk mi live sh).
Proof.
  intros Hwf Hs Hl Hp. unfold pending in Hp.
  destruct (step_spec live sh Hs) as [E|A1 A2 E Hab _|nid k0 rest a b E Ek Ha _]; rewrite E, ?Ek in Hp; try contradiction.
  - (* keys batch: k is in the batch or at or after the key the scan stopped at *)
    right. apply top_pending. destruct (lookup_some _ _ _ _ Hl) as [col [Hgk _]].
    destruct (ascend_cover _ _ A1 A2 k col (proj1 Hwf) Hab (get_In _ _ _ Hgk) Hp) as [Hk1|(y & c & t & -> & Hy)].
    + left. exact (in_map fst _ _ Hk1).
    + right. split; [reflexivity | exact Hy].
  - (* an ids batch of k0: i is in it, or at or after the id the scan stopped at *)
    destruct Hp as [[-> Hge]|Hp].
    + rewrite <- get_colof in Hl.
      destruct (ascend_cover _ _ a b i v (proj1 (wf_colof _ k0 Hwf)) Ha (get_In _ _ _ Hl) Hge) as [Hia|(y & w & t & -> & Hy)].
      * left. destruct b as [|[y w] t]; rewrite ?top_out; cbn [sh_out]; apply in_app_iff; right; apply recs_in, Hia.
      * right. unfold pending. cbn. auto.
    + right. destruct b as [|[y w] t]; [apply top_pending, Hp|].
      unfold pending. cbn. auto.
Qed.

End Steps.

Definition rec_below (k0 nid : bytes) (c : cmd) : Prop :=
  match c with CSet k i _ _ _ => bytes_ltb k k0 = true \/ (k = k0 /\ bytes_ltb i nid = true) | _ => False end.
Definition rec_key_lt (kb : bytes) (c : cmd) : Prop :=
  match c with CSet k _ _ _ _ => bytes_ltb k kb = true | _ => False end.

Lemma below_key_lt k0 nid k c : rec_below k0 nid c -> bytes_ltb k0 k = true -> rec_key_lt k c.
Proof. destruct c; cbn; try tauto. intros [H|[-> _]] Hk; [eapply ltb_trans; eauto | exact Hk]. Qed.

Lemma key_lt_leb k0 k c : rec_key_lt k0 c -> bytes_leb k0 k = true -> rec_key_lt k c.
Proof. destruct c; cbn; try tauto. intros H1 H2. eapply bytes_ltb_leb_trans; eauto. Qed.

Lemma key_lt_below k c : rec_key_lt k c -> rec_below k [] c.
Proof. destruct c; cbn; tauto. Qed.

Lemma below_mono k0 nid y c : rec_below k0 nid c -> bytes_leb nid y = true -> rec_below k0 y c.
Proof. destruct c; cbn; try tauto. intros [H|[-> H]] Hy; [left; exact H | right; split; [reflexivity | eapply bytes_ltb_leb_trans; eauto]]. Qed.

Lemma recs_key_lt k0 k l : bytes_ltb k0 k = true -> Forall (rec_key_lt k) (recs k0 l).
Proof. intros Hk. rewrite Forall_forall. intros c H. apply in_recs in H. destruct H as [i [v [-> _]]]. exact Hk. Qed.

Lemma SS_firstn {A} (R : A -> A -> Prop) n (l : list A) : StronglySorted R l -> StronglySorted R (firstn n l).
Proof. intros H. rewrite <- (firstn_skipn n l) in H. apply SS_app_inv in H. tauto. Qed.

Lemma recs_sorted k (l : list (bytes * val)) : msorted l -> StronglySorted rec_lt (recs k l).
Proof.
  induction l as [|[i v] l IH]; intros H; cbn; constructor; [apply IH; eapply msorted_tail; exact H|].
  apply msorted_inv in H as [_ H]. rewrite Forall_forall in *. intros c Hc.
  apply in_recs in Hc as (i' & v' & -> & Hc). right. split; [reflexivity | apply H, (in_map fst _ _ Hc)].
Qed.

Lemma do_ev_W mk mi r c : do_ev mk mi r (W c) =
  mkRun (fst (exec (r_live r) c)) (r_sh r)
        (if r_shrinking r && logged (snd (exec (r_live r) c)) then r_log r ++ [c] else r_log r) (r_shrinking r).
Proof. cbn [do_ev]. destruct (exec (r_live r) c); reflexivity. Qed.

Definition front (sh : shrink) : Prop :=
  rec_sorted (sh_out sh) /\
  match sh_pos sh with
  | AtKeys => sh_keys sh = [] /\ sh_keysdone sh = true /\ Forall (rec_key_lt (sh_nextkey sh)) (sh_out sh)
  | AtIds nid =>
      match sh_keys sh with
      | [] => True
      | k0 :: rest =>
          sorted_keys (k0 :: rest) /\
          (sh_keysdone sh = false -> Forall (fun k => bytes_ltb k (sh_nextkey sh) = true) (k0 :: rest)) /\
          Forall (rec_below k0 nid) (sh_out sh)
      end
  | ScanDone => True
  end.

Definition shape (sh : shrink) : Prop :=
  match sh_pos sh with AtKeys => sh_keys sh = [] | _ => True end.

Lemma shape_init : shape shrink_init.
Proof. reflexivity. Qed.

Lemma front_shape sh : front sh -> shape sh.
Proof. unfold front, shape. destruct (sh_pos sh); tauto. Qed.

Lemma top_front keys nk kd out :
  rec_sorted out -> sorted_keys keys ->
  (kd = false -> Forall (fun k => bytes_ltb k nk = true) keys) ->
  (forall k, In k keys -> Forall (rec_key_lt k) out) ->
  (kd = false -> Forall (rec_key_lt nk) out) ->
  front (top keys nk kd out).
Proof.
  intros Hrs Hsk Hnk Hlt Hout. unfold top, front. destruct keys as [|k1 r]; [destruct kd|]; cbn.
  - auto.
  - auto.
  - split; [exact Hrs|]. split; [exact Hsk|]. split; [exact Hnk|].
    eapply Forall_impl; [|apply (Hlt k1); left; reflexivity]. intros c; apply key_lt_below.
Qed.

Lemma front_init : front shrink_init.
Proof. unfold front; cbn. split; [split; constructor|]. auto. Qed.

Section Front.
Variables mk mi : nat.

Lemma step_front live sh : wf live -> pos_ok sh -> front sh -> front (step mk mi live sh).
Proof.
  intros Hwf Hs Hf.
  destruct (step_spec mk mi live sh Hs) as [_|A1 A2 E Hab _|nid k0 rest a b E Ek Ha _]; [exact Hf|..].
  - (* keys batch: the batch is sorted, below the key the scan stopped at, and at or after nextkey *)
    destruct Hf as [Hrs Hpos]. rewrite E in Hpos. destruct Hpos as (_ & Hkd & Hout).
    destruct (ascend_cut _ _ A1 A2 (proj1 Hwf) Hab) as (Hs1 & Hg1 & _ & Hcut). rewrite Forall_forall in Hg1.
    assert (Hnext : forall k, bytes_leb (sh_nextkey sh) k = true -> Forall (rec_key_lt k) (sh_out sh)).
    { intros k Hk. eapply Forall_impl; [|exact Hout]. intros c Hc. eapply key_lt_leb; eauto. }
    apply top_front; [exact Hrs | exact Hs1 | | intros k Hk; apply Hnext, Hg1, Hk |];
      (destruct A2 as [|[y c] t]; [congruence|]); intros _; [apply Hcut | apply Hnext, Hcut].
  - (* ids batch of k0: sorted ids at or after nextid, below the id the scan stopped at *)
    destruct (ascend_cut _ _ a b (proj1 (wf_colof _ k0 Hwf)) Ha) as (Hsa & Hge & _ & Hb).
    destruct Hf as [[Hcs Hss] Hpos]. rewrite E, Ek in Hpos. destruct Hpos as (Hsk & Hnk & Hbelow).
    rewrite Forall_forall in Hge, Hbelow.
    assert (Hrs : rec_sorted (sh_out sh ++ recs k0 a)).
    { split; [apply Forall_app; split; [exact Hcs | apply recs_cset]|].
      apply SS_app; [exact Hss | apply recs_sorted; exact Hsa|].
      (* x below (k0, nextid) and nextid <= i: x below (k0, i), which is rec_lt x (record of (k0, i)) *)
      intros x c Hx Hc. apply in_recs in Hc as (i & v & -> & Hc).
      exact (below_mono k0 nid i x (Hbelow x Hx) (Hge i (in_map fst _ _ Hc))). }
    destruct b as [|[y w] t].
    + assert (Hlt : forall k, bytes_ltb k0 k = true -> Forall (rec_key_lt k) (sh_out sh ++ recs k0 a)).
      { intros k Hk. apply Forall_app. split; [|apply recs_key_lt, Hk].
        apply Forall_forall. intros c Hc. exact (below_key_lt k0 nid k c (Hbelow c Hc) Hk). }
      apply StronglySorted_inv in Hsk as [Hsrest Hk0rest]. rewrite Forall_forall in Hk0rest.
      apply top_front; [exact Hrs | exact Hsrest | intros Hkd; specialize (Hnk Hkd); inversion Hnk; assumption | |].
      * intros k Hk. apply Hlt, Hk0rest, Hk.
      * intros Hkd. specialize (Hnk Hkd). inversion Hnk; subst. apply Hlt. assumption.
    + destruct Hb as (Hlt & Hy & _). split; [exact Hrs|]. cbn [sh_pos sh_keys sh_keysdone sh_nextkey sh_out].
      split; [exact Hsk|]. split; [exact Hnk|]. apply Forall_app. split; apply Forall_forall; intros c Hc.
      * eapply below_mono; [apply Hbelow, Hc | exact Hy].
      * apply in_recs in Hc as (i & v & -> & Hc). right. split; [reflexivity|].
        rewrite Forall_forall in Hlt. apply Hlt, (in_map fst _ _ Hc).
Qed.

Definition order_inv (r : run) : Prop := wf (r_live r) /\ pos_ok (r_sh r) /\ front (r_sh r).

Lemma order_inv_init s0 : wf s0 -> order_inv (run_init s0).
Proof. intros Hwf. split; [exact Hwf|]. split; [apply top_pos_ok | exact front_init]. Qed.

Lemma order_inv_step r e : order_inv r -> order_inv (do_ev mk mi r e).
Proof.
  intros (Hwf & Hs & Hf). destruct e as [c| |]; [rewrite do_ev_W|cbn [do_ev]..].
  - split; [apply exec_wf, Hwf | split; assumption].
  - split; [exact Hwf|]. split; [apply step_pos_ok | apply step_front]; assumption.
  - unfold request. destruct (r_shrinking r); [exact (conj Hwf (conj Hs Hf)) | apply order_inv_init, Hwf].
Qed.

Theorem batches_never_repeat s0 sched : wf s0 ->
  let r := run_sched mk mi sched (run_init s0) in rec_sorted (sh_out (r_sh r)).
Proof.
  intros Hwf r. assert (H : order_inv r); [|exact (proj1 (proj2 (proj2 H)))].
  apply (fold_left_inv _ order_inv); [intros a e _; apply order_inv_step | apply order_inv_init, Hwf].
Qed.

End Front.

Lemma request_noop r : r_shrinking r = true -> request r = r.
Proof. intros H. unfold request. rewrite H. reflexivity. Qed.

Lemma pending_done k i sh : sh_done sh = true -> ~ pending k i sh.
Proof. unfold sh_done, pending. destruct (sh_pos sh); try discriminate. tauto. Qed.

Section Concurrent.
Variables mk mi : nat.

(* the log replayed on y gives what (k,i) holds now.  True of the value at the start (i_live) and, the log
   being idempotent on its own result (acts_idem), of the present value, hence of every value the scan writes
   into the snapshot at the moment it writes it; a logged command keeps it of every y. *)
Definition heals (r : run) (k i : bytes) (y : option obj) : Prop := acts (r_log r) k i y = lookup k i (r_live r).

Record replay_inv (s0 : st) (r : run) : Prop := {
  i_shr : r_shrinking r = true;
  i_wf : wf (r_live r);
  i_nr : forallb nr_cmd (r_log r) = true;
  i_live : forall k i, heals r k i (lookup k i s0);
  i_ok : forall k i, okl (r_log r) k i (lookup k i s0);
  i_pos : pos_ok (r_sh r);
  i_recwf : Forall recwf (sh_out (r_sh r));
  i_sound : forall k i o, In (rec_cmd k i o) (sh_out (r_sh r)) -> heals r k i (Some o);
  i_cover : forall k i, (exists o, In (rec_cmd k i o) (sh_out (r_sh r))) \/ pending k i (r_sh r) \/ heals r k i None
}.

Lemma replay_inv_init s0 : wf s0 -> replay_inv s0 (run_init s0).
Proof.
  intros Hwf. constructor; cbn; auto; try reflexivity.
  - intros k i o [].
  - intros k i. right; left. unfold pending; cbn. apply leb_nil.
Qed.

Lemma heals_now s0 r k i : wf s0 -> replay_inv s0 r -> heals r k i (lookup k i (r_live r)).
Proof.
  intros Hwf H. unfold heals. rewrite <- (i_live s0 r H k i).
  apply acts_idem; [apply wf_fsorted, Hwf | apply (i_ok s0 r H)].
Qed.

Lemma replay_inv_step s0 r e : wf s0 -> is_rename e = false -> replay_inv s0 r -> replay_inv s0 (do_ev mk mi r e).
Proof.
  intros Hwf0 Hnr Hinv. pose proof Hinv as [Hshr Hwf Hlog Hlive Hok Hsh Hrw Hsound Hcover].
  destruct e as [c| |]; [rewrite do_ev_W|cbn [do_ev]..].
  - (* writer: a logged command is appended, an unlogged one changed nothing *)
    pose proof (not_rename_nr c Hnr) as Hc. rewrite Hshr. cbn [andb].
    destruct (logged (snd (exec (r_live r) c))) eqn:Elog; [|rewrite exec_unlogged_id by assumption; constructor; auto].
    assert (Hw : forall k i y, heals r k i y -> acts (r_log r ++ [c]) k i y = lookup k i (fst (exec (r_live r) c))).
    { intros k i y H. rewrite acts_app. cbn [acts]. rewrite H. symmetry. apply exec_lookup; assumption. }
    constructor; cbn [r_live r_sh r_log r_shrinking]; unfold heals; cbn [r_live r_log]; auto.
    + apply exec_wf, Hwf.
    + rewrite forallb_app, Hlog. cbn. rewrite Hc. reflexivity.
    + intros k i. apply okl_app. split; [apply Hok|]. cbn. split; [|exact I].
      rewrite (Hlive k i). apply exec_logged_cond, Elog.
    + intros k i. destruct (Hcover k i) as [H|[H|H]]; auto.
  - (* a locked section of the rewrite: what it writes is the present value *)
    destruct (step_out mk mi (r_live r) (r_sh r) Hwf Hsh) as [new [Hout Hnew]].
    constructor; cbn [r_live r_sh r_log r_shrinking]; auto.
    + apply step_pos_ok; exact Hsh.
    + rewrite Hout. apply Forall_app. split; [exact Hrw|]. rewrite Forall_forall. intros c Hc.
      destruct (Hnew c Hc) as [k [i [v [-> Hl]]]]. exists k, i, v. split; [reflexivity | eapply wf_lookup; eauto].
    + intros k i o Hin. rewrite Hout in Hin. apply in_app_iff in Hin. destruct Hin as [Hin|Hin]; [apply Hsound; exact Hin|].
      destruct (Hnew _ Hin) as [k' [i' [v' [Heq Hl]]]]. apply rec_cmd_inj in Heq. destruct Heq as [<- [<- <-]].
      rewrite <- Hl. exact (heals_now s0 r k i Hwf0 Hinv).
    + intros k i. destruct (Hcover k i) as [[o Ho]|[Hp|Hp]].
      * left. exists o. rewrite Hout. apply in_app_iff. left; exact Ho.
      * destruct (lookup k i (r_live r)) as [v|] eqn:El.
        -- destruct (step_cover mk mi (r_live r) (r_sh r) k i v Hwf Hsh El Hp) as [H|H];
             [left; exists v; exact H | right; left; exact H].
        -- right; right. pose proof (heals_now s0 r k i Hwf0 Hinv) as H. rewrite El in H. exact H.
      * right; right; exact Hp.
  - (* another AOFSHRINK request while the rewrite runs: refused *)
    rewrite request_noop by exact Hshr. exact Hinv.
Qed.

Lemma replay_inv_run s0 sched : wf s0 -> no_rename sched = true -> replay_inv s0 (run_sched mk mi sched (run_init s0)).
Proof.
  intros Hwf Hnr. apply (fold_left_inv _ (replay_inv s0)); [|apply replay_inv_init, Hwf].
  intros r e He. apply replay_inv_step; [exact Hwf|]. unfold no_rename in Hnr. rewrite forallb_forall in Hnr. apply negb_true_iff, Hnr, He.
Qed.

(* at every moment of the rewrite, for every object the scan is past *)
Theorem snapshot_heals s0 r k i : replay_inv s0 r -> rec_sorted (sh_out (r_sh r)) -> ~ pending k i (r_sh r) ->
  lookup k i (replay (newfile r) []) = lookup k i (r_live r).
Proof.
  intros [_ Hwf Hlog Hlive Hok Hsh Hrw Hsound Hcover] Hrs Hnp.
  unfold newfile. rewrite replay_lookup; [|exact wf_nil|rewrite forallb_app, Hlog, (cset_nr _ (proj1 Hrs)); reflexivity].
  rewrite lookup_nil, acts_app. change (@None val) with (@None obj).
  pose proof (snap_value (sh_out (r_sh r)) k i Hrs Hrw) as Hv.
  destruct (acts (sh_out (r_sh r)) k i None) as [o|]; [apply Hsound, Hv|].
  destruct (Hcover k i) as [[o Ho]|[Hp|Hp]]; [exfalso; exact (Hv o Ho) | contradiction | exact Hp].
Qed.

Theorem concurrent_partial s0 sched : wf s0 -> no_rename sched = true ->
  let r := run_sched mk mi sched (run_init s0) in
  sh_done (r_sh r) = true -> same_data (replay (newfile r) []) (r_live r).
Proof.
  intros Hwf Hnr r Hdone k i.
  apply (snapshot_heals s0); [apply replay_inv_run; assumption | apply batches_never_repeat; exact Hwf | apply pending_done, Hdone].
Qed.

Lemma no_rename_steps n : no_rename (repeat Step n) = true.
Proof. induction n; cbn; auto. Qed.

Lemma run_steps_live n : forall r, r_live (run_sched mk mi (repeat Step n) r) = r_live r.
Proof. induction n as [|n IH]; intros r; [reflexivity | exact (IH (do_ev mk mi r Step))]. Qed.

Theorem quiescent s n : wf s ->
  let r := run_sched mk mi (repeat Step n) (run_init s) in
  sh_done (r_sh r) = true -> same_data (replay (newfile r) []) s.
Proof.
  intros Hwf r Hdone. pose proof (concurrent_partial s (repeat Step n) Hwf (no_rename_steps n) Hdone) as H.
  rewrite run_steps_live in H. exact H.
Qed.

End Concurrent.

Theorem log_replay_idempotent mk mi s0 sched l1 l2 : wf s0 -> no_rename sched = true ->
  let r := run_sched mk mi sched (run_init s0) in
  r_log r = l1 ++ l2 ->
  same_data (replay (r_log r) (replay l1 s0)) (r_live r).
Proof.
  intros Hwf Hnr r Hl k i.
  destruct (replay_inv_run mk mi s0 sched Hwf Hnr) as [_ _ Hlog Hlive Hok _ _ _ _]. fold r in Hlog, Hlive, Hok.
  assert (Hl1 : forallb nr_cmd l1 = true).
  { rewrite Hl, forallb_app in Hlog. apply andb_true_iff in Hlog. tauto. }
  rewrite replay_lookup; [|apply replay_wf; exact Hwf|exact Hlog].
  rewrite (replay_lookup l1) by assumption. rewrite <- (Hlive k i). specialize (Hok k i). rewrite Hl in *.
  apply log_idempotent; [apply wf_fsorted, Hwf | exact Hok].
Qed.

Fixpoint sortedb (l : list bytes) : bool :=
  match l with [] => true | x :: r => forallb (bytes_ltb x) r && sortedb r end.

Lemma sortedb_ok l : sortedb l = true -> sorted_keys l.
Proof.
  induction l as [|x r IH]; cbn; intros H; [constructor|].
  apply andb_true_iff in H. destruct H as [H1 H2]. constructor; [apply IH; exact H2|].
  rewrite Forall_forall. rewrite forallb_forall in H1. exact H1.
Qed.

Definition wfb (s : st) : bool :=
  sortedb (keys s) &&
  forallb (fun kc => sortedb (keys (snd kc)) && forallb (fun io => sortedb (keys (o_fields (snd io)))) (snd kc)) s.

Lemma wfb_ok s : wfb s = true -> wf s.
Proof.
  unfold wfb, wf. intros H. apply andb_true_iff in H. destruct H as [H1 H2]. split; [apply sortedb_ok; exact H1|].
  rewrite Forall_forall. rewrite forallb_forall in H2. intros kc Hkc. specialize (H2 kc Hkc).
  apply andb_true_iff in H2. destruct H2 as [H2 H3]. split; [apply sortedb_ok; exact H2|].
  rewrite Forall_forall. rewrite forallb_forall in H3. intros io Hio. apply sortedb_ok. apply H3; exact Hio.
Qed.

Definition b1 (n : N) : bytes := [n].

(* nine collections b..i and m, each {1 -> x} *)
Definition s0_lost : st :=
  map (fun n => (b1 n, [(b1 49, mkObj (b1 120) [] false)])) [98; 99; 100; 101; 102; 103; 104; 105; 109]%N.

(* first keys batch = b..i with nextkey = m; then m is renamed to a, before the cursor *)
Definition sched_lost : list ev := [Step; W (CRename (b1 109) (b1 97))] ++ repeat Step 12.

Theorem rename_refuted :
  exists s0 sched, wf s0 /\ sh_done (r_sh (run_sched maxkeys maxids sched (run_init s0))) = true /\
    exists k i, lookup k i (replay (newfile (run_sched maxkeys maxids sched (run_init s0))) []) <>
                lookup k i (r_live (run_sched maxkeys maxids sched (run_init s0))).
Proof.
  exists s0_lost, sched_lost. split; [apply wfb_ok; vm_compute; reflexivity|].
  split; [vm_compute; reflexivity|]. exists (b1 97), (b1 49). vm_compute. discriminate.
Qed.

(* A -> {1 -> x}; RENAME A B and SET A 1 y are logged before the first keys batch *)
Definition s0_dup : st := [(b1 65, [(b1 49, mkObj (b1 120) [] false)])].
Definition sched_dup : list ev := [W (CRename (b1 65) (b1 66)); W (CSet (b1 65) (b1 49) [] false (b1 121))] ++ repeat Step 6.

Theorem rename_dup_refuted :
  exists s0 sched, wf s0 /\ sh_done (r_sh (run_sched maxkeys maxids sched (run_init s0))) = true /\
    exists k i, lookup k i (replay (newfile (run_sched maxkeys maxids sched (run_init s0))) []) <>
                lookup k i (r_live (run_sched maxkeys maxids sched (run_init s0))).
Proof.
  exists s0_dup, sched_dup. split; [apply wfb_ok; vm_compute; reflexivity|].
  split; [vm_compute; reflexivity|]. exists (b1 66), (b1 49). vm_compute. discriminate.
Qed.

Definition snap (s : st) : list cmd := flat_map (fun kc => recs (fst kc) (snd kc)) s.

Lemma snap_flatten s : map rec_of (flatten s) = snap s.
Proof.
  unfold flatten, snap. induction s as [|[k col] r IH]; cbn; [reflexivity|].
  rewrite map_app, IH. f_equal. unfold recs. rewrite map_map. reflexivity.
Qed.

Lemma in_snap c s : In c (snap s) -> exists k col i v, In (k, col) s /\ In (i, v) col /\ c = rec_cmd k i v.
Proof.
  unfold snap. intros H. apply in_flat_map in H. destruct H as [[k col] [Hkc Hc]]. cbn in Hc.
  apply in_recs in Hc. destruct Hc as [i [v [-> Hiv]]]. exists k, col, i, v. auto.
Qed.

Lemma snap_in s k i v : wf s -> (In (rec_cmd k i v) (snap s) <-> lookup k i s = Some v).
Proof.
  intros Hwf. split.
  - intros H. apply in_snap in H. destruct H as [k' [col [i' [v' [Hkc [Hiv Heq]]]]]]. apply rec_cmd_inj in Heq. destruct Heq as [<- [<- <-]].
    assert (Hg : get k s = Some col) by (apply In_get; [apply Hwf | exact Hkc]).
    unfold lookup. rewrite Hg. apply In_get; [eapply wf_get; eauto | exact Hiv].
  - intros H. destruct (lookup_some _ _ _ _ H) as [col [Hg Hi]]. unfold snap. apply in_flat_map.
    exists (k, col). split; [apply get_In; exact Hg|]. cbn. apply recs_in, get_In. exact Hi.
Qed.

Lemma snap_app a b : snap (a ++ b) = snap a ++ snap b.
Proof. apply flat_map_app. Qed.

(* The rewrite with no writer: every locked section sees the dataset s. *)
Section Quiet.
Variables (mk mi : nat) (s : st).
Hypothesis Hmk : 1 <= mk.
Hypothesis Hmi : 1 <= mi.
Hypothesis Hwf : wf s.

(* The records still to be written, read off the cursor: what is left of keys[0] from nextid on, the other keys
   of the batch and, unless the last keys batch reached the end, the collections from nextkey on. *)
Definition ids_todo (k nid : bytes) : list cmd := recs k (ascend_from nid (colof k s)).
Definition keys_todo (ks : list bytes) : list cmd := flat_map (fun k => ids_todo k []) ks.
Definition tail_todo (kd : bool) (nk : bytes) : list cmd := if kd then [] else snap (ascend_from nk s).
Definition todo (sh : shrink) : list cmd :=
  match sh_pos sh with
  | ScanDone => []
  | AtKeys => snap (ascend_from (sh_nextkey sh) s)
  | AtIds nid =>
      match sh_keys sh with
      | [] => []
      | k0 :: rest => ids_todo k0 nid ++ keys_todo rest ++ tail_todo (sh_keysdone sh) (sh_nextkey sh)
      end
  end.

Lemma todo_top rest nk kd out : todo (top rest nk kd out) = keys_todo rest ++ tail_todo kd nk.
Proof. unfold top, todo. destruct rest as [|k1 r]; [destruct kd; reflexivity | apply app_assoc]. Qed.

Lemma keys_todo_snap (A : st) : incl A s -> keys_todo (keys A) = snap A.
Proof.
  induction A as [|[k col] A IH]; intros Hin; [reflexivity|].
  change (ids_todo k [] ++ keys_todo (keys A) = recs k col ++ snap A).
  rewrite IH by (intros x Hx; apply Hin; right; exact Hx).
  unfold ids_todo, colof. rewrite (In_get k s col (proj1 Hwf) (Hin _ (or_introl eq_refl))), ascend_from_nil_id. reflexivity.
Qed.

Lemma step_todo sh : pos_ok sh -> sh_out (step mk mi s sh) ++ todo (step mk mi s sh) = sh_out sh ++ todo sh.
Proof.
  intros Hs.
  destruct (step_spec mk mi s sh Hs) as [E|A1 A2 E Hab _|nid k0 rest a b E Ek Ha _]; [reflexivity|..].
  - rewrite top_out, todo_top. unfold todo. rewrite E, Hab, snap_app. f_equal.
    destruct (ascend_cut _ _ A1 A2 (proj1 Hwf) Hab) as (_ & _ & Hincl & Hcut). rewrite (keys_todo_snap A1 Hincl). f_equal.
    destruct A2 as [|[y c] t]; [reflexivity|]. cbn [keys map fst hd tail_todo]. destruct Hcut as (_ & _ & ->). reflexivity.
  - assert (Hsh : todo sh = recs k0 a ++ recs k0 b ++ keys_todo rest ++ tail_todo (sh_keysdone sh) (sh_nextkey sh)).
    { unfold todo, ids_todo. rewrite E, Ek, Ha. unfold recs. rewrite map_app, <- app_assoc. reflexivity. }
    rewrite Hsh, app_assoc. destruct b as [|[y w] t]; [rewrite top_out, todo_top; reflexivity|].
    cbn [sh_out]. f_equal. unfold todo, ids_todo. cbn [sh_pos sh_keys sh_keysdone sh_nextkey].
    destruct (ascend_cut _ _ a _ (proj1 (wf_colof _ k0 Hwf)) Ha) as (_ & _ & _ & _ & _ & ->). reflexivity.
Qed.

Lemma steps_todo n : forall sh log, pos_ok sh ->
  let sh' := r_sh (run_sched mk mi (repeat Step n) (mkRun s sh log true)) in
  sh_out sh' ++ todo sh' = sh_out sh ++ todo sh.
Proof.
  induction n as [|n IH]; intros sh log Hs; [reflexivity|].
  etransitivity; [exact (IH _ log (step_pos_ok mk mi s sh Hs)) | apply step_todo, Hs].
Qed.

(* Remaining work: the records to write and the sections that may write none: one per keys batch (at most one per
   collection still to fetch, and the last, empty one) and the last ids section of each key. *)
Definition tailw (kd : bool) (nk : bytes) : nat := if kd then 0 else 1 + 2 * length (ascend_from nk s).
Definition idle_steps (sh : shrink) : nat :=
  match sh_pos sh with
  | ScanDone => 0
  | AtKeys => 1 + 2 * length (ascend_from (sh_nextkey sh) s)
  | AtIds _ => match sh_keys sh with [] => 0 | _ :: rest => 1 + length rest + tailw (sh_keysdone sh) (sh_nextkey sh) end
  end.
Definition mu (sh : shrink) : nat := length (todo sh) + idle_steps sh.

Lemma idle_steps_top rest nk kd out : idle_steps (top rest nk kd out) = length rest + tailw kd nk.
Proof.
  unfold top, idle_steps, tailw. destruct rest; [destruct kd|]; cbn [sh_pos sh_keys sh_keysdone sh_nextkey length]; lia.
Qed.

Lemma mu_dec sh : pos_ok sh -> sh_done sh = false -> mu (step mk mi s sh) < mu sh.
Proof.
  intros Hs Hnd. pose proof (f_equal (@length cmd) (step_todo sh Hs)) as Hc. rewrite !app_length in Hc.
  enough (idle_steps (step mk mi s sh) + length (sh_out sh) < idle_steps sh + length (sh_out (step mk mi s sh))) by (unfold mu; lia).
  clear Hc. unfold sh_done in Hnd. unfold idle_steps at 2.
  destruct (step_spec mk mi s sh Hs) as [E|A1 A2 E Hab Hfull|nid k0 rest a b E Ek Ha Hfull]; rewrite E, ?Ek in *; try congruence.
  - (* a keys batch is full or the last one, and then not followed by another *)
    rewrite idle_steps_top, top_out, Hab, app_length. unfold keys. rewrite map_length.
    destruct A2 as [|[y cy] t]; [cbn; lia|].
    destruct Hfull as [|Hlen]; [discriminate|].
    destruct (ascend_cut _ _ A1 _ (proj1 Hwf) Hab) as (_ & _ & _ & _ & _ & Ey). cbn [map fst hd tailw]. rewrite Ey. lia.
  - (* an ids batch that is not the last of its key is full *)
    destruct b as [|[y w] t]; [rewrite idle_steps_top, top_out, app_length; lia|].
    destruct Hfull as [|Hlen]; [discriminate|]. unfold idle_steps. cbn [sh_pos sh_keys sh_keysdone sh_nextkey sh_out].
    rewrite app_length, recs_length. lia.
Qed.

Lemma terminates_from : forall m sh log, mu sh <= m -> pos_ok sh ->
  exists n, sh_done (r_sh (run_sched mk mi (repeat Step n) (mkRun s sh log true))) = true.
Proof.
  induction m as [|m IH]; intros sh log Hm Hs; destruct (sh_done sh) eqn:Ed;
    try (exists 0; exact Ed); pose proof (mu_dec sh Hs Ed) as Hdec; [lia|].
  destruct (IH (step mk mi s sh) log) as [n Hn]; [lia | apply step_pos_ok; exact Hs|].
  exists (S n). exact Hn.
Qed.

End Quiet.

Theorem quiescent_snapshot mk mi s n : wf s ->
  let r := run_sched mk mi (repeat Step n) (run_init s) in
  sh_done (r_sh r) = true -> sh_out (r_sh r) = map rec_of (flatten s).
Proof.
  intros Hwf r Hdone.
  pose proof (steps_todo mk mi s Hwf n shrink_init [] (top_pos_ok _ _ _ _) : sh_out (r_sh r) ++ todo s (r_sh r) = _) as H.
  unfold sh_done in Hdone. unfold todo at 1 in H. destruct (sh_pos (r_sh r)); try discriminate.
  rewrite app_nil_r in H. rewrite H, snap_flatten. unfold shrink_init. rewrite top_out, todo_top.
  cbn [keys_todo flat_map tail_todo app]. rewrite ascend_from_nil_id. reflexivity.
Qed.

Theorem batches_cover mk mi s n : wf s ->
  let r := run_sched mk mi (repeat Step n) (run_init s) in
  sh_done (r_sh r) = true ->
  (forall k i v, In (rec_cmd k i v) (sh_out (r_sh r)) <-> lookup k i s = Some v) /\ rec_sorted (sh_out (r_sh r)).
Proof.
  intros Hwf r Hdone. split; [|apply batches_never_repeat, Hwf].
  intros k i v. unfold r. rewrite (quiescent_snapshot mk mi s n Hwf Hdone), snap_flatten. apply snap_in, Hwf.
Qed.

Theorem request_is_noop (mk mi : nat) r : r_shrinking r = true -> do_ev mk mi r Req = r.
Proof. intros H. cbn [do_ev]. apply request_noop; exact H. Qed.

Lemma shrinking_ev (mk mi : nat) r e : r_shrinking r = true -> r_shrinking (do_ev mk mi r e) = true.
Proof.
  intros H. destruct e as [c| |]; [rewrite do_ev_W | | rewrite request_is_noop]; exact H.
Qed.

Lemma shrinking_run (mk mi : nat) sched r : r_shrinking r = true -> r_shrinking (run_sched mk mi sched r) = true.
Proof. apply (fold_left_inv _ (fun r => r_shrinking r = true)). intros a e _. apply shrinking_ev. Qed.

(* the flag stays set whatever requests arrive; after the epilogue the next request starts afresh *)
Theorem request_lifecycle s0 (mk mi : nat) sched :
  let r := run_sched mk mi sched (run_init s0) in
  r_shrinking r = true /\ request (end_rewrite r) = run_init (r_live r).
Proof. intros r. split; [apply shrinking_run|]; reflexivity. Qed.

Definition crash_hyp (fi : final_in) : Prop :=
  same_data (replay (f_snap fi ++ f_slog fi) []) (replay (f_live fi ++ f_pend fi) []).

Lemma same_data_refl a : same_data a a.
Proof. intros k i; reflexivity. Qed.

(* every crash point of a rewrite that starts on a directory holding the expected live file, whatever
   else an earlier, interrupted rewrite left there *)
Theorem crash_points_leftovers d fi c : d_live d = Some (f_live fi) -> crash_hyp fi ->
  let d' := recover_dir (crash_from d fi c) in
  same_data d' (replay (f_live fi) []) \/ same_data d' (replay (f_live fi ++ f_pend fi) []).
Proof.
  destruct d as [l b sh]. cbn [d_live]. intros -> H.
  (* up to OpRenameLive the old file, without or with the flushed buffer, is under the live name or under
     -bak with no live file; from then on the live file is snapshot ++ shrinklog and crash_hyp applies *)
  destruct c; unfold crash_from, create_shrink, write_snap, recover_dir; cbn;
    first [ left; apply same_data_refl | right; apply same_data_refl | right; exact H ].
Qed.

(* crash_at is crash_from on a clean directory *)
Theorem crash_points fi c : crash_hyp fi ->
  let d := recover_dir (crash_at fi c) in
  same_data d (replay (f_live fi) []) \/ same_data d (replay (f_live fi ++ f_pend fi) []).
Proof. exact (crash_points_leftovers (mkDir (Some (f_live fi)) None None) fi c eq_refl). Qed.

Theorem crash_orig_partial fi c : c <> CP_after_rename_bak -> crash_hyp fi ->
  let d := recover_dir_orig (crash_at fi c) in
  same_data d (replay (f_live fi) []) \/ same_data d (replay (f_live fi ++ f_pend fi) []).
Proof.
  (* everywhere else there is a live file, and the two start-ups agree *)
  intros Hc. replace (recover_dir_orig (crash_at fi c)) with (recover_dir (crash_at fi c)) by (destruct c; reflexivity || congruence).
  apply crash_points.
Qed.

Definition fi_small : final_in :=
  mkFinal [CSet (b1 97) (b1 49) [] false (b1 120)] [] [CSet (b1 97) (b1 49) [] false (b1 120)] [].

Lemma fi_small_data : crash_hyp fi_small /\ exists k i v, lookup k i (replay (f_live fi_small) []) = Some v.
Proof.
  split; [intros k i; reflexivity|]. exists (b1 97), (b1 49), (mkObj (b1 120) [] false). vm_compute. reflexivity.
Qed.

Theorem crash_orig_refuted :
  exists fi, crash_hyp fi /\ (exists k i v, lookup k i (replay (f_live fi) []) = Some v) /\
             recover_dir_orig (crash_at fi CP_after_rename_bak) = [].
Proof. exists fi_small. destruct fi_small_data as [H D]. split; [exact H|]. split; [exact D | reflexivity]. Qed.

Theorem rewrite_ignores_leftovers d fi : d_live d = Some (f_live fi) ->
  rewrite_dir d fi = mkDir (Some (f_snap fi ++ f_slog fi)) None None.
Proof. destruct d as [l b sh]. cbn [d_live]. intros ->. reflexivity. Qed.

Theorem startup_keeps_data_gen d : recover_dir (startup_dir d) = recover_dir d.
Proof. destruct d as [[l|] [b|] sh]; reflexivity. Qed.

Lemma msorted_put_file p f fs : msorted fs -> msorted (put_file p f fs).
Proof. apply msorted_put. Qed.

Lemma get_put_file p f (fs : fsys) q : msorted fs ->
  get q (put_file p f fs) = if bytes_eqb q p then f else get q fs.
Proof. apply get_put. Qed.

Lemma app_neq_self {A} (n s : list A) : s <> [] -> n <> n ++ s.
Proof. intros Hs H. apply (f_equal (@length A)) in H. rewrite app_length in H. destruct s; [congruence | cbn in H; lia]. Qed.

Lemma name_neq_bak n : n <> bak_name n.
Proof. apply app_neq_self. discriminate. Qed.

Lemma name_neq_shrink n : n <> shrink_name n.
Proof. apply app_neq_self. discriminate. Qed.

Lemma bak_neq_shrink n : bak_name n <> shrink_name n.
Proof. unfold bak_name, shrink_name. intros H. apply app_inv_head in H. discriminate. Qed.

Lemma get_to_fs n d rest : msorted rest ->
  get n (to_fs n d rest) = d_live d /\ get (bak_name n) (to_fs n d rest) = d_bak d.
Proof.
  intros Hs. unfold to_fs. rewrite !get_put_file by (repeat apply msorted_put_file; exact Hs).
  rewrite !bytes_eqb_refl, (proj2 (eqb_false_neq _ n) (not_eq_sym (name_neq_bak n))). split; reflexivity.
Qed.

Lemma restore_to_fs n d rest : msorted rest ->
  get n (restore_backup n (to_fs n d rest)) = match d_live d with Some f => Some f | None => d_bak d end.
Proof.
  intros Hs. destruct (get_to_fs n d rest Hs) as [Hl Hb]. unfold restore_backup. rewrite Hl, Hb.
  destruct (d_live d); [exact Hl|]. destruct (d_bak d); [apply get_set_same | exact Hl].
Qed.

(* the named start-up (restore <name>-bak, open <name>) is the directory-level repaired start-up,
   for every configured name and whatever other files are around *)
Theorem recover_fs_is_recover_dir n d rest : msorted rest -> recover_fs n n (to_fs n d rest) = recover_dir d.
Proof.
  intros Hs. unfold recover_fs, recover_dir. rewrite restore_to_fs by exact Hs. destruct (d_live d), (d_bak d); reflexivity.
Qed.

Theorem crash_points_named n rest fi c : msorted rest -> crash_hyp fi ->
  let s := recover_fs n n (to_fs n (crash_at fi c) rest) in
  same_data s (replay (f_live fi) []) \/ same_data s (replay (f_live fi ++ f_pend fi) []).
Proof. intros Hs H s. unfold s. rewrite recover_fs_is_recover_dir by exact Hs. apply crash_points; exact H. Qed.

(* a restore that looks under another name than the one the server opens comes up empty *)
Theorem restore_other_name_refuted :
  exists n0 n fi, n0 <> n /\ crash_hyp fi /\ (exists k i v, lookup k i (replay (f_live fi) []) = Some v) /\
    recover_fs n0 n (to_fs n (crash_at fi CP_after_rename_bak) []) = [].
Proof.
  exists (b1 97), (b1 98), fi_small. destruct fi_small_data as [H D].
  split; [discriminate|]. split; [exact H|]. split; [exact D | reflexivity].
Qed.

Lemma hook_same_eq p h : hook_same p h = true -> h_chan p = h_chan h -> p = h.
Proof.
  destruct p as [c1 b1' e1], h as [c2 b2 e2]. unfold hook_same. cbn. intros H Hc.
  apply andb_true_iff in H. destruct H as [H H3]. apply andb_true_iff in H. destruct H as [H1 H2].
  apply bytes_eqb_eq in H1. destruct e1, e2; try discriminate. subst. reflexivity.
Qed.

(* exact per-name action of a command (an HFatal record has no effect) *)
Definition hact (c : hcmd) (n : bytes) (x : option hook) : option hook :=
  match c with
  | HSet n' h =>
      if bytes_eqb n n' then
        match x with
        | Some p => if negb (Bool.eqb (h_chan p) (h_chan h)) then x else if hook_same p h then x else Some h
        | None => Some h
        end
      else x
  | HDel n' c =>
      if bytes_eqb n n' then
        match x with Some p => if Bool.eqb (h_chan p) c then None else x | None => x end
      else x
  | HPdel pat c =>
      match x with Some p => if pmatch pat n && Bool.eqb (h_chan p) c then None else x | None => None end
  | HFlush => None
  end.

Fixpoint hacts (l : list hcmd) (n : bytes) (x : option hook) : option hook :=
  match l with [] => x | c :: r => hacts r n (hact c n x) end.

Lemma hacts_app a b n x : hacts (a ++ b) n x = hacts b n (hacts a n x).
Proof. revert x. induction a as [|c a IH]; intros x; cbn; [reflexivity | apply IH]. Qed.

Lemma hexec_sorted r c : msorted r -> msorted (fst (hexec r c)).
Proof.
  intros Hs. destruct c as [n' h|n' c|pat c|]; cbn [hexec].
  - destruct (get n' r) as [p|]; [|apply msorted_set; exact Hs].
    destruct (negb _); [exact Hs|]. destruct (hook_same p h); [exact Hs | apply msorted_set; exact Hs].
  - destruct (get n' r) as [p|]; [|exact Hs]. destruct (Bool.eqb _ _); [apply msorted_del; exact Hs | exact Hs].
  - cbv zeta. destruct (Nat.eqb _ _); [exact Hs | apply msorted_filter; exact Hs].
  - constructor.
Qed.

Lemma hexec_act r c n : msorted r -> get n (fst (hexec r c)) = hact c n (get n r).
Proof.
  intros Hs. destruct c as [n' h|n' c|pat c|]; cbn [hexec hact].
  - destruct (get n' r) as [p|] eqn:E;
      [destruct (negb (Bool.eqb (h_chan p) (h_chan h))) eqn:Ec; [|destruct (hook_same p h) eqn:Eh]|];
      cbn [fst]; rewrite ?get_set;
      (destruct (bytes_eqb_spec n n') as [->|_]; [rewrite E, ?Ec, ?Eh|]; reflexivity).
  - destruct (get n' r) as [p|] eqn:E; [destruct (Bool.eqb (h_chan p) c) eqn:Ec|];
      cbn [fst]; rewrite ?get_del by exact Hs;
      (destruct (bytes_eqb_spec n n') as [->|_]; [rewrite E, ?Ec|]; reflexivity).
  - cbv zeta. set (f := fun nh : bytes * hook => negb (pmatch pat (fst nh) && Bool.eqb (h_chan (snd nh)) c)).
    assert (Hg : get n (filter f r) = match get n r with
                                      | Some p => if pmatch pat n && Bool.eqb (h_chan p) c then None else get n r
                                      | None => None end).
    { rewrite get_filter_sorted by exact Hs. destruct (get n r) as [p|]; [|reflexivity]. unfold f. cbn [fst snd].
      destruct (pmatch pat n && Bool.eqb (h_chan p) c); reflexivity. }
    destruct (Nat.eqb_spec (length (filter f r)) (length r)) as [El|El]; cbn [fst]; [|exact Hg].
    rewrite (filter_length_eq f r El) in Hg. exact Hg.
  - reflexivity.
Qed.

Lemma hreplay_get l : forall r n, msorted r -> get n (hreplay l r) = hacts l n (get n r).
Proof.
  induction l as [|c l IH]; intros r n Hs; cbn [hreplay hacts]; [reflexivity|].
  rewrite IH by (apply hexec_sorted; exact Hs). rewrite hexec_act by exact Hs. reflexivity.
Qed.

Lemma hexec_unlogged r c : hlogged (snd (hexec r c)) = false -> fst (hexec r c) = r.
Proof.
  destruct c as [n' h|n' c|pat c|]; cbn [hexec].
  - destruct (get n' r) as [p|]; [|discriminate].
    destruct (negb (Bool.eqb (h_chan p) (h_chan h))); [reflexivity|]. destruct (hook_same p h); [reflexivity | discriminate].
  - destruct (get n' r) as [p|]; [|reflexivity]. destruct (Bool.eqb (h_chan p) c); [discriminate | reflexivity].
  - destruct (Nat.eqb _ _); [reflexivity | discriminate].
  - discriminate.
Qed.

(* what `logged` tells about the name n: a logged SETHOOK/SETCHAN n found n absent or of its kind,
   a logged DELHOOK/DELCHAN n found it with that kind (PDEL* and FLUSHDB tell nothing about n) *)
Definition heff (c : hcmd) (n : bytes) (x : option hook) : Prop :=
  match c with
  | HSet n' h => n = n' -> x = None \/ exists p, x = Some p /\ h_chan p = h_chan h
  | HDel n' c => n = n' -> exists p, x = Some p /\ h_chan p = c
  | _ => True
  end.

Fixpoint okh (l : list hcmd) (n : bytes) (x : option hook) : Prop :=
  match l with [] => True | c :: r => heff c n x /\ okh r n (hact c n x) end.

Lemma okh_app a b n x : okh (a ++ b) n x <-> okh a n x /\ okh b n (hacts a n x).
Proof. revert x. induction a as [|c a IH]; intros x; cbn; [tauto|]. rewrite IH. tauto. Qed.

Lemma hexec_logged_eff r c n : hlogged (snd (hexec r c)) = true -> heff c n (get n r).
Proof.
  destruct c as [n' h|n' c|pat c|]; cbn [hexec heff]; try (intros; exact I).
  - intros Hl ->. destruct (get n' r) as [p|]; [|left; reflexivity]. right. exists p. split; [reflexivity|].
    destruct (Bool.eqb (h_chan p) (h_chan h)) eqn:E; [apply Bool.eqb_prop; exact E | discriminate Hl].
  - intros Hl ->. destruct (get n' r) as [p|]; [|discriminate Hl]. exists p. split; [reflexivity|].
    destruct (Bool.eqb (h_chan p) c) eqn:E; [apply Bool.eqb_prop; exact E | discriminate Hl].
Qed.

(* lock-step: u the original run, w the replay that started from y; they are equal, or the replay
   still holds y, or the replay lost y to a PDEL of y's kind while the original holds another kind *)
Definition HInv (y u w : option hook) : Prop :=
  w = u \/ w = y \/ (w = None /\ exists p q, u = Some p /\ y = Some q /\ h_chan p <> h_chan q).

Lemma heff_set_result n h x : heff (HSet n h) n x -> hact (HSet n h) n x = Some h.
Proof.
  cbn. rewrite bytes_eqb_refl. intros H. destruct (H eq_refl) as [->|[p [-> Hk]]]; [reflexivity|].
  rewrite Hk, Bool.eqb_reflx. cbn [negb]. destruct (hook_same p h) eqn:E; [|reflexivity].
  f_equal. apply hook_same_eq; assumption.
Qed.

Lemma hact_set_self n h y : hact (HSet n h) n y = Some h \/ (hact (HSet n h) n y = y /\ y <> None).
Proof.
  cbn. rewrite bytes_eqb_refl. destruct y as [p|]; [|auto].
  destruct (negb _); [right; split; [reflexivity | discriminate]|].
  destruct (hook_same p h); [right; split; [reflexivity | discriminate] | auto].
Qed.

Lemma eqb_neq_false a b : a <> b -> Bool.eqb a b = false.
Proof. apply Bool.eqb_false_iff. Qed.

(* cmdPDelHook runs cmdDELHOOKop on every matching name *)
Lemma hact_pdel pat c n x : hact (HPdel pat c) n x = if pmatch pat n then hact (HDel n c) n x else x.
Proof. cbn. rewrite bytes_eqb_refl. destruct (pmatch pat n), x as [p|]; reflexivity. Qed.

Lemma HInv_step y c n u w : heff c n u -> HInv y u w -> HInv y (hact c n u) (hact c n w).
Proof.
  intros He [->|Hi]; [left; reflexivity|].
  (* a DEL of n, whatever it found (what the log tells of a DEL is not needed): the replay loses y while the original
     keeps a hook only if that is of another kind *)
  assert (Hdel : forall k, HInv y (hact (HDel n k) n u) (hact (HDel n k) n w)).
  { intros k. cbn. rewrite bytes_eqb_refl. destruct Hi as [->|[-> (p & q & -> & -> & Hpq)]].
    - destruct y as [q|]; [|right; left; reflexivity]. destruct (Bool.eqb (h_chan q) k) eqn:Eq; [|right; left; reflexivity].
      destruct u as [p|]; [|left; reflexivity]. destruct (Bool.eqb (h_chan p) k) eqn:Ep; [left; reflexivity|].
      right; right. split; [reflexivity|]. exists p, q. repeat split. intros Hk. rewrite Hk in Ep. congruence.
    - destruct (Bool.eqb (h_chan p) k); [left; reflexivity|]. right; right. split; [reflexivity|]. exists p, q. auto. }
  destruct c as [n' h|n' k|pat k|]; [| | |left; reflexivity].
  - (* on its own name the original now holds h; the replay stores h too, or keeps the hook it has *)
    destruct (bytes_eqb n n') eqn:En; [apply bytes_eqb_eq in En as <-|cbn; rewrite En; right; exact Hi].
    rewrite (heff_set_result n h u He). destruct (hact_set_self n h w) as [->|[-> Hw]]; [left; reflexivity|].
    destruct Hi as [->|[-> _]]; [right; left; reflexivity | contradiction].
  - destruct (bytes_eqb n n') eqn:En; [apply bytes_eqb_eq in En as <-; apply Hdel | cbn; rewrite En; right; exact Hi].
  - rewrite !hact_pdel. destruct (pmatch pat n); [apply Hdel | right; exact Hi].
Qed.

Theorem hacts_idem l n x0 : okh l n x0 -> hacts l n (hacts l n x0) = hacts l n x0.
Proof.
  apply (replay_on_result hcmd (option hook) (fun c => hact c n) (fun c => heff c n) (fun l => hacts l n)
           (fun l => okh l n) (fun _ => True) HInv); auto.
  - intros y x. right; left; reflexivity.
  - intros y c u w He _ _. apply HInv_step, He.
  - intros y w _ _ [H|[H|(_ & p & q & Hp & Hq & Hpq)]]; [exact H | exact H | congruence].
Qed.

Theorem hlog_idempotent n l1 l2 x0 : okh (l1 ++ l2) n x0 ->
  hacts (l1 ++ l2) n (hacts l1 n x0) = hacts (l1 ++ l2) n x0.
Proof.
  intros Hok. apply okh_app in Hok. destruct Hok as [Hok _]. rewrite !hacts_app, hacts_idem by exact Hok. reflexivity.
Qed.

Lemma hact_set_other n m h y : n <> m -> hact (HSet m h) n y = y.
Proof. intros H. cbn. apply eqb_false_neq in H. rewrite H. reflexivity. Qed.

Definition hpending (n : bytes) (hs : hshrink) : Prop :=
  match hs_pos hs with HNames => True | HEmit names => In n names | HDone => False end.

Lemma hpending_next n names out : hpending n (mkHShrink (hnext names) out) <-> In n names.
Proof. destruct names; unfold hpending; cbn; tauto. Qed.

Lemma hnext_pending n names : In n names -> hpending n (mkHShrink (hnext names) []) .
Proof. apply hpending_next. Qed.

Definition hheals (r : hrun) (n : bytes) (y : option hook) : Prop := hacts (hr_log r) n y = get n (hr_live r).

(* Invariant of a run.  g_snap: a name is still to be visited and the snapshot says nothing about it,
   or what the snapshot alone replays to for it heals. *)
Record hginv (r0 : hreg) (r : hrun) : Prop := {
  g_sorted : msorted (hr_live r);
  g_live : forall n, hheals r n (get n r0);
  g_ok : forall n, okh (hr_log r) n (get n r0);
  g_snap : forall n, (hpending n (hr_sh r) /\ hacts (hs_out (hr_sh r)) n None = None) \/
                     hheals r n (hacts (hs_out (hr_sh r)) n None)
}.

Lemma hdo_ev_W r c : hdo_ev r (HW c) =
  mkHRun (fst (hexec (hr_live r) c)) (hr_sh r) (if hlogged (snd (hexec (hr_live r) c)) then hr_log r ++ [c] else hr_log r).
Proof. cbn [hdo_ev]. destruct (hexec (hr_live r) c); reflexivity. Qed.

Lemma hstep_emit live hs m rest : hs_pos hs = HEmit (m :: rest) ->
  hstep live hs = mkHShrink (hnext rest) (hs_out hs ++ match get m live with Some h => [HSet m h] | None => [] end).
Proof. intros E. unfold hstep. rewrite E. destruct (get m live); [|rewrite app_nil_r]; reflexivity. Qed.

(* What a locked section of the hooks phase does for the name n, in the terms of g_snap.  Records of one name may
   repeat: a later one stores the present hook (first case) or is ignored, the snapshot replaying to a hook already
   (second case). *)
Lemma hstep_act live hs n :
  let y := hacts (hs_out hs) n None in let hs' := hstep live hs in
  hacts (hs_out hs') n None = get n live \/
  hacts (hs_out hs') n None = y /\ (hpending n hs -> y = None -> hpending n hs' \/ get n live = None).
Proof.
  cbv zeta. unfold hpending at 1. destruct (hs_pos hs) as [|[|m rest]|] eqn:Ep.
  - unfold hstep. rewrite Ep. right. split; [reflexivity|]. intros _ _.
    destruct (get n live) eqn:E; [left; apply hpending_next; eapply get_in_keys; exact E | right; reflexivity].
  - unfold hstep. rewrite Ep. right. split; [reflexivity | intros []].
  - rewrite (hstep_emit _ _ m rest Ep). cbn [hs_out]. rewrite hacts_app. destruct (bytes_eqb_spec n m) as [->|En].
    + destruct (get m live) as [hm|]; cbn [hacts]; [|right; split; [reflexivity | right; reflexivity]].
      destruct (hact_set_self m hm (hacts (hs_out hs) m None)) as [->|[-> Hy]]; [left; reflexivity | right; split; [reflexivity | contradiction]].
    + right. split; [destruct (get m live); [apply hact_set_other, En | reflexivity]|].
      intros [Hm|Hin] _; [congruence | left; apply hpending_next, Hin].
  - unfold hstep. rewrite Ep. right. split; [reflexivity | intros []].
Qed.

Lemma hginv_step r0 r e : hginv r0 r -> hginv r0 (hdo_ev r e).
Proof.
  intros [Hs Hlive Hok Hsnap]. destruct e as [c|]; [rewrite hdo_ev_W|cbn [hdo_ev]].
  - (* a command: appended when logged, otherwise it changed nothing *)
    destruct (hlogged (snd (hexec (hr_live r) c))) eqn:Elog; [|rewrite hexec_unlogged by exact Elog; constructor; assumption].
    assert (Hw : forall n y, hheals r n y -> hacts (hr_log r ++ [c]) n y = get n (fst (hexec (hr_live r) c))).
    { intros n y H. rewrite hacts_app. cbn [hacts]. rewrite H. symmetry. apply hexec_act, Hs. }
    constructor; cbn [hr_live hr_sh hr_log]; unfold hheals; cbn [hr_live hr_log]; auto.
    + apply hexec_sorted, Hs.
    + intros n. apply okh_app. split; [apply Hok|]. cbn. split; [|exact I]. rewrite (Hlive n). apply hexec_logged_eff, Elog.
    + intros n. destruct (Hsnap n) as [H|H]; auto.
  - (* a locked section of the hooks phase; the present value of a name heals: the log is idempotent on its result *)
    assert (Hnow : forall n, hheals r n (get n (hr_live r))).
    { intros n. unfold hheals. rewrite <- (Hlive n). apply hacts_idem, Hok. }
    constructor; cbn [hr_live hr_sh hr_log]; [exact Hs | exact Hlive | exact Hok|].
    intros n. unfold hheals. cbn [hr_live hr_sh hr_log].
    destruct (hstep_act (hr_live r) (hr_sh r) n) as [->|[-> Hp]]; [right; apply Hnow|].
    destruct (Hsnap n) as [[Hpend Hnone]|H]; [|right; exact H].
    destruct (Hp Hpend Hnone) as [Hp'|E]; [left; split; assumption | right; rewrite Hnone, <- E; apply Hnow].
Qed.

Theorem hooks_preserved r0 sched : msorted r0 ->
  let r := hrun_sched sched (hrun_init r0) in
  hs_done (hr_sh r) = true -> forall n, get n (hreplay (hnewfile r) []) = get n (hr_live r).
Proof.
  intros Hs r Hdone n.
  assert (Hinv : hginv r0 r).
  { apply (fold_left_inv _ (hginv r0)); [intros a e _; apply hginv_step | constructor; cbn; auto; reflexivity]. }
  destruct Hinv as [_ _ _ Hsnap].
  rewrite hreplay_get by constructor. cbn [get]. unfold hnewfile. rewrite hacts_app.
  destruct (Hsnap n) as [[Hp _]|H]; [|exact H].
  unfold hs_done in Hdone. unfold hpending in Hp. destruct (hs_pos (hr_sh r)); discriminate || contradiction.
Qed.

(* the pinned loader stops at HFatal; with one kind per name no record of the new file is fatal *)

Definition kcons (kind : bytes -> bool) (r : hreg) : Prop := Forall (fun nh => h_chan (snd nh) = kind (fst nh)) r.
Definition hcmd_ok (kind : bytes -> bool) (c : hcmd) : Prop :=
  match c with HSet n h => h_chan h = kind n | _ => True end.

Lemma hexec_kcons kind r c : kcons kind r -> hcmd_ok kind c -> kcons kind (fst (hexec r c)).
Proof.
  intros Hk Hc. destruct c as [n h|n c|pat c|]; cbn [hexec].
  - destruct (get n r) as [p|]; [destruct (negb _); [exact Hk|]; destruct (hook_same p h); [exact Hk|]|]; apply Forall_set; assumption.
  - destruct (get n r) as [p|]; [destruct (Bool.eqb _ _); [apply Forall_del|]|]; exact Hk.
  - cbv zeta. destruct (Nat.eqb _ _); [exact Hk | apply Forall_filter, Hk].
  - constructor.
Qed.

Lemma hexec_not_fatal kind r c : kcons kind r -> hcmd_ok kind c -> snd (hexec r c) <> HFatal.
Proof.
  intros Hk Hc. destruct c as [n h|n c|pat c|]; cbn [hexec].
  - destruct (get n r) as [p|] eqn:E; [|discriminate]. apply (Forall_get _ _ _ _ Hk) in E. cbn in E, Hc. rewrite E, Hc, Bool.eqb_reflx. cbn [negb].
    destruct (hook_same p h); discriminate.
  - destruct (get n r) as [p|]; [destruct (Bool.eqb _ _)|]; discriminate.
  - destruct (Nat.eqb _ _); discriminate.
  - discriminate.
Qed.

Lemma hreplay_orig_ok kind l : forall r, kcons kind r -> Forall (hcmd_ok kind) l ->
  hreplay_orig l r = Some (hreplay l r).
Proof.
  induction l as [|c l IH]; intros r Hk Hl; cbn [hreplay_orig hreplay]; [reflexivity|].
  inversion Hl as [|? ? Hc Hl']; subst.
  pose proof (hexec_not_fatal kind r c Hk Hc) as Hnf.
  pose proof (IH _ (hexec_kcons kind r c Hk Hc) Hl') as H.
  destruct (hexec r c) as [r' o]. cbn [fst snd] in *. destruct o; [exact H | exact H | congruence].
Qed.

Definition kinv (kind : bytes -> bool) (r : hrun) : Prop :=
  kcons kind (hr_live r) /\ Forall (hcmd_ok kind) (hs_out (hr_sh r)) /\ Forall (hcmd_ok kind) (hr_log r).

Lemma kinv_step kind r e : hev_kind_ok kind e = true -> kinv kind r -> kinv kind (hdo_ev r e).
Proof.
  intros He (Hk & Ho & Hl). destruct e as [c|]; [rewrite hdo_ev_W|cbn [hdo_ev]].
  - assert (Hc : hcmd_ok kind c) by (destruct c; cbn in *; try exact I; apply Bool.eqb_prop, He).
    repeat split; cbn [hr_live hr_sh hr_log]; [apply hexec_kcons; assumption | exact Ho|].
    destruct (hlogged _); [apply Forall_app; auto | exact Hl].
  - repeat split; cbn [hr_live hr_sh hr_log]; try assumption.
    unfold hstep. destruct (hs_pos (hr_sh r)) as [|[|m rest]|]; try exact Ho.
    destruct (get m (hr_live r)) as [h|] eqn:E; cbn [hs_out]; [|exact Ho].
    apply Forall_app. split; [exact Ho|]. constructor; [exact (Forall_get _ _ _ _ Hk E) | constructor].
Qed.

Theorem hooks_orig_partial r0 sched kind : msorted r0 -> kind_consistent kind r0 sched = true ->
  let r := hrun_sched sched (hrun_init r0) in
  hs_done (hr_sh r) = true ->
  exists reg, hreplay_orig (hnewfile r) [] = Some reg /\ forall n, get n reg = get n (hr_live r).
Proof.
  intros Hs Hkc r Hdone. apply andb_true_iff in Hkc as [Hk0 Hsched].
  assert (Hinv : kinv kind r).
  { rewrite forallb_forall in Hsched, Hk0.
    apply (fold_left_inv _ (kinv kind)); [intros a e He; apply kinv_step, Hsched, He; assumption|].
    repeat split; cbn; auto. apply Forall_forall. intros nh Hin. apply Bool.eqb_prop, Hk0, Hin. }
  destruct Hinv as (_ & Ho & Hl).
  exists (hreplay (hnewfile r) []). split; [|apply hooks_preserved; assumption].
  apply (hreplay_orig_ok kind); [constructor | apply Forall_app; split; assumption].
Qed.

(* a name that changes its kind during the rewrite: the new file does not load *)
Definition hookA : hook := mkHook false (b1 65) false.
Definition chanB : hook := mkHook true (b1 66) false.
Definition hsched_switch : list hev :=
  [HW (HSet (b1 120) hookA); HW (HDel (b1 120) false); HW (HSet (b1 120) chanB); HStep; HStep].

Theorem hook_kind_switch_refuted :
  exists r0 sched, msorted r0 /\ hs_done (hr_sh (hrun_sched sched (hrun_init r0))) = true /\
    hreplay_orig (hnewfile (hrun_sched sched (hrun_init r0))) [] = None.
Proof. exists [], hsched_switch. split; [constructor|]. split; reflexivity. Qed.

Section TTL.
Local Open Scope Z_scope.

Theorem ttl_floor ex now : 100000000 <= ex - now ->
  let t := obj_ttl_tenths ex now * 100000000 in t <= ex - now < t + 100000000.
Proof. intros H t. unfold t, obj_ttl_tenths. Z.to_euclidean_division_equations. lia. Qed.

Theorem ttl_minimum ex now : ex - now < 100000000 -> obj_ttl_tenths ex now = 1.
Proof. intros H. unfold obj_ttl_tenths. Z.to_euclidean_division_equations. lia. Qed.

Theorem hook_ttl_round ex now :
  let t := hook_ttl_tenths ex now * 100000000 in t - 50000000 <= ex - now < t + 50000000.
Proof. intros t. unfold t, hook_ttl_tenths. Z.to_euclidean_division_equations. lia. Qed.

End TTL.

Definition ex_id (i : nat) : bytes := [N.of_nat (48 + i / 10); N.of_nat (48 + i mod 10)].

(* object number i: three fields a b c / one field f / none; every fourth one has a deadline *)
Definition ex_obj (i : nat) : obj :=
  mkObj (b1 120)
        (if Nat.eqb (i mod 3) 0 then [(b1 97, b1 49); (b1 98, b1 50); (b1 99, b1 51)]
         else if Nat.eqb (i mod 3) 1 then [(b1 102, b1 55)] else [])
        (Nat.eqb (i mod 4) 1).

(* n objects "00", "01", ... (two decimal digits, so the ids are sorted for n <= 100) *)
Definition ex_ids (n : nat) : coll := map (fun i => (ex_id i, ex_obj i)) (seq 0 n).

(* ten collections "a".."j"; "d" has 40 objects (two ids batches), the others 2 *)
Definition ex_data : st :=
  map (fun j => (b1 (N.of_nat (97 + j)), if Nat.eqb j 3 then ex_ids 40 else ex_ids 2)) (seq 0 10).

(* writers between the locked sections, on objects behind, at and ahead of the cursor; no RENAME.
   Some of them are not `Updated` (FSET without change, PERSIST without deadline, missing key / id,
   PDEL without match) and therefore not logged. *)
Definition ex_sched : list ev :=
  [Step;
   W (CSet (b1 97) (ex_id 7) [(b1 102, Some (b1 57))] true (b1 121));
   Step; Step;
   W (CSet (b1 98) (ex_id 0) [(b1 98, None); (b1 122, Some (b1 57))] false (b1 122));
   W (CFset (b1 97) (ex_id 1) [(b1 102, Some (b1 56)); (b1 103, Some (b1 49))]);
   W (CFset (b1 97) (ex_id 1) [(b1 102, Some (b1 56))]);
   W (CExpire (b1 98) (ex_id 1)); W (CPersist (b1 97) (ex_id 1)); W (CPersist (b1 97) (ex_id 0));
   W (CDel (b1 100) (ex_id 5)); W (CDel (b1 100) (ex_id 99));
   W (CFset (b1 100) (ex_id 33) [(b1 97, None)]); W (CFset (b1 100) (ex_id 34) [(b1 97, None)]);
   W (CFset (b1 120) (ex_id 0) [(b1 97, Some (b1 49))]); W (CFset (b1 97) (ex_id 50) [(b1 97, Some (b1 49))]);
   Step; Step;
   W (CSet (b1 100) (ex_id 35) [] false (b1 121)); W (CExpire (b1 100) (ex_id 2));
   W (CPdel (b1 100) (b1 50)); W (CPdel (b1 101) (b1 48)); W (CPersist (b1 100) (ex_id 37));
   W (CDrop (b1 102)); W (CDrop (b1 120));
   W (CSet [96%N] (ex_id 1) [(b1 97, Some (b1 49))] false (b1 121));
   W (CSet (b1 122) (ex_id 1) [] true (b1 121));
   Step; W (CDel (b1 106) (ex_id 0)); W (CDel (b1 106) (ex_id 1)); W (CPdel (b1 100) (b1 57));
   W (CFset (b1 100) (ex_id 39) [(b1 99, Some (b1 57)); (b1 97, None)])] ++ repeat Step 40.

Definition ex_sched_flush : list ev :=
  [Step; Step; Step; W (CSet (b1 97) (ex_id 7) [] false (b1 121)); W CFlushdb; Step;
   W (CSet (b1 99) (ex_id 7) [(b1 97, Some (b1 49))] true (b1 121));
   W (CFset (b1 99) (ex_id 7) [(b1 98, Some (b1 50))]);
   W (CSet (b1 122) (ex_id 7) [] false (b1 121))] ++ repeat Step 40.

(* ex_sched with AOFSHRINK requests: at the start, right after each of the first writers, twice in a
   row in the middle, at the very end *)
Definition ex_sched_req : list ev :=
  [Req] ++ flat_map (fun e => match e with W c => [W c; Req] | _ => [e] end) (firstn 12 ex_sched)
        ++ [Req; Req] ++ skipn 12 ex_sched ++ [Req].

(* the final section: live file with a deleted object, one unflushed command, its snapshot and shrinklog *)
Definition ex_final : final_in :=
  mkFinal [CSet (b1 97) (ex_id 1) [(b1 102, Some (b1 55))] true (b1 120);
           CSet (b1 97) (ex_id 2) [] false (b1 121); CDel (b1 97) (ex_id 1)]
          [CSet (b1 98) (ex_id 1) [] false (b1 122)]
          [CSet (b1 97) (ex_id 2) [] false (b1 121)]
          [CSet (b1 98) (ex_id 1) [] false (b1 122)].

(* second rewrite after ex_final died at CP_after_sync: the live file is ex_final's flushed one, an
   unflushed DEL, and a snapshot of ONE record (the leftover -shrink file has two) *)
Definition ex_final2 : final_in :=
  mkFinal (f_live ex_final ++ f_pend ex_final) [CDel (b1 98) (ex_id 1)] [CSet (b1 97) (ex_id 2) [] false (b1 121)] [].

(* hooks example: SETHOOK / SETCHAN / DELCHAN / PDELCHAN between the sections of the hooks phase *)
Definition ex_hooks : hreg :=
  [(b1 97, mkHook false (b1 49) false); (b1 98, mkHook true (b1 50) true); (b1 99, mkHook false (b1 51) false);
   (b1 100, mkHook true (b1 52) false)].
Definition ex_hkind (n : bytes) : bool := match n with [x] => N.even x | _ => false end.
Definition ex_hsched : list hev :=
  [HW (HSet (b1 101) (mkHook false (b1 53) false)); HW (HSet (b1 97) (mkHook false (b1 49) false));
   HStep; HW (HDel (b1 98) true); HW (HDel (b1 99) true); HStep; HW (HSet (b1 97) (mkHook false (b1 57) true));
   HStep; HW (HPdel (b1 100) true); HW (HSet (b1 102) (mkHook true (b1 54) false)); HStep; HStep; HStep; HStep].

(* a five-byte log name ("x.aof") and an unrelated file ("zz") *)
Definition ex_name : bytes := [120; 46; 97; 111; 102]%N.
Definition ex_rest : fsys := [([122; 122]%N, [CFlushdb])].
