(* Lemmas over Model/Startup.v: whether a process runs the sweeper is decided by boot alone, so in every
   role history it is what the start-up table says of Serve. *)
From Coq Require Import String List Bool.
From T38 Require Import Base.ListFacts Model.Tables Gen.Startup Model.Startup.
Import ListNotations.

Lemma run_sweeper following0 h :
  p_sweeper (run following0 h) = started_always go_starts "Serve" "backgroundExpiring".
Proof.
  unfold run. apply (fold_left_inv step (fun p => p_sweeper p = _)); [|reflexivity].
  intros p e _ Hp. destruct e; try exact Hp; reflexivity.
Qed.

Lemma step_role : forall p e, p_following (step p e) =
  match e with EFollow => true | EFollowNoOne => false | _ => p_following p end.
Proof. intros p e. destruct e; reflexivity. Qed.
