(* Proofs/WhereExprProps.v — consequences of Proofs/WhereExprSem.v for property C12:

   1. && || ! on the denotation are the Boolean connectives of the truth values of their operands
      whenever the operands evaluate (no error, no object value); evaluating both operands (the
      evaluator never short-circuits) then gives what a short-circuiting reading gives, and the
      usual laws hold.  An operand that fails makes the whole filter reject the object, also where
      a short-circuiting || would have accepted it ([error_rejects]).
   2. a scan filtered by WHERE clauses (expression clauses and field clauses) keeps exactly the
      objects every clause accepts; DESC only reverses; a single expression clause given as the
      printed text of a tree keeps the objects whose denotation is true.
   3. WHERE f a b and WHERE "(f >= a) && (f <= b)" (and the exclusive variants) agree on objects
      whose field f is missing or a finite number, for every oracle whose comparisons are those of
      the numbers ([num_agree]).
   4. the objects and texts of the witnesses Props/C12.v evaluates on the float64 instance. *)
From Coq Require Import List NArith ZArith Bool Lia.
From Coq Require Import ZifyN ZifyNat ZifyBool.
From T38 Require Import Proofs.WhereProofs.
From T38 Require Import Base.Bytes Model.Float32 Model.Where Model.WhereExpr Model.WhereExprF64
  Model.WhereExprScan Model.WhereExprTree Proofs.WhereExprSem.
From T38 Require Import Base.ListFacts.
Import ListNotations.

Section Bool.
Context {F : Type} (O : oracle F) (obj : eobj F).
Notation V := (evalue F).

Definition truth (v : V) (b : bool) : Prop := is_obj F v = false /\ to_bool F O obj v = Ok b.

(* the operand of ! as den reads it: the arm for VBool is to_bool's own *)
Lemma not_operand v : (match v with VBool _ b' => Ok b' | _ => to_bool F O obj v end) = to_bool F O obj v.
Proof. destruct v; reflexivity. Qed.

(* op_and and op_or unfold to the left side, with f = andb and f = orb *)
Lemma truth_op (f : bool -> bool -> bool) x y bx by_ : truth x bx -> truth y by_ ->
  (if either_obj F x y then do_op_other F
   else do p <- to_bool F O obj x; do q <- to_bool F O obj y; Ok (VBool F (f p q))) = Ok (VBool F (f bx by_)).
Proof.
  intros [Hox Hx] [Hoy Hy]. unfold either_obj. rewrite Hox, Hoy. cbn [orb]. rewrite Hx, Hy. reflexivity.
Qed.

Lemma truth_bool b : truth (VBool F b) b.
Proof. split; reflexivity. Qed.

Definition holds (e : bexpr) (b : bool) : Prop := exists v, den F O obj e = Ok v /\ truth v b.

Lemma holds_match e b : holds e b -> den_match F O obj e = Ok b.
Proof. intros (v & Hv & _ & Hb). unfold den_match. rewrite Hv. exact Hb. Qed.

Theorem holds_and a b ba bb : holds a ba -> holds b bb -> holds (BAnd a b) (ba && bb).
Proof.
  intros (x & Hx & Tx) (y & Hy & Ty). exists (VBool F (ba && bb)). split; [|apply truth_bool].
  cbn [den]. rewrite Hx, Hy. exact (truth_op andb x y ba bb Tx Ty).
Qed.

Theorem holds_or a b ba bb : holds a ba -> holds b bb -> holds (BOr a b) (ba || bb).
Proof.
  intros (x & Hx & Tx) (y & Hy & Ty). exists (VBool F (ba || bb)). split; [|apply truth_bool].
  cbn [den]. rewrite Hx, Hy. exact (truth_op orb x y ba bb Tx Ty).
Qed.

Theorem holds_not a ba : holds a ba -> holds (BNot a) (negb ba).
Proof.
  intros (x & Hx & Tx). exists (VBool F (negb ba)). split; [|apply truth_bool].
  cbn [den]. rewrite Hx. cbn [bind]. rewrite not_operand, (proj2 Tx). reflexivity.
Qed.

(* what a short-circuiting evaluator would answer on operands that have truth values *)
Definition sc_and (ba bb : bool) : bool := if ba then bb else false.
Definition sc_or (ba bb : bool) : bool := if ba then true else bb.

Theorem bool_semantics a b ba bb : holds a ba -> holds b bb ->
  den_match F O obj (BAnd a b) = Ok (sc_and ba bb) /\
  den_match F O obj (BOr a b) = Ok (sc_or ba bb) /\
  den_match F O obj (BNot a) = Ok (negb ba) /\
  den_match F O obj (BNot (BNot a)) = Ok ba /\
  den_match F O obj (BNot (BAnd a b)) = den_match F O obj (BOr (BNot a) (BNot b)) /\
  den_match F O obj (BNot (BOr a b)) = den_match F O obj (BAnd (BNot a) (BNot b)) /\
  den_match F O obj (BAnd a b) = den_match F O obj (BAnd b a) /\
  den_match F O obj (BOr a b) = den_match F O obj (BOr b a).
Proof.
  intros Ha Hb.
  (* every side is a Boolean combination of a and b, whose truth value the three rules give *)
  repeat split; repeat erewrite holds_match by eauto using holds_and, holds_or, holds_not;
    destruct ba, bb; reflexivity.
Qed.

(* an operand that fails rejects the object, whatever the other operand says *)
Theorem error_rejects a b x :
  den F O obj b = Err x ->
  (forall v, den F O obj a = Ok v -> True) ->
  (den F O obj a = Panic -> False) -> (den F O obj a = NoFuel -> False) -> (den F O obj a = Outside -> False) ->
  den_match F O obj (BOr a b) = Ok false /\ den_match F O obj (BAnd a b) = Ok false.
Proof.
  intros Hb _ H1 H2 H3. unfold den_match. cbn [den]. rewrite Hb.
  destruct (den F O obj a) as [v|y| | |]; cbn [bind]; try tauto; split; reflexivity.
Qed.

End Bool.

Section ScanSpec.
Context {F : Type} (O : oracle F).
Variable mt : bytes -> bytes -> option (option (evalue F)).

Lemma clauses_match_spec cs o (k : wclause -> bool) :
  (forall c, In c cs -> clause_match F O mt c o = Ok (k c)) ->
  clauses_match F O mt cs o = Ok (forallb k cs).
Proof.
  induction cs as [|c cs IH]; intros H; cbn [clauses_match forallb]; [reflexivity|].
  rewrite (H c) by (left; reflexivity). destruct (k c); cbn [negb andb]; [|reflexivity].
  apply IH. intros c' Hc'. apply H. right. exact Hc'.
Qed.

Lemma keep_ids_spec cs objs (keep : sobj -> bool) :
  (forall o, In o objs -> clauses_match F O mt cs o = Ok (keep o)) ->
  keep_ids F O mt cs objs = Ok (map so_id (filter keep objs)).
Proof.
  induction objs as [|o objs IH]; intros H; cbn [keep_ids filter map]; [reflexivity|].
  rewrite (H o) by (left; reflexivity). rewrite IH by (intros o' Ho'; apply H; right; exact Ho').
  destruct (keep o); reflexivity.
Qed.

(* a filtered scan keeps exactly the objects every clause accepts, in iteration order *)
Theorem scan_expr_exact desc objs cs (k : wclause -> sobj -> bool) :
  (forall c o, In c cs -> In o objs -> clause_match F O mt c o = Ok (k c o)) ->
  scan_expr_ids F O mt desc objs cs =
    Ok (map so_id (filter (fun o => forallb (fun c => k c o) cs) (if desc then rev objs else objs))).
Proof.
  intros H. unfold scan_expr_ids. apply keep_ids_spec. intros o Ho.
  apply clauses_match_spec. intros c Hc. apply H; [exact Hc|].
  destruct desc; [apply in_rev; exact Ho | exact Ho].
Qed.

(* DESC only reverses.  A clause that fails behind a rejecting one is never run, in either
   direction, so nothing is asked of the single clauses: the verdicts the ascending scan reached
   are those the descending scan reaches. *)
Theorem scan_expr_desc objs cs ids :
  scan_expr_ids F O mt false objs cs = Ok ids -> scan_expr_ids F O mt true objs cs = Ok (rev ids).
Proof.
  unfold scan_expr_ids. intros Hasc.
  set (keep := fun o => match clauses_match F O mt cs o with Ok b => b | _ => false end).
  assert (Hk : forall o, In o objs -> clauses_match F O mt cs o = Ok (keep o)).
  { (* a scan that ends well reached a verdict on every object *)
    clear - Hasc. revert ids Hasc. induction objs as [|o r IH]; intros ids H o' Ho'; [destruct Ho'|].
    cbn [keep_ids] in H. unfold keep. destruct Ho' as [<-|Ho'], (clauses_match F O mt cs o); try discriminate; [reflexivity|].
    destruct (keep_ids F O mt cs r); try discriminate. exact (IH _ eq_refl o' Ho'). }
  rewrite (keep_ids_spec cs objs keep Hk) in Hasc. inversion Hasc.
  rewrite (keep_ids_spec cs (rev objs) keep) by (intros o Ho; apply Hk, in_rev, Ho).
  rewrite filter_rev, map_rev. reflexivity.
Qed.

Theorem scan_print_exact desc objs e (keep : sobj -> bool) :
  wf e = true ->
  (forall o, In o objs -> den_match F O (to_eobj F O (mt (so_id o)) o) e = Ok (keep o)) ->
  scan_expr_ids F O mt desc objs [WExpr (print e)] =
    Ok (map so_id (filter keep (if desc then rev objs else objs))).
Proof.
  intros Hwf H.
  rewrite (scan_expr_exact desc objs [WExpr (print e)] (fun _ o => keep o)).
  - f_equal. f_equal. apply filter_ext. intros o. cbn [forallb]. apply andb_true_r.
  - intros c o [<-|[]] Ho. cbn [clause_match]. rewrite match_print by exact Hwf. apply H. exact Ho.
Qed.

End ScanSpec.

Section Range.
Context {F : Type} (O : oracle F).

(* x is the float64 of the number z / 1000 as far as comparisons with integers go *)
Definition repr (x : F) (z : Z) : Prop :=
  forall a : Z,
    f_lt F O x (f_of_int F O a) = (z <? 1000 * a)%Z /\
    f_lt F O (f_of_int F O a) x = (1000 * a <? z)%Z /\
    f_eq F O x (f_of_int F O a) = (z =? 1000 * a)%Z.

(* the oracle compares the stored numbers and the integer literals as numbers *)
Definition num_agree : Prop :=
  (forall z, repr (th_to_float F O z) z) /\ repr (f_of_int F O 0%Z) 0%Z /\
  (forall m, (0 < m)%Z -> f_mul F O (f_of_int F O m) (f_of_int F O (-1)%Z) = f_of_int F O (- m)%Z).

Definition num_value (z : Z) : value := {| v_kind := KNumber; v_data := []; v_num := Fin z |}.

Definition range_tree (f : bytes) (minx : bool) (a : Z) (maxx : bool) (b : Z) : bexpr :=
  BAnd (BCmp (if minx then CGt else CGe) (AField f) (ANum a))
       (BCmp (if maxx then CLt else CLe) (AField f) (ANum b)).

(* the field f of the object is missing or a finite number *)
Definition numeric_field (fs : fields) (f : bytes) : Prop :=
  forall v, In (f, v) fs -> v_kind v = KNumber /\ exists z, v_num v = Fin z.

(* the value of such a field as WHERE f a b sees it (z) and as the evaluator sees it (x) *)
Lemma get_field_numeric fs f : num_agree -> numeric_field fs f ->
  exists z x, v_kind (get_field fs f) = KNumber /\ v_num (get_field fs f) = Fin z /\ repr x z /\
    match assoc F (map (fun nv => (fst nv, value_to_expr F O (snd nv))) fs) f with
    | Some v => v | None => VFloat F (f_zero F O)
    end = VFloat F x.
Proof.
  intros (Hth & H0 & _). induction fs as [|[n v] fs IH]; intros H.
  - exists 0%Z, (f_zero F O). cbn. auto.
  - cbn [get_field map assoc fst snd]. destruct (bytes_eqb n f) eqn:E.
    + apply bytes_eqb_eq in E. subst n. destruct (H v (or_introl eq_refl)) as (Hk & z & Hz).
      exists z, (th_to_float F O z). unfold value_to_expr. rewrite Hk, Hz. auto.
    + apply IH. intros v' Hv'. apply H. right. exact Hv'.
Qed.

Definition not_pseudo (f : bytes) : Prop :=
  bytes_eqb f s_this = false /\ bytes_eqb f s_id = false /\ bytes_eqb f s_type = false.

Definition cmp_Z (op : cmpop) (u w : Z) : bool :=
  match op with
  | CLt => u <? w | CLe => u <=? w | CGt => w <? u | CGe => w <=? u | CEq => u =? w | CNe => negb (u =? w)
  end%Z.

Lemma leb_split u w : (u <=? w)%Z = ((u <? w) || (u =? w))%Z.
Proof. destruct (Z.leb_spec u w), (Z.ltb_spec u w), (Z.eqb_spec u w); cbn; try reflexivity; lia. Qed.

(* a number compared with an integer literal: <= and >= are "less, or else equal" in the evaluator *)
Lemma den_cmp_num obj op x z k : repr x z ->
  den_cmp F O obj op (VFloat F x) (VFloat F (f_of_int F O k)) = Ok (VBool F (cmp_Z op z (1000 * k))).
Proof.
  intros Hr. destruct (Hr k) as (L1 & L2 & L3).
  destruct op; cbn [den_cmp cmp_Z]; unfold op_lte, op_gte, op_neq, op_gt, op_lt, op_eq, either_obj;
    cbn [is_obj kind_of Nat.eqb orb]; rewrite ?L1, ?L2, ?L3; cbn [bind to_bool]; try reflexivity.
  - rewrite leb_split. destruct (z <? 1000 * k)%Z; reflexivity.
  - rewrite leb_split, (Z.eqb_sym (1000 * k) z). destruct (1000 * k <? z)%Z; reflexivity.
Qed.

Lemma den_numeric_field (o : sobj) mt f :
  num_agree -> wf_name f = true -> not_pseudo f -> numeric_field (so_fields o) f ->
  exists z x, v_kind (get_field (so_fields o) f) = KNumber /\ v_num (get_field (so_fields o) f) = Fin z /\
    den_atom F O (to_eobj F O mt o) (AField f) = Ok (VFloat F x) /\ repr x z.
Proof.
  intros Hn Hwf (Np1 & Np2 & Np3) Hnum.
  destruct (get_field_numeric (so_fields o) f Hn Hnum) as (z & x & Hk & Hz & Hr & E). exists z, x.
  assert (Hplain : plain_ident f = true).
  { destruct (wf_name_parts f Hwf) as (c & r & -> & Hc & Hr' & _). cbn [plain_ident forallb].
    rewrite (id_start_continue c Hc), Hr'. reflexivity. }
  cbn [den_atom]. unfold get_ref_value, ext_ref. cbn [negb]. rewrite Np1.
  unfold obj_expr. cbn [to_eobj o_members o_fields o_id o_type]. rewrite Hplain. cbn [opt_outside bind].
  rewrite Np2, Np3, E. auto.
Qed.

Lemma den_num_lit obj k : num_agree -> den_atom F O obj (ANum k) = Ok (VFloat F (f_of_int F O k)).
Proof.
  intros (_ & _ & Hneg). cbn [den_atom]. destruct (Z.ltb_spec k 0); [|reflexivity].
  rewrite Hneg by (apply Z.opp_pos_neg; assumption). rewrite Z.opp_involutive. reflexivity.
Qed.

Lemma holds_cmp_num obj a op x z k :
  num_agree -> den_atom F O obj a = Ok (VFloat F x) -> repr x z ->
  holds O obj (BCmp op a (ANum k)) (cmp_Z op z (1000 * k)).
Proof.
  intros Hn Ha Hr. exists (VBool F (cmp_Z op z (1000 * k))). split; [|apply truth_bool].
  cbn [den]. rewrite Ha, (den_num_lit obj k Hn). cbn [bind]. apply den_cmp_num, Hr.
Qed.

(* WHERE f lo hi on a finite number, bounds in thousandths: the documented interval, in which two
   finite numbers compare as their thousandths *)
Lemma match_field_num v z minx lo maxx hi : v_kind v = KNumber -> v_num v = Fin z ->
  match_field (where_make minx (num_value lo) maxx (num_value hi)) v =
    cmp_Z (if minx then CGt else CGe) z lo && cmp_Z (if maxx then CLt else CLe) z hi.
Proof.
  intros Hk Hz. rewrite where_range_spec by reflexivity.
  unfold in_interval, vcompare. cbn [where_make w_minx w_min w_maxx w_max lower_value num_value v_kind v_num].
  rewrite Hk, Hz. destruct minx, maxx; reflexivity.
Qed.

(* about the tree: ANum k denotes f_of_int k for every k, so the bounds need not be small *)
Theorem range_tree_agrees (o : sobj) mt f minx a maxx b :
  num_agree -> wf_name f = true -> not_pseudo f -> numeric_field (so_fields o) f ->
  den_match F O (to_eobj F O mt o) (range_tree f minx a maxx b) =
    Ok (match_field (where_make minx (num_value (1000 * a)) maxx (num_value (1000 * b)))
          (get_field (so_fields o) f)).
Proof.
  intros Hn Hwf Hp Hnum. destruct (den_numeric_field o mt f Hn Hwf Hp Hnum) as (z & x & Hk & Hz & Hx & Hr).
  rewrite (match_field_num _ z _ _ _ _ Hk Hz).
  apply holds_match, holds_and; apply holds_cmp_num with x; assumption.
Qed.

End Range.

(* the hypothesis num_agree is satisfiable: exact arithmetic on thousandths *)
Definition toy_oracle : oracle Z :=
  mkOracle Z Z.add Z.sub (fun x y => (x * y / 1000)%Z) (fun x y => (x * 1000 / y)%Z) Z.rem Z.ltb Z.eqb
    (fun k => (1000 * k)%Z) (fun x => (x / 1000)%Z) 0%Z 0%Z 0%Z
    (fun _ => None) (fun _ => None) (fun _ _ => None) (fun _ _ => None) (fun _ _ => None).

Lemma toy_num_agree : num_agree toy_oracle.
Proof.
  unfold num_agree, repr, th_to_float. cbn [f_div f_of_int f_lt f_eq f_mul toy_oracle]. split.
  - intros z a. replace (1000 * z * 1000)%Z with (z * (1000 * 1000))%Z by ring.
    rewrite Z.div_mul by discriminate. repeat split; lia.
  - split; [intros a; repeat split; lia|].
    intros m Hm. cbn [f_mul]. replace (1000 * m * (1000 * -1))%Z with ((- (1000 * m)) * 1000)%Z by ring.
    rewrite Z.div_mul by discriminate. ring.
Qed.

Definition no_members : bytes -> option (option (evalue f64)) := fun _ => None.
Definition f64_obj (o : sobj) : eobj f64 := to_eobj f64 f64_plain no_members o.

Definition s_f : bytes := [102]%N.                                  (* f *)
Definition s_t : bytes := [116]%N.                                  (* t *)
Definition s_price : bytes := [112; 114; 105; 99; 101]%N.           (* price *)
Definition s_Point : bytes := [80; 111; 105; 110; 116]%N.

Definition v_inf : value := {| v_kind := KNumber; v_data := [43; 73; 110; 102]%N; v_num := PosInf |}.
Definition v_true : value := {| v_kind := KTrue; v_data := s_true; v_num := Fin 0 |}.

Definition witness_obj : sobj :=
  mkSobj [111]%N (Some s_Point) [123; 125]%N
    [(s_f, v_inf); (s_t, v_true); (s_price, num_value 25000)].

Definition witness_str_obj : sobj :=
  mkSobj [115]%N None [104; 105]%N [(s_f, num_value 5000)].

(* price-10 > 0  and  price*-1 < 3  are syntax errors (no object is kept) although  price - 10 > 0
   and  price * (-1) < 3  evaluate *)
Definition txt_price_minus : bytes := [112; 114; 105; 99; 101; 45; 49; 48; 32; 62; 32; 48]%N.
Definition txt_price_minus_sp : bytes := [112; 114; 105; 99; 101; 32; 45; 32; 49; 48; 32; 62; 32; 48]%N.
Definition txt_mul_neg : bytes := [112; 114; 105; 99; 101; 42; 45; 49; 32; 60; 32; 51]%N.                     (* price*-1 < 3 *)
Definition txt_mul_neg_par : bytes := [112; 114; 105; 99; 101; 32; 42; 32; 40; 45; 49; 41; 32; 60; 32; 51]%N.  (* price * (-1) < 3 *)

(* non-vacuity: a well-formed tree for c12_expr_nonvacuous *)
Definition sample_tree : bexpr :=
  BAnd (BCmp CLt (AField s_price) (ANum 30)) (BNot (BCmp CEq (AField s_t) (ABool false))).
