(* Proofs/WhereExprSafe.v -- the executable model of WHERE expressions (Model/WhereExpr.v) never
   yields Panic and never runs out of fuel, for all byte strings, all oracles and all objects.

   What a helper function returns matters as much as that it returns (a group lies inside the
   string, a split point inside the piece), so its facts are stated as one postcondition,
   [yields P r]: r is safe and a value it returns satisfies P.  The checked accessors have such
   facts too; a proof walks through a body once, one rule application per access.

   String literals: the scan of parse_string only accepts validated bodies (vbody: plain bytes and
   escapes, an escape being a backslash, a byte e and the bytes that go with e, payload e: for u
   braced bytes up to the first closing brace or four bytes, for x two bytes, else none), and
   unescape_loop is safe on a validated body from every escape boundary (including the surrogate
   pair look-ahead, which lands on an escape boundary again).  Both loops step over an escape by
   the length of its payload; both are followed on the string cut at their index (cut), where
   every access is an access to the list that is left and fuel above its length lasts.

   The evaluator: the scanning loops and evalAtom are safe relative to the callback rec, for
   strings no longer than a bound L on which rec is safe below L; eval_auto by induction on the
   level, eval_expr by induction on the depth fuel. *)
From Coq Require Import List NArith ZArith Bool Lia ZifyN ZifyNat ZifyBool.
From T38 Require Import Base.Bytes Base.ListFacts Model.WhereExpr.
Import ListNotations.
Local Open Scope nat_scope.

Definition safe {A} (r : res A) : Prop := r <> Panic /\ r <> NoFuel.

Lemma safe_ok {A} (a : A) : safe (Ok a).
Proof. split; discriminate. Qed.
Lemma safe_err {A} e : safe (@Err A e).
Proof. split; discriminate. Qed.
Lemma safe_outside {A} : safe (@Outside A).
Proof. split; discriminate. Qed.
Lemma safe_opt_outside {A} (o : option A) : safe (opt_outside o).
Proof. destruct o; split; discriminate. Qed.
Lemma safe_opt_panic_some {A} (a : A) : safe (opt_panic (Some a)).
Proof. apply safe_ok. Qed.

Lemma safe_bind {A B} (r : res A) (f : A -> res B) :
  safe r -> (forall a, r = Ok a -> safe (f a)) -> safe (bind r f).
Proof.
  intros [H1 H2] Hf. destruct r; cbn [bind]; try (split; congruence). apply Hf; reflexivity.
Qed.

Lemma safe_bind' {A B} (r : res A) (f : A -> res B) :
  safe r -> (forall a, safe (f a)) -> safe (bind r f).
Proof. intros H Hf. apply safe_bind; auto. Qed.

Lemma safe_bind_panic {A B} (o : option A) (f : A -> res B) :
  (exists a, o = Some a) -> (forall a, o = Some a -> safe (f a)) -> safe (bind (opt_panic o) f).
Proof. intros [a ->] Hf. apply Hf; reflexivity. Qed.

Lemma safe_ok_ex {A} (r : res A) : (exists a, r = Ok a) -> safe r.
Proof. intros [a ->]; apply safe_ok. Qed.

Definition yields {A} (P : A -> Prop) (r : res A) : Prop :=
  match r with Ok a => P a | Panic | NoFuel => False | Err _ | Outside => True end.

Lemma yields_safe {A} {P : A -> Prop} {r} : yields P r -> safe r.
Proof. destruct r; cbn [yields]; intros H; try contradiction; split; discriminate. Qed.

Lemma safe_yields {A} {r : res A} : safe r -> yields (fun _ => True) r.
Proof. intros [H1 H2]. destruct r; cbn [yields]; congruence || exact I. Qed.

Lemma yields_ok {A} {P : A -> Prop} {r a} : yields P r -> r = Ok a -> P a.
Proof. intros H ->. exact H. Qed.

Lemma yields_imp {A} {P Q : A -> Prop} {r} : yields P r -> (forall a, P a -> Q a) -> yields Q r.
Proof. destruct r; cbn [yields]; auto. Qed.

Lemma yields_bind {A B} {Q : A -> Prop} {P : B -> Prop} {r f} :
  yields Q r -> (forall a, Q a -> yields P (f a)) -> yields P (bind r f).
Proof. destruct r; cbn [yields bind]; auto. Qed.

Lemma safe_bind_y {A B} {Q : A -> Prop} {r} {f : A -> res B} :
  yields Q r -> (forall a, Q a -> safe (f a)) -> safe (bind r f).
Proof. intros H Hf. apply safe_bind; [exact (yields_safe H)|]. intros a E. exact (Hf a (yields_ok H E)). Qed.

Lemma bat_some s i c : bat s i = Some c -> i < length s.
Proof. unfold bat. intros H. apply nth_error_Some. congruence. Qed.

Lemma bat_y s i : i < length s -> yields (fun c => bat s i = Some c) (opt_panic (bat s i)).
Proof.
  unfold bat. intros H. destruct (nth_error s i) eqn:E; [reflexivity|].
  apply nth_error_None in E. lia.
Qed.

Lemma bat_pred_y s i : 1 <= i <= length s -> yields (fun _ => True) (opt_panic (bat_pred s i)).
Proof.
  intros H. destruct i as [|j]; [lia|]. cbn [bat_pred]. fold (bat s j).
  apply (yields_imp (bat_y s j ltac:(lia))). trivial.
Qed.

Lemma slice_ok s a b : a <= b <= length s -> slice s a b = Some (firstn (b - a) (skipn a s)).
Proof.
  intros [H1 H2]. unfold slice.
  apply Nat.leb_le in H1. apply Nat.leb_le in H2. rewrite H1, H2. reflexivity.
Qed.

Lemma slice_y s a b : a <= b <= length s -> yields (fun t => length t + a = b) (opt_panic (slice s a b)).
Proof.
  intros H. rewrite slice_ok by exact H. cbn [opt_panic yields].
  rewrite firstn_length_le by (rewrite skipn_length; apply Nat.sub_le_mono_r, H).
  apply Nat.sub_add, H.
Qed.

Lemma slice_safe {B} s a b (K : bytes -> res B) :
  a <= b <= length s -> (forall t, length t + a = b -> safe (K t)) -> safe (bind (opt_panic (slice s a b)) K).
Proof. intros H. exact (safe_bind_y (slice_y s a b H)). Qed.

Lemma sfrom_ok s a : a <= length s -> sfrom s a = Some (skipn a s).
Proof. intros H. unfold sfrom. apply Nat.leb_le in H. rewrite H. reflexivity. Qed.

Lemma sfrom_safe {B} s a (K : bytes -> res B) :
  a <= length s -> (forall t, length t + a = length s -> safe (K t)) -> safe (bind (opt_panic (sfrom s a)) K).
Proof. intros H HK. rewrite sfrom_ok by exact H. apply HK. rewrite skipn_length. lia. Qed.

Lemma trim_left_len s : length (trim_left s) <= length s.
Proof. induction s as [|c r IH]; cbn [trim_left length]; [lia|]. destruct (isspace c); cbn [length]; lia. Qed.

Lemma trim_len s : length (trim s) <= length s.
Proof.
  unfold trim. rewrite rev_length.
  etransitivity; [apply trim_left_len|]. rewrite rev_length. apply trim_left_len.
Qed.

Lemma id_rest_len s : length (id_rest s) <= length s.
Proof. induction s as [|c r IH]; cbn [id_rest]; [lia|]. destruct (id_continue c); cbn [length]; lia. Qed.

Lemma read_ident_len s id : read_ident s = Some id -> 1 <= length id <= length s.
Proof.
  destruct s as [|c r]; cbn [read_ident]; [discriminate|].
  destruct (id_start c); [|discriminate]. intros [= <-]. pose proof (id_rest_len r). cbn [length]. lia.
Qed.

Lemma sq_count_safe data s2 : forall fuel k n, k <= length data /\ k < fuel -> safe (sq_count data fuel k s2 n).
Proof.
  induction fuel as [|fuel IH]; intros k n Hk; [lia|].
  cbn [sq_count]. destruct (s2 <? k) eqn:E; [|apply safe_ok]. apply Nat.ltb_lt in E.
  eapply safe_bind_y; [apply bat_pred_y; lia|]. intros c _.
  destruct (c =? 92)%N; [apply IH; lia | apply safe_ok].
Qed.

Lemma sq_quote_y data s2 q : forall fuel i, 1 <= i /\ length data - i < fuel ->
  yields (fun j => i <= j) (sq_quote data fuel i s2 q).
Proof.
  induction fuel as [|fuel IH]; intros i Hi; [lia|].
  cbn [sq_quote]. destruct (bat data i) as [c|] eqn:Eb; [|cbn [yields]; lia].
  apply bat_some in Eb.
  assert (Hnext : yields (fun j => i <= j) (sq_quote data fuel (S i) s2 q))
    by (apply (yields_imp (IH (S i) ltac:(lia))); intros; lia).
  destruct (92 <? c)%N; [exact Hnext|]. destruct (c =? q)%N; [|exact Hnext].
  eapply yields_bind; [apply bat_pred_y; lia|]. intros p _.
  destruct (p =? 92)%N; [|cbn [yields]; lia].
  eapply yields_bind; [apply safe_yields, sq_count_safe; lia|]. intros n _. destruct (Nat.even n); [exact Hnext|cbn [yields]; lia].
Qed.

Definition inside (data : bytes) (r : option nat) : Prop :=
  match r with Some j => j < length data | None => True end.

Lemma sq_loop_y data : forall fuel i depth, length data - i < fuel -> yields (inside data) (sq_loop data fuel i depth).
Proof.
  induction fuel as [|fuel IH]; intros i depth Hf; [lia|].
  cbn [sq_loop]. destruct (bat data i) as [c|] eqn:Eb; [|exact I].
  apply bat_some in Eb.
  destruct ((c <? 34) || (125 <? c))%N; [apply IH; lia|].
  destruct ((c =? 34) || (c =? 39))%N.
  - eapply yields_bind; [apply sq_quote_y; lia|]. intros j Hj. cbv beta in Hj. destruct (depth =? 0)%Z; [|apply IH; lia].
    destruct (length data <=? j) eqn:El; [exact I|]. apply Nat.leb_gt in El. exact El.
  - destruct ((c =? 123) || (c =? 91) || (c =? 40))%N; [apply IH; lia|].
    destruct ((c =? 125) || (c =? 93) || (c =? 41))%N; [|apply IH; lia].
    destruct (depth - 1 =? 0)%Z; [exact Eb|apply IH; lia].
Qed.

Lemma squash_y data : 1 <= length data -> yields (inside data) (squash data).
Proof.
  intros Hl. unfold squash.
  apply (yields_bind (bat_y data 0 Hl)). intros c0 _.
  destruct ((c0 =? 34) || (c0 =? 39))%N; apply sq_loop_y; lia.
Qed.

Lemma read_group_y data : 1 <= length data ->
  yields (fun g => 2 <= length g /\ exists r, data = g ++ r) (read_group data).
Proof.
  intros Hl. unfold read_group.
  apply (yields_bind (squash_y data Hl)). intros [j|] Hj; [cbn [inside] in Hj|exact I].
  rewrite slice_ok by lia. cbn [opt_panic bind skipn]. set (g := firstn (S j - 0) data).
  unfold last_byte. destruct (length g <? 2) eqn:E2; [exact I|]. apply Nat.ltb_ge in E2.
  eapply yields_bind; [apply bat_pred_y; lia|]. intros l _.
  eapply yields_bind; [apply bat_y; lia|]. intros c0 _.
  destruct (negb (l =? closech c0)%N); [exact I|].
  split; [exact E2|]. exists (skipn (S j - 0) data). symmetry; apply firstn_skipn.
Qed.

Lemma read_group_len_y data : 1 <= length data -> yields (fun g => 2 <= length g <= length data) (read_group data).
Proof.
  intros Hl. apply (yields_imp (read_group_y data Hl)). intros g [Hg [r ->]]. rewrite app_length. lia.
Qed.

(* s = p ++ l with l starting at index i: every access of a loop that stands at i is an access to l,
   a look behind one to the last byte of p *)
Definition cut (s : bytes) (i : nat) (p l : bytes) : Prop := s = p ++ l /\ length p = i.

Lemma cut_len {s i p l} : cut s i p l -> length s = i + length l.
Proof. intros [-> <-]. apply app_length. Qed.

Lemma cut_bat {s i p l} : cut s i p l -> bat s i = hd_error l.
Proof.
  intros [-> <-]. unfold bat. rewrite nth_error_app2, Nat.sub_diag by lia. destruct l; reflexivity.
Qed.

Lemma cut_sfrom {s i p l} : cut s i p l -> sfrom s i = Some l.
Proof.
  intros H. rewrite sfrom_ok by (rewrite (cut_len H); lia).
  destruct H as [-> <-]. rewrite skipn_app_exact. reflexivity.
Qed.

Lemma cut_0 s : cut s 0 [] s.
Proof. split; reflexivity. Qed.

Lemma cut_bat_pred {s i p c l} : cut s i (p ++ [c]) l -> bat_pred s i = Some c.
Proof.
  intros [-> <-]. rewrite app_length, Nat.add_1_r, <- app_assoc.
  exact (cut_bat (conj eq_refl eq_refl : cut _ _ p (c :: l))).
Qed.

Lemma cut_slice {s i p} w l : cut s i p (w ++ l) -> slice s i (i + length w) = Some w.
Proof.
  intros H. rewrite slice_ok by (rewrite (cut_len H), app_length; lia).
  destruct H as [-> <-]. rewrite skipn_app_exact, Nat.add_comm, Nat.add_sub.
  exact (f_equal Some (firstn_app_exact w l)).
Qed.

Lemma cut_slice1 {s i q0 p l} : cut s i (q0 :: p) l -> slice s 1 i = Some p.
Proof. intros [-> <-]. exact (cut_slice p l (conj eq_refl eq_refl : cut _ 1 [q0] _)). Qed.

Lemma cut_app {s i p} w l : cut s i p (w ++ l) -> cut s (i + length w) (p ++ w) l.
Proof. intros [-> <-]. split; [apply app_assoc | apply app_length]. Qed.

Lemma cut_cons {s i p c l} : cut s i p (c :: l) -> cut s (S i) (p ++ [c]) l.
Proof. intros H. apply (cut_app [c] l) in H. rewrite Nat.add_1_r in H. exact H. Qed.

Definition payload (e : N) (w : bytes) : Prop :=
  if (e =? 117)%N then
    match w with
    | [] => False
    | h :: t =>
        if (h =? 123)%N then exists hs, t = hs ++ [125%N] /\ Forall (fun c => c <> 125%N) hs
        else length t = 3
    end
  else if (e =? 120)%N then length w = 2
  else w = [].

Inductive vbody : bytes -> Prop :=
| vb_nil : vbody []
| vb_plain c r : c <> 92%N -> vbody r -> vbody (c :: r)
| vb_esc e w r : payload e w -> vbody r -> vbody (92%N :: e :: w ++ r).

Lemma vbody_cons c r : vbody (c :: r) ->
  if (c =? 92)%N then exists e w r', r = e :: w ++ r' /\ payload e w /\ vbody r' else vbody r.
Proof.
  inversion 1 as [|? ? Hc Hr|e w r' Hp Hr]; subst.
  - destruct (N.eqb_spec c 92); [contradiction|exact Hr].
  - exists e, w, r'. auto.
Qed.

Lemma find_rbrace_app hs r : Forall (fun c => c <> 125%N) hs ->
  forall k, find_rbrace (hs ++ 125%N :: r) k = Some (k + length hs).
Proof.
  induction 1 as [|h hs Hh _ IH]; intros k; cbn [app find_rbrace length N.eqb Pos.eqb].
  - f_equal; lia.
  - destruct (N.eqb_spec h 125); [contradiction|]. rewrite IH. f_equal; lia.
Qed.

Lemma runeit_u_y w r : payload 117 w -> yields (fun '(_, n) => n = length w) (runeit (w ++ r) false).
Proof.
  destruct w as [|h t]; cbn [payload N.eqb Pos.eqb]; [contradiction|].
  unfold runeit. cbn [app bat nth_error opt_panic bind].
  destruct (N.eqb_spec h 123) as [->|_].
  - intros [hs [-> HF]]. rewrite <- app_assoc. cbn [app find_rbrace N.eqb Pos.eqb]. rewrite find_rbrace_app by exact HF.
    eapply yields_bind; [apply slice_y; cbn [length]; rewrite app_length; cbn [length]; lia|].
    intros ? _. cbn [yields length]. rewrite app_length, Nat.add_1_r. reflexivity.
  - intros Ht. eapply yields_bind; [apply slice_y; cbn [length]; rewrite app_length; lia|].
    intros ? _. cbn [yields length]. rewrite Ht. reflexivity.
Qed.

Lemma runeit_x_y w r : length w = 2 -> yields (fun '(_, n) => n = length w) (runeit (w ++ r) true).
Proof.
  intros Hw. unfold runeit. eapply yields_bind; [apply slice_y; rewrite app_length; lia|].
  intros ? _. symmetry; exact Hw.
Qed.

Lemma unescape_loop_safe s : forall fuel i acc p l,
  cut s i p l -> length l < fuel -> vbody l -> safe (unescape_loop s fuel i acc).
Proof.
  induction fuel as [|fuel IH]; intros i acc p l Hc Hf Hv; [lia|].
  cbn [unescape_loop]. rewrite (cut_bat Hc).
  destruct l as [|c r]; [apply safe_ok|]. apply vbody_cons in Hv. cbn [hd_error length] in *.
  pose proof (cut_cons Hc) as Hc1.
  destruct (c =? 92)%N; cbn [negb]; [|apply (IH _ _ _ r Hc1); [lia|exact Hv]].
  destruct Hv as (e & w & r' & -> & Hp & Hv).
  pose proof (cut_cons Hc1) as Hc2. pose proof (cut_app w r' Hc2) as Hc3.
  rewrite (cut_bat Hc1), (cut_sfrom Hc2). cbn [hd_error opt_panic bind].
  cbn [length] in Hf. rewrite app_length in Hf.
  assert (Hcont : forall acc', safe (unescape_loop s fuel (S (S i) + length w) acc'))
    by (intros; apply (IH _ _ _ r' Hc3); [lia|exact Hv]).
  unfold payload in Hp.
  destruct (N.eqb_spec e 117) as [->|_]; [|destruct (N.eqb_spec e 120) as [->|_]]; cbn [N.eqb Pos.eqb].
  - apply (safe_bind_y (runeit_u_y w r' Hp)). intros [rr n] ->.
    destruct (is_surrogate rr); [|apply Hcont].
    rewrite (cut_sfrom Hc3). cbn [opt_panic bind].
    (* the look-ahead for a second escape stands at an escape boundary again *)
    destruct r' as [|d0 [|d1 r6]]; try apply Hcont.
    destruct (6 <=? length (d0 :: d1 :: r6)); [|apply Hcont].
    rewrite (cut_bat Hc3), (cut_bat (cut_cons Hc3)). cbn [hd_error opt_panic bind].
    apply vbody_cons in Hv.
    destruct (d0 =? 92)%N; [|apply Hcont]. destruct Hv as (e2 & w2 & r8 & [= -> ->] & Hp2 & Hv8).
    destruct (N.eqb_spec e2 117) as [->|_]; [|apply Hcont]. cbn [andb].
    pose proof (cut_app [d0; 117%N] _ Hc3) as Hc6. cbn [length] in Hc6, Hf. rewrite app_length in Hf.
    rewrite (cut_sfrom Hc6). cbn [opt_panic bind].
    apply (safe_bind_y (runeit_u_y w2 r8 Hp2)). intros [rr2 n2] ->.
    apply (IH _ _ _ r8 (cut_app w2 r8 Hc6)); [lia|exact Hv8].
  - apply (safe_bind_y (runeit_x_y w r' Hp)). intros [rr n] ->. apply Hcont.
  - subst w. cbn [length] in Hcont. rewrite Nat.add_0_r in Hcont. repeat destruct (_ =? _)%N; apply Hcont.
Qed.

Lemma unescape_string_safe s : vbody s -> safe (unescape_string s).
Proof. intros H. apply (unescape_loop_safe s _ 0 [] [] s); [apply cut_0|apply Nat.lt_succ_diag_r|exact H]. Qed.

Lemma ps_brace_y data : forall fuel k p l, cut data k p l -> length l < fuel ->
  yields (fun r => match r with
                   | Some (Some j) => exists t l', l = t ++ l' /\ payload 117 (123%N :: t) /\ S j = k + length t
                   | _ => True
                   end)
         (ps_brace data fuel k).
Proof.
  induction fuel as [|fuel IH]; intros k p l Hc Hf; [lia|].
  cbn [ps_brace]. rewrite (cut_bat Hc). destruct l as [|c l1]; cbn [hd_error]; [exact I|]. cbn [length] in Hf.
  destruct (N.eqb_spec c 125) as [->|Hne].
  - exists [125%N], l1. repeat split; [exists []; auto|cbn [length]; lia].
  - destruct (negb (ishex c)); [exact I|].
    apply (yields_imp (IH _ _ l1 (cut_cons Hc) ltac:(lia))).
    intros [[j|]|]; trivial. intros (t & l' & -> & (hs & -> & HF) & Hj).
    exists (c :: hs ++ [125%N]), l'. repeat split; [exists (c :: hs); auto|cbn [length]; lia].
Qed.

Lemma ps_hex_cut data : forall k i p c l j, cut data i p (c :: l) -> ps_hex data k i = Some j ->
  exists w l', l = w ++ l' /\ length w = k /\ j = length w + i.
Proof.
  induction k as [|k IH]; intros i p c l j Hc H; cbn [ps_hex] in H.
  - injection H as <-. exists [], l. auto.
  - pose proof (cut_cons Hc) as Hc1. rewrite (cut_bat Hc1) in H.
    destruct l as [|h l1]; [discriminate|]. cbn [hd_error] in H. destruct (ishex h); [|discriminate].
    destruct (IH _ _ _ _ _ Hc1 H) as (w & l' & -> & <- & ->).
    exists (h :: w), l'. repeat split. apply Nat.add_succ_r.
Qed.

Definition vpre (p : bytes) : Prop := forall X, vbody X -> vbody (p ++ X).

Definition raw_within (data : bytes) (r : option (bytes * nat)) : Prop :=
  match r with Some (_, n) => n <= length data | None => True end.

(* the scan stands at i after the opening quote q0 and the complete escapes and plain bytes p *)
Lemma ps_loop_y data q0 q : forall fuel i esc p l,
  cut data i (q0 :: p) l -> length l < fuel -> vpre p ->
  yields (raw_within data) (ps_loop data fuel i q esc).
Proof.
  induction fuel as [|fuel IH]; intros i esc p l Hc Hf Hp; [lia|].
  cbn [ps_loop]. rewrite (cut_bat Hc). destruct l as [|c l1]; [exact I|].
  pose proof (cut_len Hc) as Hlen. pose proof (cut_cons Hc) as Hc1. cbn [hd_error length] in *.
  destruct (c <? 32)%N; [exact I|].
  destruct (N.eqb_spec c 92) as [->|Hc92].
  - rewrite (cut_bat Hc1). destruct l1 as [|e l2]; [exact I|].
    pose proof (cut_cons Hc1) as Hc2. cbn [hd_error length] in *.
    assert (Hgo : forall w l', l2 = w ++ l' -> payload e w ->
                  yields (raw_within data) (ps_loop data fuel (S (length w + S i)) q true)).
    { intros w l' -> Hw. rewrite app_length in Hf.
      replace (S (length w + S i)) with (S (S i) + length w) by lia.
      apply (IH _ _ _ l' (cut_app w l' Hc2)); [lia|].
      intros X HX. rewrite <- !app_assoc. exact (Hp _ (vb_esc e w X Hw HX)). }
    unfold payload in Hgo.
    destruct (N.eqb_spec e 117) as [->|_]; [|destruct (N.eqb_spec e 120) as [->|_]]; cbn [N.eqb Pos.eqb] in Hgo.
    + rewrite (cut_bat Hc2).
      destruct (match hd_error l2 with Some c1 => (c1 =? 123)%N | None => false end) eqn:EB.
      * destruct l2 as [|h1 l3]; [discriminate|]. cbn [hd_error length] in *. apply N.eqb_eq in EB. subst h1.
        eapply yields_bind; [apply (ps_brace_y data _ _ _ l3 (cut_app [117%N; 123%N] l3 Hc1)); lia|].
        intros [[j|]|]; try exact (fun _ => I). intros (t & l' & -> & Ht & Hj).
        replace (S j) with (S (length (123%N :: t) + S i)) by (cbn [length] in *; lia).
        exact (Hgo (123%N :: t) l' eq_refl Ht).
      * destruct (ps_hex data 4 (S i)) as [j|] eqn:Eh; [|exact I].
        destruct (ps_hex_cut _ _ _ _ _ _ _ Hc1 Eh) as (w & l' & -> & Hw & ->).
        destruct w as [|h1 t]; [discriminate|]. cbn [app hd_error] in EB.
        apply (Hgo (h1 :: t) l' eq_refl). rewrite EB. injection Hw as Hw. exact Hw.
    + destruct (ps_hex data 2 (S i)) as [j|] eqn:Eh; [|exact I].
      destruct (ps_hex_cut _ _ _ _ _ _ _ Hc1 Eh) as (w & l' & -> & Hw & ->). exact (Hgo w l' eq_refl Hw).
    + exact (Hgo [] l2 eq_refl eq_refl).
  - destruct (c =? q)%N.
    + rewrite (cut_slice1 Hc). cbn [opt_panic bind].
      apply (yields_bind (Q := fun _ => True)); [|intros s' _; cbn [yields raw_within]; lia].
      destruct esc; [|exact I]. apply safe_yields, unescape_string_safe.
      specialize (Hp [] vb_nil). rewrite app_nil_r in Hp. exact Hp.
    + apply (IH _ _ _ l1 Hc1); [lia|]. intros X HX. rewrite <- app_assoc. exact (Hp _ (vb_plain c X Hc92 HX)).
Qed.

Lemma parse_string_y data : yields (raw_within data) (parse_string data).
Proof.
  unfold parse_string. destruct (length data <? 2) eqn:E; [exact I|]. apply Nat.ltb_ge in E.
  destruct data as [|q0 rest]; [cbn [length] in E; lia|]. cbn [bat nth_error opt_panic bind].
  apply (ps_loop_y _ q0 q0 _ 1 false [] rest); [split; reflexivity|cbn [length]; lia|intros X HX; exact HX].
Qed.

Lemma strip_bangs_y : forall fuel e neg b, length e < fuel ->
  yields (fun '(_, _, e') => length e' <= length e) (strip_bangs fuel e neg b).
Proof.
  induction fuel as [|fuel IH]; intros e neg b Hf; [lia|].
  cbn [strip_bangs]. destruct e as [|c r]; [exact I|].
  destruct (negb (c =? 33)%N); [cbn [yields]; lia|].
  pose proof (trim_len r) as Ht. cbn [length] in *.
  apply (yields_imp (IH (trim r) (negb neg) true ltac:(lia))). intros [[n' b'] e'] He'. lia.
Qed.

Lemma sums_adjust_y e s neg : s <= length e -> yields (fun '(s', _) => s' <= s) (sums_adjust e s neg).
Proof.
  intros Hs. unfold sums_adjust. destruct neg; [|cbn [yields]; lia].
  destruct ((0 <? s) && (s <? length e)) eqn:E; [|cbn [yields]; lia].
  eapply yields_bind; [apply bat_pred_y; lia|]. intros p _.
  eapply yields_bind; [apply bat_y; lia|]. intros c _.
  destruct ((p =? 45)%N && isdigit c); cbn [yields]; lia.
Qed.

Definition fits (e : bytes) (i : nat) (a : action) : Prop :=
  match a with ASplit _ z => 1 <= z /\ i + z <= length e | _ => True end.

(* follows the control flow of straight-line code: a test on indices is recorded (one on bytes is not), an
   access is in range because of the tests in front of it, what is returned satisfies the postcondition by
   arithmetic *)
Ltac walk :=
  repeat match goal with
  | |- yields _ (if ?a <? ?b then _ else _) => destruct (Nat.ltb_spec a b)
  | |- yields _ (if ?a =? ?b then _ else _) => destruct (Nat.eqb_spec a b)
  | |- yields _ (if ?x then _ else _) => destruct x
  | |- yields _ (bind (opt_panic (bat _ _)) _) => eapply yields_bind; [apply bat_y; lia|intros ? _]
  | |- yields _ (bind (opt_panic (bat_pred _ _)) _) => eapply yields_bind; [apply bat_pred_y; lia|intros ? _]
  | |- yields _ (bind (if _ then _ else _) _) => apply (yields_bind (Q := fun _ => True)); [|intros ? _]
  | |- yields _ (Ok _) => cbn [yields fits]; first [exact I | lia]
  | |- yields _ (Err _) => exact I
  end.

Lemma recog_y n e i c : i < length e -> yields (fits e i) (recog n e i c).
Proof.
  intros Hi. unfold recog. cbv zeta.
  do 10 (destruct n as [|n]; [cbv iota; walk|]). exact I.
Qed.

Lemma skip_group_safe {B} (e : bytes) i (K : bytes -> res B) :
  i < length e -> (forall g, 2 <= length g -> safe (K g)) ->
  safe (bind (opt_panic (sfrom e i)) (fun t => bind (read_group t) K)).
Proof.
  intros Hi HK. apply sfrom_safe; [lia|]. intros t Ht.
  eapply safe_bind_y; [apply read_group_len_y; lia|].
  intros g Hg. apply HK, Hg.
Qed.

Create HintDb wxs.

(* The head symbol of the result picks the rule.  What is none of these is a part set aside and proved
   beforehand (a hypothesis) or a call of a function whose lemma is in wxs. *)
Ltac safe_tac :=
  repeat lazymatch goal with
  | |- safe (Ok _) => apply safe_ok
  | |- safe (Err _) => apply safe_err
  | |- safe Outside => apply safe_outside
  | |- safe (opt_outside _) => apply safe_opt_outside
  | |- safe (bind _ _) => apply safe_bind'; [|intros ?]
  | |- safe (match ?x with _ => _ end) => destruct x
  | |- _ => first [assumption | solve [auto with wxs]]
  end.

(* A binary operator hands objects to doOp; otherwise the arms of its match on the two operands return Ok,
   except for a fall-back arm that stands in most of them: set aside as [fb], that arm is proved once, for
   the operands as variables, instead of in each of the 121 cases. *)
Ltac arms_by fb := assert (safe fb) by (subst fb; safe_tac); clearbody fb; safe_tac.

Section WXS.
Context (F : Type) (O : oracle F) (obj : eobj F).

Lemma to_string_safe v : safe (to_string F O obj v).
Proof. unfold to_string. safe_tac. Qed.

Lemma conv_parse_float_safe a : safe (conv_parse_float F O a).
Proof. unfold conv_parse_float. safe_tac. Qed.
#[local] Hint Resolve to_string_safe conv_parse_float_safe : wxs.

Lemma atof_safe a : safe (atof F O a).
Proof. unfold atof. safe_tac. Qed.
Lemma atoi_safe a : safe (atoi F O a).
Proof. unfold atoi. safe_tac. Qed.
#[local] Hint Resolve atof_safe atoi_safe : wxs.

Lemma to_float_safe v : safe (to_float F O v).
Proof. unfold to_float. safe_tac. Qed.
Lemma to_int_safe v : safe (to_int F O v).
Proof. unfold to_int. safe_tac. Qed.
#[local] Hint Resolve to_float_safe to_int_safe : wxs.
Lemma to_bool_safe v : safe (to_bool F O obj v).
Proof. unfold to_bool. safe_tac. Qed.
#[local] Hint Resolve to_bool_safe : wxs.

Lemma obj_expr_safe id : safe (obj_expr F O obj id).
Proof. unfold obj_expr. safe_tac. Qed.
#[local] Hint Resolve obj_expr_safe : wxs.
Lemma ext_ref_safe ch l id : safe (ext_ref F O obj ch l id).
Proof. unfold ext_ref. safe_tac. Qed.
#[local] Hint Resolve ext_ref_safe : wxs.
Lemma get_ref_value_safe ch l id oc : safe (get_ref_value F O obj ch l id oc).
Proof. unfold get_ref_value. safe_tac. Qed.
Lemma ext_call_safe ch v id args : safe (ext_call F O obj ch v id args).
Proof. unfold ext_call. safe_tac. Qed.
Lemma do_op_regex_safe a b : safe (do_op_regex F O obj a b).
Proof. unfold do_op_regex. safe_tac. Qed.
Lemma do_op_other_safe : safe (do_op_other F).
Proof. unfold do_op_other. safe_tac. Qed.
#[local] Hint Resolve get_ref_value_safe ext_call_safe do_op_regex_safe do_op_other_safe : wxs.

Lemma float2_safe op a b : safe (float2 F O op a b).
Proof. unfold float2. safe_tac. Qed.
Lemma concat2_safe a b : safe (concat2 F O obj a b).
Proof. unfold concat2. safe_tac. Qed.
#[local] Hint Resolve float2_safe concat2_safe : wxs.

Lemma op_add_safe a b : safe (op_add F O obj a b).
Proof. unfold op_add. set (fb := if _ && isnum F b then _ else _). arms_by fb. Qed.
Lemma op_sub_safe a b : safe (op_sub F O a b).
Proof. unfold op_sub. set (fb := float2 F O _ a b). arms_by fb. Qed.
Lemma op_mul_safe a b : safe (op_mul F O a b).
Proof. unfold op_mul. set (fb := float2 F O _ a b). arms_by fb. Qed.
Lemma op_div_safe a b : safe (op_div F O a b).
Proof. unfold op_div. set (fb := float2 F O _ a b). arms_by fb. Qed.
Lemma op_mod_safe a b : safe (op_mod F O a b).
Proof. unfold op_mod. set (fb := float2 F O _ a b). arms_by fb. Qed.
Lemma int2_safe op a b : safe (int2 F O op a b).
Proof. unfold int2. set (fb := bind (to_int F O a) _). arms_by fb. Qed.
#[local] Hint Resolve op_add_safe op_sub_safe op_mul_safe op_div_safe op_mod_safe int2_safe : wxs.
Lemma op_lt_safe a b : safe (op_lt F O a b).
Proof. unfold op_lt. set (fb := bind (to_float F O a) _). arms_by fb. Qed.
#[local] Hint Resolve op_lt_safe : wxs.
Lemma op_eq_safe a b : safe (op_eq F O obj a b).
Proof. unfold op_eq. set (fb := if negb (same_kind F a b) then _ else _). arms_by fb. Qed.
#[local] Hint Resolve op_eq_safe : wxs.
Lemma op_lte_safe a b : safe (op_lte F O obj a b).
Proof. unfold op_lte. safe_tac. Qed.
Lemma op_gt_safe a b : safe (op_gt F O a b).
Proof. unfold op_gt. safe_tac. Qed.
#[local] Hint Resolve op_lte_safe op_gt_safe : wxs.
Lemma op_gte_safe a b : safe (op_gte F O obj a b).
Proof. unfold op_gte. safe_tac. Qed.
Lemma op_seq_safe a b : safe (op_seq F O obj a b).
Proof. unfold op_seq. safe_tac. Qed.
#[local] Hint Resolve op_gte_safe op_seq_safe : wxs.
Lemma op_neq_safe a b : safe (op_neq F O obj a b).
Proof. unfold op_neq. safe_tac. Qed.
Lemma op_sneq_safe a b : safe (op_sneq F O obj a b).
Proof. unfold op_sneq. safe_tac. Qed.
Lemma op_and_safe a b : safe (op_and F O obj a b).
Proof. unfold op_and. safe_tac. Qed.
Lemma op_or_safe a b : safe (op_or F O obj a b).
Proof. unfold op_or. safe_tac. Qed.
Lemma op_coalesce_safe a b : safe (op_coalesce F a b).
Proof. unfold op_coalesce. safe_tac. Qed.
#[local] Hint Resolve op_neq_safe op_sneq_safe op_and_safe op_or_safe op_coalesce_safe : wxs.

Lemma apply_op_safe n op l r : safe (apply_op F O obj n op l r).
Proof.
  unfold apply_op, op_bor, op_band, op_xor. safe_tac.
Qed.

Lemma expr_parse_float_safe s : safe (expr_parse_float F O s).
Proof. unfold expr_parse_float. safe_tac. Qed.
#[local] Hint Resolve expr_parse_float_safe : wxs.

Lemma atom_number_generic_safe e : safe (atom_number_generic F O e).
Proof.
  unfold atom_number_generic. apply safe_bind'; [|intros a; safe_tac].
  destruct ((3 <? length e) && has_suffix_64 e) eqn:E3; [|apply safe_ok].
  eapply safe_bind_y; [apply bat_y; lia|]. intros k _.
  destruct (k =? 117)%N; [|destruct (k =? 105)%N; [|apply safe_ok]];
    (apply slice_safe; [lia|]; intros h _; safe_tac).
Qed.

Lemma atom_number_safe e : 1 <= length e -> safe (atom_number F O e).
Proof.
  intros Hl. unfold atom_number. pose proof (atom_number_generic_safe e) as Hg.
  eapply safe_bind_y; [apply bat_y; exact Hl|]. intros c0 _.
  destruct (c0 =? 48)%N; [|exact Hg].
  destruct (bat e 1) as [c1|] eqn:E1; [|exact Hg]. apply bat_some in E1.
  destruct ((c1 =? 120) || (c1 =? 88))%N; [|exact Hg].
  apply sfrom_safe; [lia|]. intros h _. safe_tac.
Qed.

Lemma safe_ret v : safe (ret F v).
Proof. apply safe_ok. Qed.
Lemma safe_lift r : safe r -> safe (lift F r).
Proof. intros H. apply safe_bind'; [exact H|intros; apply safe_ret]. Qed.
Lemma safe_rbind r f : safe r -> (forall v, safe (f v)) -> safe (rbind F r f).
Proof.
  intros Hr Hf. apply safe_bind'; [exact Hr|]. intros [v em].
  apply safe_bind'; [apply Hf|]. intros [w em2]. apply safe_ok.
Qed.

Lemma safe_emit (r : R F) (K : evalue F * list (evalue F) -> R F) :
  safe r -> (forall v em, safe (K (v, em))) -> safe (bind r K).
Proof. intros Hr HK. apply safe_bind'; [exact Hr|]. intros [v em]. apply HK. Qed.

Definition safe_upto (next : bool -> bytes -> R F) (n : nat) : Prop :=
  forall it e, length e <= n -> safe (next it e).

(* the arm for a non-empty trim e goes on with trim e itself, so it is left standing in K *)
Lemma trimmed_safe {B} e (A : res B) (K : N -> bytes -> res B) :
  safe A -> (1 <= length (trim e) -> length (trim e) <= length e -> forall c t, safe (K c t)) ->
  safe (match trim e with [] => A | c :: t => K c t end).
Proof.
  intros HA HK. pose proof (trim_len e) as Ht.
  destruct (trim e) as [|c t]; [exact HA|]. apply HK; [apply le_n_S, Nat.le_0_l|exact Ht].
Qed.

Lemma operand_safe {next m} (Hn : safe_upto next m) n it lft op e :
  length e <= m -> safe (operand F O obj n next it lft op e).
Proof.
  intros Hm. unfold operand. cbv zeta.
  destruct (n =? 4).
  - pose proof (trim_len e) as Ht.
    eapply safe_bind_y; [apply strip_bangs_y; lia|]. intros [[neg b'] e'] He'.
    apply safe_rbind; [apply Hn; lia|]. intros rgt.
    apply safe_bind'; [safe_tac|intros; apply safe_lift, apply_op_safe].
  - apply trimmed_safe; [apply safe_err|]. intros _ Ht c t.
    apply safe_rbind; [apply Hn; lia|]. intros; apply safe_lift, apply_op_safe.
Qed.

Lemma sum_operand_safe {next m} (Hn : safe_upto next m) it lft op e neg :
  length e <= m -> safe (sum_operand F O obj next it lft op e neg).
Proof.
  intros Hm. unfold sum_operand. cbv zeta.
  apply trimmed_safe; [apply safe_err|]. intros _ Ht c t.
  apply safe_rbind; [apply Hn; lia|]. intros rgt.
  apply safe_bind'; [destruct neg; [apply op_mul_safe|apply safe_ok]|]. intros rgt'.
  destruct (op =? 43)%N; [apply safe_lift, op_add_safe|].
  destruct (op =? 45)%N; [apply safe_lift, op_sub_safe|apply safe_ret].
Qed.

(* Each loop stands at i with the current piece starting at s <= i; a step moves i forward, so fuel
   above length e - i lasts.  The three facts are one hypothesis: a step is one arithmetic goal. *)

Lemma scan_level_safe {next m} (Hn : safe_upto next m) n it e : length e <= m ->
  forall fuel i s lft op em, s <= i /\ s <= length e /\ length e - i < fuel ->
  safe (scan_level F O obj n next it e fuel i s lft op em).
Proof.
  intros Hm. induction fuel as [|fuel IH]; intros i s lft op em Hi; [lia|].
  cbn [scan_level].
  destruct (bat e i) as [c|] eqn:Eb.
  2:{ apply sfrom_safe; [lia|]. intros seg Hseg.
      apply safe_emit; [apply (operand_safe Hn); lia|]. intros; apply safe_ok. }
  apply bat_some in Eb.
  destruct (is_opener c).
  - apply skip_group_safe; [exact Eb|]. intros g Hg. apply IH; lia.
  - apply (safe_bind_y (recog_y n e i c Eb)). intros [| |opch opsz] Ha; try (apply IH; lia).
    cbn [fits] in Ha.
    apply slice_safe; [lia|]. intros seg Hseg.
    apply safe_emit; [apply (operand_safe Hn); lia|]. intros v em2. apply IH; lia.
Qed.

Lemma scan_sums_safe {next m} (Hn : safe_upto next m) it e : length e <= m ->
  forall fuel i s lft op fill neg em, s <= i /\ s <= length e /\ length e - i < fuel ->
  safe (scan_sums F O obj next it e fuel i s lft op fill neg em).
Proof.
  intros Hm. induction fuel as [|fuel IH]; intros i s lft op fill neg em Hi; [lia|].
  cbn [scan_sums].
  destruct (bat e i) as [c|] eqn:Eb.
  2:{ apply (safe_bind_y (sums_adjust_y e s neg ltac:(lia))). intros [s' neg'] Hs'.
      apply sfrom_safe; [lia|]. intros seg Hseg.
      apply safe_emit; [apply (sum_operand_safe Hn); lia|]. intros; apply safe_ok. }
  apply bat_some in Eb.
  assert (Hprev : forall (f : N -> bool),
            safe (if 0 <? i then bind (opt_panic (bat_pred e i)) (fun p => Ok (f p)) else Ok false)).
  { intros f. destruct (0 <? i) eqn:E0; [|apply safe_ok].
    eapply safe_bind_y; [apply bat_pred_y; lia|]. intros; apply safe_ok. }
  destruct ((c =? 45) || (c =? 43))%N.
  - destruct (negb fill); (apply safe_bind'; [apply Hprev|]).
    + intros dup. destruct dup; [apply safe_err|]. apply IH; lia.
    + intros sci. destruct sci; [apply IH; lia|].
      apply (safe_bind_y (sums_adjust_y e s neg ltac:(lia))). intros [s' neg'] Hs'.
      apply slice_safe; [lia|]. intros seg Hseg.
      apply safe_emit; [apply (sum_operand_safe Hn); lia|]. intros; apply IH; lia.
  - destruct (is_opener c); [|apply IH; lia].
    apply skip_group_safe; [exact Eb|]. intros g Hg. apply IH; lia.
Qed.

Lemma scan_comma_safe {next m} (Hn : safe_upto next m) it e : length e <= m ->
  forall fuel i s em, s <= i /\ s <= length e /\ length e - i < fuel ->
  safe (scan_comma F next it e fuel i s em).
Proof.
  intros Hm. induction fuel as [|fuel IH]; intros i s em Hi; [lia|].
  cbn [scan_comma].
  destruct (bat e i) as [c|] eqn:Eb.
  2:{ apply sfrom_safe; [lia|]. intros seg Hseg.
      apply safe_emit; [apply Hn; lia|]. intros; apply safe_ok. }
  apply bat_some in Eb.
  destruct (c =? 44)%N.
  - apply slice_safe; [lia|]. intros seg Hseg.
    apply safe_emit; [apply Hn; lia|]. intros; apply IH; lia.
  - destruct (is_opener c); [|apply IH; lia].
    apply skip_group_safe; [exact Eb|]. intros g Hg. apply IH; lia.
Qed.

Section LEVELS.
Context (rec : N -> bool -> bytes -> R F) (steps : N) (L : nat)
        (Hrec : forall st it e', length e' < L -> safe (rec st it e')).

Lemma eval_for_each_safe it e : length e < L -> safe (eval_for_each F rec it e).
Proof.
  intros H. unfold eval_for_each. cbv zeta.
  destruct (length (trim e) =? 0); [apply safe_ret|]. apply Hrec. exact (Nat.le_lt_trans _ _ _ (trim_len e) H).
Qed.

Lemma multi_safe e : length e < L -> safe (multi_exprs_to_array F O obj rec e).
Proof.
  intros H. unfold multi_exprs_to_array. apply safe_bind'; [apply eval_for_each_safe; exact H|].
  intros [v em]. induction em as [|x em IH]; [apply safe_ok|].
  apply safe_bind'; [apply to_string_safe|]. intros s. apply safe_bind'; [exact IH|]. intros; apply safe_ok.
Qed.

Lemma scan_terns_safe next it e : safe_upto next L -> length e <= L ->
  forall fuel i s cond depth, s <= i /\ length cond <= i /\ length e - i < fuel ->
  safe (scan_terns F O obj rec steps next it e fuel i s cond depth).
Proof.
  intros Hn HL. induction fuel as [|fuel IH]; intros i s cond depth Hi; [lia|].
  cbn [scan_terns].
  destruct (bat e i) as [c|] eqn:Eb.
  2:{ destruct (depth =? 0)%Z; [apply Hn, HL|apply safe_err]. }
  apply bat_some in Eb.
  destruct (c =? 63)%N.
  - apply safe_bind'.
    { destruct (S i <? length e) eqn:E1; [|apply safe_ok].
      eapply safe_bind_y; [apply bat_y; lia|]. intros; apply safe_ok. }
    intros skip. destruct skip; [apply IH; lia|].
    destruct (depth =? 0)%Z; [|apply IH; lia].
    apply slice_safe; [lia|]. intros cnd Hcnd. apply IH; lia.
  - destruct (c =? 58)%N.
    + destruct (depth - 1 =? 0)%Z; [|apply IH; lia].
      apply slice_safe; [lia|]. intros l Hl.
      apply sfrom_safe; [lia|]. intros r Hr.
      apply safe_rbind; [apply Hrec; lia|]. intros cv.
      apply safe_bind'; [apply to_bool_safe|]. intros t. destruct t; apply Hrec; lia.
    + destruct (is_opener c); [|apply IH; lia].
      apply skip_group_safe; [exact Eb|]. intros g Hg. apply IH; lia.
Qed.

(* case '.' of the chain loop, with the continuation abstracted *)
Lemma member_safe (K : bytes -> evalue F -> R F) lft (e0 : bytes) (oc : bool) :
  1 <= length e0 -> (forall e2 val, length e2 < length e0 -> safe (K e2 val)) ->
  safe (bind (opt_panic (sfrom e0 1)) (fun e1 =>
          match read_ident (trim e1) with
          | None => Err ESyntax
          | Some ident =>
              bind (get_ref_value F O obj true lft ident oc) (fun val =>
              bind (opt_panic (sfrom (trim e1) (length ident))) (fun e2 => K e2 val))
          end)).
Proof.
  intros H1 HK. apply sfrom_safe; [exact H1|]. intros e1 He1.
  pose proof (trim_len e1) as Ht.
  destruct (read_ident (trim e1)) as [ident|] eqn:Ei; [|apply safe_err].
  apply read_ident_len in Ei.
  apply safe_bind'; [apply get_ref_value_safe|]. intros val.
  apply sfrom_safe; [lia|]. intros e2 He2. apply HK. lia.
Qed.

Lemma atom_chain_safe : forall fuel it e lft ll h oc, length e < fuel /\ length e <= L ->
  safe (atom_chain F O obj rec steps fuel it e lft ll h oc).
Proof.
  induction fuel as [|fuel IH]; intros it e lft ll h oc He; [lia|].
  cbn [atom_chain]. cbv beta zeta.
  apply trimmed_safe; [apply safe_ret|]. intros Hl1 Ht c t.
  destruct (c =? 63)%N.
  - destruct (length (trim e) =? 1) eqn:E1; [apply safe_err|].
    eapply safe_bind_y; [apply bat_y; lia|]. intros c1 _.
    destruct (negb (c1 =? 46)%N); [apply safe_err|].
    apply sfrom_safe; [lia|]. intros e1 He1.
    apply member_safe; [lia|].
    intros e2 val H2. apply IH; lia.
  - destruct (c =? 46)%N.
    + apply member_safe; [lia|].
      intros e2 val H2. apply IH; lia.
    + destruct ((c =? 40) || (c =? 91))%N; [|apply safe_err].
      apply (safe_bind_y (read_group_len_y _ Hl1)). intros g Hg.
      eapply safe_bind_y; [apply bat_y; lia|]. intros g0 _.
      apply slice_safe; [lia|]. intros inner Hin.
      apply sfrom_safe; [lia|]. intros rest Hrest.
      destruct (g0 =? 40)%N.
      * destruct lft; try apply safe_err.
        apply safe_bind'; [apply multi_safe; lia|]. intros args.
        apply safe_bind'; [apply ext_call_safe|]. intros val. apply IH; lia.
      * apply safe_rbind; [apply Hrec; lia|]. intros last.
        apply safe_bind'; [apply to_string_safe|]. intros ident.
        apply safe_bind'; [apply get_ref_value_safe|]. intros val. apply IH; lia.
Qed.

Lemma eval_atom_safe it e : length e <= L -> safe (eval_atom F O obj rec steps it e).
Proof.
  intros HL. unfold eval_atom. cbv beta zeta.
  apply trimmed_safe; [apply safe_err|]. intros Hl1 Ht c t.
  assert (Hchain : forall lft rest, length rest <= L ->
            safe (atom_chain F O obj rec steps (S (length rest)) it rest lft (VUndef F) false false))
    by (intros; apply atom_chain_safe; lia).
  destruct ((c =? 48)%N || (c =? 45)%N || (c =? 46)%N || ((49 <=? c) && (c <=? 57))%N);
    [apply safe_lift, atom_number_safe, Hl1|].
  destruct ((c =? 34) || (c =? 39))%N.
  { apply (safe_bind_y (parse_string_y (trim e))). intros [[s rawlen]|] Hp; [|apply safe_err].
    cbn [raw_within] in Hp.
    apply sfrom_safe; [exact Hp|]. intros rest Hr. apply Hchain. lia. }
  destruct ((c =? 40) || (c =? 123) || (c =? 91))%N.
  { (* the model reads inner before, rest after the evaluation of the inside *)
    apply (safe_bind_y (read_group_len_y _ Hl1)). intros g Hg.
    eapply safe_bind_y; [apply bat_y; lia|]. intros g0 _.
    assert (Hrest : forall lft, safe (do rest <- opt_panic (sfrom (trim e) (length g));
              atom_chain F O obj rec steps (S (length rest)) it rest lft (VUndef F) false false)).
    { intros lft. apply sfrom_safe; [lia|]. intros rest Hrest. apply Hchain. lia. }
    destruct (g0 =? 40)%N; [|destruct (g0 =? 91)%N; [|apply safe_err]];
      (apply slice_safe; [lia|]; intros inner Hin).
    - apply safe_rbind; [apply Hrec; lia|]. intros lft. apply Hrest.
    - apply safe_bind'; [apply multi_safe; lia|]. intros items. apply Hrest. }
  destruct (read_ident (trim e)) as [ident|] eqn:Ei; [|apply safe_err].
  apply read_ident_len in Ei.
  apply safe_bind'; [safe_tac|]. intros lft.
  apply sfrom_safe; [lia|]. intros rest Hrest. apply Hchain. lia.
Qed.

Lemma level_scan_safe n next : safe_upto next L -> safe_upto (level_scan F O obj rec steps n next) L.
Proof.
  intros Hn it e HL. unfold level_scan.
  assert (Hlv : forall k, safe (scan_level F O obj k next it e (S (length e)) 0 0 (VUndef F) 0%N []))
    by (intros; apply (scan_level_safe Hn); [exact HL|lia]).
  do 2 (destruct n as [|n]; [apply Hlv|]).
  destruct n as [|n]; [apply (scan_sums_safe Hn); [exact HL|lia]|].
  do 7 (destruct n as [|n]; [apply Hlv|]).
  destruct n as [|n]; [apply scan_terns_safe; [exact Hn|exact HL|cbn [length]; lia]|].
  destruct n as [|n]; [apply (scan_comma_safe Hn); [exact HL|lia]|]. apply Hlv.
Qed.

Lemma eval_auto_safe n : safe_upto (eval_auto F O obj rec steps n) L.
Proof.
  induction n as [|m IH]; intros it e HL; [apply eval_atom_safe; exact HL|].
  cbn [eval_auto]. destruct (has_step steps (S m)); [apply (level_scan_safe _ _ IH)|apply IH]; exact HL.
Qed.

End LEVELS.

Lemma eval_expr_safe : forall d steps it e, length e < d -> safe (eval_expr F O obj d steps it e).
Proof.
  induction d as [|d IH]; intros steps it e Hd; [lia|].
  cbn [eval_expr]. apply (eval_auto_safe (eval_expr F O obj d) steps d); [|lia].
  intros st it' e' H. apply IH; exact H.
Qed.

End WXS.

Theorem eval_safe : forall (F : Type) (O : oracle F) (obj : eobj F) (e : bytes),
  eval F O obj e <> Panic /\ eval F O obj e <> NoFuel.
Proof.
  intros F O obj e. unfold eval. apply safe_bind'; [|intros; apply safe_ok].
  apply (eval_for_each_safe F (eval_expr F O obj (S (length e))) (S (length e))); [|lia].
  intros st it e' H. apply eval_expr_safe. exact H.
Qed.

Theorem match_expr_safe : forall (F : Type) (O : oracle F) (obj : eobj F) (e : bytes),
  match_expr F O obj e <> Panic /\ match_expr F O obj e <> NoFuel.
Proof.
  intros F O obj e. unfold match_expr. pose proof (eval_safe F O obj e) as [H1 H2].
  destruct (eval F O obj e); try congruence; [apply to_bool_safe|apply safe_ok|apply safe_outside].
Qed.

Theorem read_group_safe : forall data, data <> [] -> read_group data <> Panic /\ read_group data <> NoFuel.
Proof.
  intros [|c t] H; [congruence|]. exact (yields_safe (read_group_y (c :: t) (Nat.lt_0_succ _))).
Qed.

Theorem parse_string_safe : forall data, parse_string data <> Panic /\ parse_string data <> NoFuel.
Proof. intros data. exact (yields_safe (parse_string_y data)). Qed.
