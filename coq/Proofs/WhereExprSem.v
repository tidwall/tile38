(* Proofs/WhereExprSem.v — evaluating the printed text of a filter tree is the denotation of the
   tree (Model/WhereExprTree.v), for the transcribed evaluator of Model/WhereExpr.v.

   A position in a text e is  cut e i p (x ++ post)  (Proofs/WhereExprSafe.v): e stays, a loop that
   advances moves i and hands bytes of the rest over to the prefix p, whose last byte is what the
   evaluator sees when it looks behind.  The loops carry fuel; a lemma that follows a loop over a
   stretch x asks for more fuel than x ++ post has bytes and arrives with S fuel', fuel' at least
   the length of post (every iteration consumes at least one byte), so no loop needs a
   fuel-irrelevance lemma. *)
From Coq Require Import List NArith ZArith Bool Lia.
From Coq Require Import ZifyN ZifyNat ZifyBool.
From T38 Require Import Base.Bytes Model.WhereExpr Model.WhereExprTree Proofs.WhereExprSafe.
Import ListNotations.
Local Open Scope nat_scope.

Lemma bat_app_r (a b : bytes) k : bat (a ++ b) (length a + k) = bat b k.
Proof. unfold bat. rewrite nth_error_app2 by lia. f_equal. lia. Qed.

Lemma bat_app_l (a b : bytes) k : k < length a -> bat (a ++ b) k = bat a k.
Proof. intros. unfold bat. apply nth_error_app1. assumption. Qed.

Lemma bat_cons0 c (r : bytes) : bat (c :: r) 0 = Some c.
Proof. reflexivity. Qed.

Lemma bat_end (e : bytes) : bat e (length e) = None.
Proof. apply nth_error_None, le_n. Qed.

Lemma sfrom_0 (a : bytes) : sfrom a 0 = Some a.
Proof. reflexivity. Qed.

Lemma sfrom_all (a : bytes) : sfrom a (length a) = Some [].
Proof. unfold sfrom. rewrite Nat.leb_refl, skipn_all. reflexivity. Qed.

Lemma last_byte_app (a : bytes) c : last_byte (a ++ [c]) = Some c.
Proof. exact (cut_bat_pred (conj (eq_sym (app_nil_r _)) eq_refl)). Qed.

Definition nonspace_ends (s : bytes) : Prop :=
  exists c m d, (s = [c] \/ s = c :: m ++ [d]) /\ isspace c = false /\ isspace d = false.

Lemma trim_left_nonspace c r : isspace c = false -> trim_left (c :: r) = c :: r.
Proof. intros H. cbn. rewrite H. reflexivity. Qed.

Lemma trim_tight s : nonspace_ends s -> trim s = s.
Proof.
  intros (c & m & d & [-> | ->] & Hc & Hd); unfold trim.
  - cbn. rewrite Hc. cbn. rewrite Hc. reflexivity.
  - rewrite trim_left_nonspace by assumption.
    change (c :: m ++ [d]) with ((c :: m) ++ [d]). rewrite rev_app_distr. cbn [rev app].
    rewrite trim_left_nonspace by assumption.
    change (d :: rev m ++ [c]) with ((d :: rev m) ++ [c]). rewrite rev_app_distr. cbn [rev app].
    rewrite rev_involutive. reflexivity.
Qed.

Lemma trim_space_l s : trim (32%N :: s) = trim s.
Proof. reflexivity. Qed.

Lemma trim_left_app s t :
  trim_left (s ++ t) = match trim_left s with [] => trim_left t | r => r ++ t end.
Proof.
  induction s as [|c s IH]; cbn [app trim_left]; [destruct (trim_left t); reflexivity|].
  destruct (isspace c); [exact IH | reflexivity].
Qed.

Lemma trim_app_space s : trim (s ++ [32%N]) = trim s.
Proof.
  unfold trim. rewrite trim_left_app.
  destruct (trim_left s) as [|c r] eqn:E; [reflexivity|].
  rewrite rev_app_distr. reflexivity.
Qed.

Lemma trim_space_r s : nonspace_ends s -> trim (s ++ [32%N]) = s.
Proof. intros H. rewrite trim_app_space. apply trim_tight. exact H. Qed.

Lemma nonspace_ends_of s : s <> [] -> Forall (fun c => isspace c = false) s -> nonspace_ends s.
Proof.
  intros Hne Hall. destruct (exists_last Hne) as (m' & d & ->).
  apply Forall_app in Hall. destruct Hall as [Hm' Hd]. inversion Hd as [|? ? Hd' _]; subst.
  destruct m' as [|c m].
  - exists d, [], d. auto.
  - exists c, m, d. inversion Hm'; subst. auto.
Qed.

Lemma nonspace_ends_concat a mid b : nonspace_ends a -> nonspace_ends b -> nonspace_ends (a ++ mid ++ b).
Proof.
  intros (c & m & d & Ha & Hc & _) (c' & m' & d' & Hb & Hc' & Hd').
  assert (Ha' : exists r, a = c :: r) by (destruct Ha as [-> | ->]; eexists; reflexivity).
  assert (Hb' : exists r z, b = r ++ [z] /\ isspace z = false).
  { destruct Hb as [-> | ->]; [exists [], c' | exists (c' :: m'), d']; auto. }
  destruct Ha' as (r & ->), Hb' as (r' & z & -> & Hz).
  exists c, (r ++ mid ++ r'), z. split; [right | auto]. cbn [app]. rewrite <- !app_assoc. reflexivity.
Qed.

Definition paren (x : bytes) : bytes := 40%N :: x ++ [41%N].

Lemma paren_ends x : nonspace_ends (paren x).
Proof. exists 40%N, x, 41%N. auto. Qed.

Definition lit_byte (c : N) : Prop := safe_char c = true.

Lemma lit_byte_tests c : lit_byte c -> (c <? 32)%N = false /\ (c =? 34)%N = false /\ (c =? 92)%N = false.
Proof. unfold lit_byte, safe_char. lia. Qed.

(* bytes that squash's outer loop only steps over *)
Definition plain_sq (c : N) : bool :=
  negb ((c =? 34) || (c =? 39) || (c =? 123) || (c =? 91) || (c =? 40) || (c =? 125) || (c =? 93) || (c =? 41))%N.

Inductive bal : bytes -> Prop :=
| bal_nil : bal []
| bal_plain c r : plain_sq c = true -> bal r -> bal (c :: r)
| bal_str s r : Forall lit_byte s -> bal r -> bal (34%N :: s ++ 34%N :: r)
| bal_paren x r : bal x -> bal r -> bal (40%N :: x ++ 41%N :: r).

Lemma bal_app a b : bal a -> bal b -> bal (a ++ b).
Proof.
  induction 1; intros Hb; cbn [app]; try rewrite <- app_assoc; cbn [app]; auto using bal.
Qed.

Lemma bal_plain_run s r : Forall (fun c => plain_sq c = true) s -> bal r -> bal (s ++ r).
Proof. induction 1; cbn [app]; auto using bal. Qed.

Section Squash.
Variable data : bytes.

(* the quote loop on an escape-free literal stops on the closing quote; the byte b before the
   literal's first byte is the opening quote or a byte of the literal, never a backslash *)
Lemma sq_quote_lit s2 : forall s i p b post fuel,
  cut data i (p ++ [b]) (s ++ 34%N :: post) -> Forall lit_byte s -> (b =? 92)%N = false -> length s < fuel ->
  sq_quote data fuel i s2 34%N = Ok (i + length s).
Proof.
  induction s as [|c s IH]; intros i p b post [|fuel] Hd Hs Hb Hf; cbn [length] in Hf; try lia;
    cbn [sq_quote]; rewrite (cut_bat Hd); cbn [app hd_error].
  - rewrite (cut_bat_pred Hd). cbn [opt_panic bind]. rewrite Hb, Nat.add_0_r. reflexivity.
  - inversion Hs as [|? ? Hc Hs']; subst. destruct (lit_byte_tests c Hc) as (_ & H34 & H92).
    assert (Hgo : sq_quote data fuel (S i) s2 34%N = Ok (i + S (length s))).
    { rewrite Nat.add_succ_r. apply IH with (1 := cut_cons Hd); [exact Hs' | exact H92 | lia]. }
    rewrite H34. destruct (92 <? c)%N; exact Hgo.
Qed.

Lemma sq_loop_plain fuel i d c : bat data i = Some c -> plain_sq c = true ->
  sq_loop data (S fuel) i d = sq_loop data fuel (S i) d.
Proof.
  intros Hb Hc. cbn [sq_loop]. rewrite Hb. apply negb_true_iff in Hc.
  do 7 (apply orb_false_elim in Hc; destruct Hc as [Hc K]; rewrite K; clear K). rewrite Hc.
  destruct ((c <? 34) || (125 <? c))%N; reflexivity.
Qed.

Lemma sq_loop_quote fuel i d : bat data i = Some 34%N ->
  sq_loop data (S fuel) i d =
    do j <- sq_quote data (S (length data)) (S i) (S i) 34%N;
    if (d =? 0)%Z then (if length data <=? j then Ok None else Ok (Some j)) else sq_loop data fuel (S j) d.
Proof. intros Hb. cbn [sq_loop]. rewrite Hb. reflexivity. Qed.

Lemma sq_loop_open fuel i d : bat data i = Some 40%N ->
  sq_loop data (S fuel) i d = sq_loop data fuel (S i) (d + 1)%Z.
Proof. intros Hb. cbn [sq_loop]. rewrite Hb. reflexivity. Qed.

Lemma sq_loop_close fuel i d : bat data i = Some 41%N ->
  sq_loop data (S fuel) i d = if (d - 1 =? 0)%Z then Ok (Some i) else sq_loop data fuel (S i) (d - 1)%Z.
Proof. intros Hb. cbn [sq_loop]. rewrite Hb. reflexivity. Qed.

Lemma sq_loop_bal : forall x, bal x -> forall i p post fuel d,
  cut data i p (x ++ post) -> (1 <= d)%Z -> length (x ++ post) < fuel ->
  exists fuel', length post <= fuel' /\ sq_loop data fuel i d = sq_loop data (S fuel') (i + length x) d.
Proof.
  induction 1 as [|c r Hc Hr IH|s r Hs Hr IH|x r Hx IHx Hr IHr]; intros i p post [|fuel] d Hd H1 Hf;
    cbn [app length] in *; try lia.
  - exists fuel. rewrite Nat.add_0_r. split; [lia | reflexivity].
  - rewrite (sq_loop_plain _ _ _ c (cut_bat Hd) Hc), Nat.add_succ_r. apply IH with (1 := cut_cons Hd); [exact H1 | lia].
  - pose proof (cut_cons Hd) as Hd'. rewrite <- app_assoc in Hd'. cbn [app] in Hd'.
    rewrite (sq_loop_quote _ _ _ (cut_bat Hd)), (sq_quote_lit _ _ _ _ _ _ _ Hd'); auto.
    2:{ apply cut_len in Hd. cbn [length] in Hd. rewrite !app_length in Hd. lia. }
    cbn [bind]. replace (d =? 0)%Z with false by lia.
    rewrite !app_length in Hf. rewrite !app_length. cbn [length] in Hf |- *.
    replace (i + S (length s + S (length r))) with (S (S i + length s) + length r) by lia.
    apply IH with (1 := cut_cons (cut_app s _ Hd')); [exact H1|rewrite app_length; lia].
  - pose proof (cut_cons Hd) as Hd'. rewrite <- app_assoc in Hd'. cbn [app] in Hd'.
    rewrite (sq_loop_open _ _ _ (cut_bat Hd)).
    rewrite !app_length in Hf. rewrite !app_length. cbn [length] in Hf |- *.
    assert (Hfx : length (x ++ 41%N :: r ++ post) < fuel)
      by (rewrite app_length; cbn [length]; rewrite app_length; lia).
    destruct (IHx _ _ _ fuel (d + 1)%Z Hd' ltac:(lia) Hfx) as (f1 & Hf1 & ->). cbn [length] in Hf1.
    apply (cut_app x) in Hd'.
    rewrite (sq_loop_close _ _ _ (cut_bat Hd')). replace (d + 1 - 1 =? 0)%Z with false by lia.
    replace (d + 1 - 1)%Z with d by lia.
    replace (i + S (length x + S (length r))) with (S (S i + length x) + length r) by lia.
    apply IHr with (1 := cut_cons Hd'); [exact H1 | lia].
Qed.

End Squash.

Definition good_group (g : bytes) : Prop :=
  (exists c r, g = c :: r /\ is_opener c = true) /\ forall rest, read_group (g ++ rest) = Ok g.

Lemma good_group_pos g : good_group g -> 1 <= length g.
Proof. intros [(c & r & -> & _) _]. cbn [length]. lia. Qed.

Lemma good_group_self g : good_group g -> read_group g = Ok g.
Proof. intros [_ H]. rewrite <- (app_nil_r g) at 1. apply H. Qed.

Lemma good_group_intro c0 m : is_opener c0 = true ->
  (forall rest, squash (c0 :: m ++ closech c0 :: rest) = Ok (Some (S (length m)))) ->
  good_group (c0 :: m ++ [closech c0]).
Proof.
  intros Ho Hsq. split; [exists c0, (m ++ [closech c0]); auto|]. intros rest.
  set (g := c0 :: m ++ [closech c0]).
  assert (Hl : length g = S (S (length m))) by (unfold g; cbn [length]; rewrite app_length; cbn [length]; lia).
  assert (E : g ++ rest = c0 :: m ++ closech c0 :: rest) by (unfold g; cbn [app]; rewrite <- app_assoc; reflexivity).
  unfold read_group. rewrite E, Hsq, <- E. cbn [bind]. rewrite <- Hl.
  rewrite (cut_slice g rest (cut_0 _) : slice _ 0 (length g) = _). cbn [opt_panic bind].
  rewrite Hl. cbn [Nat.ltb Nat.leb]. change g with ((c0 :: m) ++ [closech c0]). rewrite last_byte_app.
  cbn [opt_panic bind app bat nth_error]. rewrite N.eqb_refl. reflexivity.
Qed.

Lemma good_group_paren x : bal x -> good_group (40%N :: x ++ [41%N]).
Proof.
  intros Hx. apply (good_group_intro 40%N x eq_refl). intros rest. change (closech 40%N) with 41%N.
  set (data := 40%N :: x ++ 41%N :: rest).
  change (squash data) with (sq_loop data (S (length data)) 1 1%Z).
  assert (Hc : cut data 1 [40%N] (x ++ 41%N :: rest)) by (split; reflexivity).
  destruct (sq_loop_bal data x Hx 1 _ _ (S (length data)) 1%Z Hc ltac:(lia)
              ltac:(unfold data; cbn [length]; lia)) as (f & _ & ->).
  rewrite (sq_loop_close data f (1 + length x) 1%Z (cut_bat (cut_app x _ Hc))). reflexivity.
Qed.

Lemma good_group_str s : Forall lit_byte s -> good_group (34%N :: s ++ [34%N]).
Proof.
  intros Hs. apply (good_group_intro 34%N s eq_refl). intros rest. change (closech 34%N) with 34%N.
  set (data := 34%N :: s ++ 34%N :: rest).
  assert (Hl : length data = S (length s + S (length rest))) by (unfold data; cbn [length]; rewrite app_length; reflexivity).
  change (squash data) with (sq_loop data (S (length data)) 0 0%Z).
  rewrite (sq_loop_quote data _ 0 0%Z eq_refl), (sq_quote_lit data 1 s 1 [] 34%N rest); auto; [|split; reflexivity|lia].
  cbn [bind Z.eqb]. replace (length data <=? 1 + length s) with false by (symmetry; apply Nat.leb_gt; lia).
  reflexivity.
Qed.

Lemma ps_loop_lit data : forall s i p post fuel,
  cut data i p (s ++ 34%N :: post) -> Forall lit_byte s -> length s < fuel ->
  ps_loop data fuel i 34%N false
  = do t <- opt_panic (slice data 1 (i + length s)); Ok (Some (t, S (i + length s))).
Proof.
  induction s as [|c s IH]; intros i p post [|fuel] Hd Hs Hf; cbn [length] in Hf; try lia;
    cbn [ps_loop]; rewrite (cut_bat Hd); cbn [app hd_error].
  - cbn [length]. rewrite Nat.add_0_r. reflexivity.
  - inversion Hs as [|? ? Hc Hs']; subst. destruct (lit_byte_tests c Hc) as (-> & -> & ->).
    cbn [length]. rewrite Nat.add_succ_r. apply IH with (1 := cut_cons Hd); [exact Hs' | lia].
Qed.

Lemma parse_string_lit s rest : Forall lit_byte s ->
  parse_string (34%N :: s ++ 34%N :: rest) = Ok (Some (s, S (S (length s)))).
Proof.
  intros Hs. set (data := 34%N :: s ++ 34%N :: rest).
  assert (Hl : length data = S (length s + S (length rest))) by (unfold data; cbn [length]; rewrite app_length; reflexivity).
  unfold parse_string. replace (length data <? 2) with false by (symmetry; apply Nat.ltb_ge; lia).
  change (bat data 0) with (Some 34%N). cbn [opt_panic bind].
  assert (Hc : cut data 1 [34%N] (s ++ 34%N :: rest)) by (split; reflexivity).
  rewrite (ps_loop_lit data s 1 _ rest _ Hc Hs) by lia.
  rewrite (cut_slice s _ Hc). reflexivity.
Qed.

(* the bytes on which the loop of level n does anything but advance: the switch of levels
   9 ... 3 and 1 (recog), the operators of evalComma (11), evalTerns (10), evalSums (2) *)
Definition trigger (n : nat) (c : N) : bool :=
  match n with
  | 1 => ((c =? 42) || (c =? 47) || (c =? 37))%N
  | 2 => ((c =? 45) || (c =? 43))%N
  | 3 => ((c =? 60) || (c =? 62))%N
  | 4 => ((c =? 61) || (c =? 33))%N
  | 5 => (c =? 38)%N
  | 6 => (c =? 94)%N
  | 7 => (c =? 124)%N
  | 8 => (c =? 38)%N
  | 9 => ((c =? 63) || (c =? 124))%N
  | 10 => ((c =? 63) || (c =? 58))%N
  | 11 => (c =? 44)%N
  | _ => false
  end.

Lemma recog_untriggered n e i c : trigger n c = false -> recog n e i c = Ok ANone.
Proof.
  intros H.
  destruct n as [|[|[|[|[|[|[|[|[|[|n]]]]]]]]]]; cbn [trigger recog] in *; try reflexivity;
    try (rewrite H; reflexivity); apply orb_false_elim in H; destruct H as [-> ->]; reflexivity.
Qed.

(* no level above 11 reacts to anything, so that for a given byte the levels above L are a finite check *)
Lemma trigger_above L c n :
  forallb (fun m => negb (trigger m c)) (seq (S L) (11 - L)) = true -> L < n -> trigger n c = false.
Proof.
  intros H Hn. destruct (Nat.le_gt_cases n 11) as [Hle|Hgt].
  - apply negb_true_iff, (proj1 (forallb_forall _ _) H), in_seq. lia.
  - replace n with (12 + (n - 12)) by lia. reflexivity.
Qed.

Lemma opener_no_op c : is_opener c = true ->
  (c =? 44)%N = false /\ ((c =? 63) || (c =? 58))%N = false /\ ((c =? 45) || (c =? 43))%N = false.
Proof. unfold is_opener. lia. Qed.

(* a text seen from a scanning loop: single bytes and whole groups *)
Inductive item := IChar (c : N) | IGroup (g : bytes).
Definition item_bytes (it : item) : bytes := match it with IChar c => [c] | IGroup g => g end.
Fixpoint flat (l : list item) : bytes :=
  match l with [] => [] | it :: r => item_bytes it ++ flat r end.

Lemma flat_app a b : flat (a ++ b) = flat a ++ flat b.
Proof. induction a as [|x a IH]; cbn [app flat]; [reflexivity|]. rewrite IH, app_assoc. reflexivity. Qed.

Lemma flat_chars s : flat (map IChar s) = s.
Proof. induction s as [|c s IH]; cbn [map flat item_bytes app]; congruence. Qed.

Inductive quiet (Q : nat -> N -> Prop) : nat -> list item -> Prop :=
| q_nil i : quiet Q i []
| q_char i c r : Q i c -> quiet Q (S i) r -> quiet Q i (IChar c :: r)
| q_group i g r : good_group g -> quiet Q (i + length g) r -> quiet Q i (IGroup g :: r).

Lemma quiet_app (Q : nat -> N -> Prop) : forall l1 i l2,
  quiet Q i l1 -> quiet Q (i + length (flat l1)) l2 -> quiet Q i (l1 ++ l2).
Proof.
  induction l1 as [|x l1 IH]; intros i l2 H1 H2; cbn [app flat length] in *.
  - rewrite Nat.add_0_r in H2. exact H2.
  - rewrite app_length in H2.
    inversion H1; subst; constructor; auto; apply IH; auto; cbn [item_bytes length] in H2.
    + rewrite Nat.add_succ_r in H2. exact H2.
    + rewrite Nat.add_assoc in H2. exact H2.
Qed.

Lemma quiet_all (Q : nat -> N -> Prop) l :
  Forall (fun x => match x with IChar c => forall i, Q i c | IGroup g => good_group g end) l ->
  forall i, quiet Q i l.
Proof. induction 1 as [|[c|g] l Hx Hl IH]; intros i; constructor; auto. Qed.

Lemma quiet_chars (Q : nat -> N -> Prop) cs : Forall (fun c => forall i, Q i c) cs -> forall i, quiet Q i (map IChar cs).
Proof. intros H. apply quiet_all. apply Forall_map. exact H. Qed.

(* A fuelled loop over the bytes of e, with the part of its state that may change in A, that
   advances over a byte satisfying Q and does on an opening byte what every scanning loop of the
   evaluator does (readGroup on the rest, go on behind the group), advances over a quiet list of
   items. *)
Section Skip.
Variables (A B : Type) (e : bytes) (loop : nat -> nat -> A -> res B) (Q : nat -> N -> Prop).
Hypothesis on_char : forall fuel i c a, bat e i = Some c -> Q i c ->
  exists a', loop (S fuel) i a = loop fuel (S i) a'.
Hypothesis on_opener : forall fuel i c a, bat e i = Some c -> is_opener c = true -> exists a',
  loop (S fuel) i a = do t <- opt_panic (sfrom e i); do g <- read_group t; loop fuel (S (i + length g - 1)) a'.

Lemma skip_quiet : forall l i p post fuel a,
  cut e i p (flat l ++ post) -> quiet Q i l -> length (flat l ++ post) < fuel ->
  exists fuel' a', length post <= fuel' /\ loop fuel i a = loop (S fuel') (i + length (flat l)) a'.
Proof.
  induction l as [|x l IH]; intros i p post fuel a Hs Hq Hf; cbn [flat] in *.
  - destruct fuel as [|fuel]; [cbn [app] in Hf; lia|]. exists fuel, a. rewrite Nat.add_0_r. split; [apply Nat.lt_succ_r, Hf | reflexivity].
  - rewrite <- app_assoc in Hs. rewrite <- app_assoc, app_length in Hf. rewrite app_length, Nat.add_assoc.
    destruct fuel as [|fuel]; [lia|].
    inversion Hq as [|? c r Hc Hq'|? g r Hg Hq']; subst; cbn [item_bytes app length] in *.
    + destruct (on_char fuel i c a (cut_bat Hs) Hc) as (a1 & ->). rewrite Nat.add_1_r.
      apply IH with (1 := cut_cons Hs); [exact Hq' | lia].
    + pose proof (good_group_pos g Hg) as Hl. destruct Hg as [(c & r' & Hc & Ho) Hg].
      destruct (on_opener fuel i c a) as (a1 & ->); [rewrite (cut_bat Hs), Hc; reflexivity | exact Ho |].
      rewrite (cut_sfrom Hs). cbn [opt_panic bind]. rewrite Hg. cbn [bind].
      replace (S (i + length g - 1)) with (i + length g) by lia.
      apply IH with (1 := cut_app g _ Hs); [exact Hq' | lia].
Qed.
End Skip.

(* the same for a loop whose whole state is its position *)
Lemma skip_quiet_pos (B : Type) (e : bytes) (loop : nat -> nat -> res B) (Q : nat -> N -> Prop) :
  (forall fuel i c, bat e i = Some c -> Q i c -> loop (S fuel) i = loop fuel (S i)) ->
  (forall fuel i c, bat e i = Some c -> is_opener c = true ->
     loop (S fuel) i = do t <- opt_panic (sfrom e i); do g <- read_group t; loop fuel (S (i + length g - 1))) ->
  forall l i p post fuel,
  cut e i p (flat l ++ post) -> quiet Q i l -> length (flat l ++ post) < fuel ->
  exists fuel', length post <= fuel' /\ loop fuel i = loop (S fuel') (i + length (flat l)).
Proof.
  intros Hc Hg l i p post fuel Hs Hq Hf.
  destruct (skip_quiet unit B e (fun f j _ => loop f j) Q) with (l := l) (i := i) (p := p) (post := post) (fuel := fuel) (a := tt)
    as (fuel' & _ & H); eauto.
Qed.

Section Sem.
Context {F : Type} (O : oracle F) (obj : eobj F).
Notation V := (evalue F).

Lemma rbind_ret_r (r : R F) : rbind F r (fun v => ret F v) = r.
Proof.
  unfold rbind, ret. destruct r as [[v em]| | | |]; cbn [bind]; try reflexivity.
  rewrite app_nil_r. reflexivity.
Qed.

Lemma rbind_ext (r : R F) f g : (forall v, f v = g v) -> rbind F r f = rbind F r g.
Proof. intros H. unfold rbind. destruct r as [[v em]| | | |]; cbn [bind]; rewrite ?H; reflexivity. Qed.

Lemma bind_pair_id {A B} (r : res (A * B)) : (do ve <- r; let '(v, em) := ve in Ok (v, em)) = r.
Proof. destruct r as [[a b]| | | |]; reflexivity. Qed.

Lemma apply_op_zero n (l r : V) : apply_op F O obj n 0%N l r = Ok r.
Proof. destruct n as [|[|[|[|[|[|[|[|[|[|n]]]]]]]]]]; reflexivity. Qed.

(* the operand functions on a text whose trimmed form does not start with '!' (only equal()
   looks for one) *)
Lemma operand_tight n next it (lft : V) op s' s c r :
  trim s' = s -> s = c :: r -> (n =? 4) && (c =? 33)%N = false ->
  operand F O obj n next it lft op s' =
    rbind F (next it s) (fun rgt => lift F (apply_op F O obj n op lft rgt)).
Proof.
  intros Ht -> Hb. unfold operand. rewrite Ht. destruct (n =? 4); [|reflexivity].
  cbn [andb] in Hb. cbn [strip_bangs length]. rewrite Hb. reflexivity.
Qed.

Lemma operand_first n next it s c r :
  trim s = s -> s = c :: r -> (n =? 4) && (c =? 33)%N = false ->
  operand F O obj n next it (VUndef F) 0%N s = next it s.
Proof.
  intros Ht Hs Hb. rewrite (operand_tight _ _ _ _ _ s s c r Ht Hs Hb).
  rewrite (rbind_ext _ _ (ret F)); [apply rbind_ret_r|]. intros v. rewrite apply_op_zero. reflexivity.
Qed.

Definition special (n : nat) : bool := (n =? 11) || (n =? 10) || (n =? 2).
Definition passes (n : nat) (e : bytes) (i : nat) (c : N) : Prop :=
  is_opener c = false /\ if special n then trigger n c = false else recog n e i c = Ok ANone.

Lemma passes_untriggered n e i c : is_opener c = false -> trigger n c = false -> passes n e i c.
Proof. intros Ho Ht. split; [exact Ho|]. destruct (special n); [exact Ht | apply recog_untriggered, Ht]. Qed.

Section Loops.
Variable n : nat.
Variable next : bool -> bytes -> R F.
Variable it : bool.
Variable e : bytes.

Notation scan := (scan_level F O obj n next it e).

Lemma scan_level_split fuel i s lft op em c opch k seg :
  bat e i = Some c -> is_opener c = false -> recog n e i c = Ok (ASplit opch (S k)) ->
  slice e s i = Some seg ->
  scan (S fuel) i s lft op em =
    do ve <- operand F O obj n next it lft op seg;
    let '(v, em2) := ve in scan fuel (i + S k) (i + S k) v opch (em ++ em2).
Proof.
  intros Hb Ho Hr Hs. cbn [scan_level]. rewrite Hb, Ho, Hr. cbn [bind]. rewrite Hs. cbn [opt_panic bind].
  replace (S (i + S k - 1)) with (i + S k) by lia. reflexivity.
Qed.

Lemma scan_level_end fuel i s lft op em seg :
  bat e i = None -> sfrom e s = Some seg ->
  scan (S fuel) i s lft op em =
    do ve <- operand F O obj n next it lft op seg; let '(v, em2) := ve in Ok (v, em ++ em2).
Proof. intros Hb Hs. cbn [scan_level]. rewrite Hb, Hs. reflexivity. Qed.

Lemma scan_level_quiet l i p post fuel s lft op em :
  special n = false -> cut e i p (flat l ++ post) -> quiet (passes n e) i l -> length (flat l ++ post) < fuel ->
  exists fuel', length post <= fuel' /\
    scan fuel i s lft op em = scan (S fuel') (i + length (flat l)) s lft op em.
Proof.
  intros Hn. apply (skip_quiet_pos _ e (fun f j => scan f j s lft op em) (passes n e)).
  - intros f j c Hb [Ho Hr]. rewrite Hn in Hr. cbn [scan_level]. rewrite Hb, Ho, Hr. reflexivity.
  - intros f j c Hb Ho. cbn [scan_level]. rewrite Hb, Ho. reflexivity.
Qed.

Lemma scan_level_transparent l :
  special n = false -> e = flat l -> quiet (passes n e) 0 l ->
  scan (S (length e)) 0 0 (VUndef F) 0%N [] = operand F O obj n next it (VUndef F) 0%N e.
Proof.
  intros Hn He Hq.
  destruct (scan_level_quiet l 0 [] [] (S (length e)) 0 (VUndef F) 0%N [] Hn) as (f & _ & ->);
    rewrite ?app_nil_r, <- ?He; auto using cut_0.
  rewrite (scan_level_end f _ _ _ _ _ e); [apply bind_pair_id | apply bat_end | reflexivity].
Qed.

Lemma scan_level_binop l1 opb l2 c opch :
  special n = false -> e = flat l1 ++ opb ++ flat l2 ->
  quiet (passes n e) 0 l1 -> bat opb 0 = Some c -> is_opener c = false ->
  recog n e (length (flat l1)) c = Ok (ASplit opch (length opb)) ->
  quiet (passes n e) (length (flat l1) + length opb) l2 ->
  scan (S (length e)) 0 0 (VUndef F) 0%N [] =
    rbind F (operand F O obj n next it (VUndef F) 0%N (flat l1)) (fun a => operand F O obj n next it a opch (flat l2)).
Proof.
  intros Hn He Hq1 Hc Ho Hr Hq2.
  pose proof (conj He eq_refl : cut e 0 [] _) as Hs0.
  pose proof (cut_app _ _ Hs0) as Hs1. pose proof (cut_app _ _ Hs1) as Hs2. cbn [Nat.add] in *.
  destruct opb as [|c' opb]; [discriminate|]. injection Hc as ->. cbn [length app] in *.
  destruct (scan_level_quiet l1 0 _ _ (S (length e)) 0 (VUndef F) 0%N [] Hn Hs0 Hq1) as (f & Hf & ->);
    [rewrite <- He; lia|]. cbn [Nat.add].
  rewrite (scan_level_split f _ _ _ _ _ c opch (length opb) (flat l1)); auto;
    [|apply (cut_bat Hs1) | apply (cut_slice _ _ Hs0)].
  unfold rbind. destruct (operand F O obj n next it (VUndef F) 0%N (flat l1)) as [[a em1]| | | |]; cbn [bind app]; try reflexivity.
  pose proof (cut_sfrom Hs2) as Hr2. rewrite <- (app_nil_r (flat l2)) in Hs2.
  destruct (scan_level_quiet l2 _ _ [] f (length (flat l1) + S (length opb)) a opch em1 Hn Hs2 Hq2) as (f' & _ & ->);
    [cbn [length] in Hf; rewrite app_length in Hf; rewrite app_length; cbn [length]; lia|].
  apply scan_level_end; [apply (cut_bat (cut_app _ [] Hs2)) | exact Hr2].
Qed.

Notation scanc := (scan_comma F next it e).

Lemma scan_comma_quiet l i p post fuel s em :
  cut e i p (flat l ++ post) -> quiet (passes 11 e) i l -> length (flat l ++ post) < fuel ->
  exists fuel', length post <= fuel' /\ scanc fuel i s em = scanc (S fuel') (i + length (flat l)) s em.
Proof.
  apply (skip_quiet_pos _ e (fun f j => scanc f j s em) (passes 11 e)).
  - intros f j c Hb [Ho Hc]. change ((c =? 44)%N = false) in Hc.
    cbn [scan_comma]. rewrite Hb, Hc, Ho. reflexivity.
  - intros f j c Hb Ho. destruct (opener_no_op c Ho) as (Hc & _).
    cbn [scan_comma]. rewrite Hb, Hc, Ho. reflexivity.
Qed.

Lemma scan_comma_transparent l :
  e = flat l -> quiet (passes 11 e) 0 l -> it = false -> scanc (S (length e)) 0 0 [] = next false e.
Proof.
  intros He Hq Hit.
  destruct (scan_comma_quiet l 0 [] [] (S (length e)) 0 []) as (f & _ & ->);
    rewrite ?app_nil_r, <- ?He; auto using cut_0.
  cbn [scan_comma Nat.add]. rewrite bat_end, Hit. cbn [sfrom Nat.leb opt_panic bind skipn].
  destruct (next false e) as [[v em2]| | | |]; cbn [bind app]; try reflexivity.
  rewrite app_nil_r. reflexivity.
Qed.

Section Terns.
Variable rec : N -> bool -> bytes -> R F.
Variable steps : N.
Notation scant := (scan_terns F O obj rec steps next it e).

Lemma scan_terns_quiet l i p post fuel s cond depth :
  cut e i p (flat l ++ post) -> quiet (passes 10 e) i l -> length (flat l ++ post) < fuel ->
  exists fuel', length post <= fuel' /\
    scant fuel i s cond depth = scant (S fuel') (i + length (flat l)) s cond depth.
Proof.
  apply (skip_quiet_pos _ e (fun f j => scant f j s cond depth) (passes 10 e)).
  - intros f j c Hb [Ho Hc]. change (((c =? 63) || (c =? 58))%N = false) in Hc.
    apply orb_false_elim in Hc. destruct Hc as [H63 H58].
    cbn [scan_terns]. rewrite Hb, H63, H58, Ho. reflexivity.
  - intros f j c Hb Ho. destruct (opener_no_op c Ho) as (_ & Hc & _). apply orb_false_elim in Hc. destruct Hc as [H63 H58].
    cbn [scan_terns]. rewrite Hb, H63, H58, Ho. reflexivity.
Qed.

Lemma scan_terns_transparent l :
  e = flat l -> quiet (passes 10 e) 0 l -> scant (S (length e)) 0 0 [] 0%Z = next it e.
Proof.
  intros He Hq.
  destruct (scan_terns_quiet l 0 [] [] (S (length e)) 0 [] 0%Z) as (f & _ & ->);
    rewrite ?app_nil_r, <- ?He; auto using cut_0.
  cbn [scan_terns Nat.add]. rewrite bat_end. reflexivity.
Qed.

End Terns.

Notation scans := (scan_sums F O obj next it e).

(* evalSums keeps a flag, fill, that records whether the current operand has content yet *)
Lemma scan_sums_quiet l i p post fuel s lft op fill neg em :
  cut e i p (flat l ++ post) -> quiet (passes 2 e) i l -> length (flat l ++ post) < fuel ->
  exists fuel' fill', length post <= fuel' /\
    scans fuel i s lft op fill neg em = scans (S fuel') (i + length (flat l)) s lft op fill' neg em.
Proof.
  apply (skip_quiet bool _ e (fun f j b => scans f j s lft op b neg em) (passes 2 e)).
  - intros f j c b Hb [Ho Hc]. change (((c =? 45) || (c =? 43))%N = false) in Hc.
    eexists. cbn [scan_sums]. rewrite Hb, Hc, Ho. reflexivity.
  - intros f j c b Hb Ho. destruct (opener_no_op c Ho) as (_ & _ & Hc).
    eexists. cbn [scan_sums]. rewrite Hb, Hc, Ho. reflexivity.
Qed.

Lemma scan_sums_end fuel s neg fill :
  sums_adjust e s neg = Ok (0, false) -> trim e = e -> e <> [] ->
  scans (S fuel) (length e) s (VUndef F) 0%N fill neg [] = next it e.
Proof.
  intros Ha Ht Hne. cbn [scan_sums]. rewrite bat_end, Ha. cbn [bind sfrom Nat.leb opt_panic skipn].
  unfold sum_operand. rewrite Ht. destruct e as [|c0 r0]; [congruence|].
  rewrite (rbind_ext _ _ (ret F)), rbind_ret_r; [exact (bind_pair_id _) | reflexivity].
Qed.

Lemma scan_sums_transparent l :
  e = flat l -> quiet (passes 2 e) 0 l -> trim e = e -> e <> [] ->
  scans (S (length e)) 0 0 (VUndef F) 0%N false false [] = next it e.
Proof.
  intros He Hq Ht Hne.
  destruct (scan_sums_quiet l 0 [] [] (S (length e)) 0 (VUndef F) 0%N false false []) as (f & fill' & _ & ->);
    rewrite ?app_nil_r, <- ?He; auto using cut_0.
  apply scan_sums_end; auto.
Qed.

(* evalSums on  -digits : the sign is handed back to the number (s--, neg = false) *)
Lemma scan_sums_neg ds :
  e = 45%N :: ds -> Forall (fun c => isdigit c = true) ds -> ds <> [] -> trim e = e ->
  scans (S (length e)) 0 0 (VUndef F) 0%N false false [] = next it e.
Proof.
  intros He Hds Hne Ht.
  assert (Hq : quiet (passes 2 e) 1 (map IChar ds)).
  { apply quiet_chars. eapply Forall_impl; [|exact Hds]. intros c Hc i.
    unfold isdigit in Hc. split; [unfold is_opener | change (((c =? 45) || (c =? 43))%N = false)]; lia. }
  assert (Hs1 : cut e 1 [45%N] (flat (map IChar ds) ++ [])) by (rewrite flat_chars, app_nil_r, He; split; reflexivity).
  assert (Hl : length e = S (length ds)) by (rewrite He; reflexivity).
  cbn [scan_sums]. rewrite He at 1. cbn [bat nth_error]. cbn [N.eqb Pos.eqb orb negb Nat.ltb Nat.leb bind].
  destruct (scan_sums_quiet (map IChar ds) 1 _ [] (length e) 1 (VUndef F) 0%N false true [] Hs1 Hq)
    as (f & fill' & _ & ->); [rewrite app_nil_r, flat_chars; lia|].
  rewrite flat_chars. change (1 + length ds) with (S (length ds)). rewrite <- Hl.
  apply scan_sums_end; auto; [|rewrite He; discriminate].
  unfold sums_adjust. destruct ds as [|d0 r0]; [congruence|]. inversion Hds as [|? ? Hd0 _]; subst.
  cbn [length Nat.ltb Nat.leb andb bat_pred bat nth_error opt_panic bind N.eqb Pos.eqb]. rewrite Hd0. reflexivity.
Qed.

End Loops.

Local Open Scope Z_scope.

Lemma dec_digits_spec : forall k fuel n acc,
  0 <= n < 10 ^ Z.of_nat k -> (1 <= k <= fuel)%nat ->
  exists ds, dec_digits fuel n acc = ds ++ acc /\ Forall (fun c => isdigit c = true) ds /\
    (1 <= length ds <= k)%nat /\
    forall v rest, all_digits_val (ds ++ rest) v = all_digits_val rest (v * 10 ^ Z.of_nat (length ds) + n).
Proof.
  induction k as [|k IH]; intros [|fuel] n acc Hn Hk; try lia.
  rewrite Nat2Z.inj_succ, Z.pow_succ_r in Hn by lia. cbn [dec_digits].
  (* quotient and last digit as variables q, m with n = 10 * q + m: linear arithmetic from here on *)
  pose proof (Z.div_mod n 10 ltac:(discriminate)) as Hqm. pose proof (Z.mod_pos_bound n 10 eq_refl) as Hm.
  generalize dependent (n mod 10). generalize dependent (n / 10). intros q m Hqm Hm.
  assert (Hd : isdigit (Z.to_N (48 + m)) = true) by (unfold isdigit; lia).
  assert (Hb : Z.of_N (Z.to_N (48 + m)) - 48 = m) by lia.
  set (d := Z.to_N (48 + m)) in *. destruct (Z.ltb_spec n 10) as [Hlt|Hge].
  - exists [d]. repeat split; [repeat constructor; exact Hd | cbn [length]; lia ..|].
    intros v rest. cbn [app all_digits_val length]. rewrite Hd, Hb. f_equal. change (10 ^ Z.of_nat 1) with 10. lia.
  - destruct (IH fuel q (d :: acc)) as (ds & Hds & Hall & Hlen & Hv); [lia | destruct k; [cbn in Hn|]; lia |].
    exists (ds ++ [d]). rewrite app_length. cbn [length]. repeat split.
    + rewrite Hds, <- app_assoc. reflexivity.
    + apply Forall_app. split; [exact Hall | repeat constructor; exact Hd].
    + lia.
    + lia.
    + intros v rest. rewrite <- app_assoc, Hv. cbn [app all_digits_val]. rewrite Hd, Hb. f_equal.
      rewrite Nat2Z.inj_add, Z.pow_add_r by lia. change (10 ^ Z.of_nat 1) with 10. lia.
Qed.

Lemma dec_of_Z_spec n k : 0 <= n < 10 ^ Z.of_nat k -> (1 <= k <= 25)%nat ->
  Forall (fun c => isdigit c = true) (dec_of_Z n) /\ (1 <= length (dec_of_Z n) <= k)%nat /\
  all_digits_val (dec_of_Z n) 0 = Some n.
Proof.
  intros Hn Hk. unfold dec_of_Z. replace (n <? 0) with false by lia.
  destruct (dec_digits_spec k 25 n [] Hn) as (ds & -> & Hall & Hlen & Hv); [lia|].
  specialize (Hv 0 []). rewrite app_nil_r in *. cbn [all_digits_val Z.mul Z.add] in Hv. auto.
Qed.

Lemma dec_of_Z_neg n : n < 0 -> dec_of_Z n = 45%N :: dec_of_Z (- n).
Proof. intros H. unfold dec_of_Z. replace (n <? 0) with true by lia. replace (- n <? 0) with false by lia. reflexivity. Qed.

Local Close Scope Z_scope.

(* bytes that no scanning loop reacts to *)
Definition inert (c : N) : bool :=
  negb (is_opener c || (c =? 42) || (c =? 47) || (c =? 37) || (c =? 60) || (c =? 62) || (c =? 61) || (c =? 33)
        || (c =? 38) || (c =? 94) || (c =? 124) || (c =? 63) || (c =? 44) || (c =? 58) || (c =? 45) || (c =? 43))%N.

Lemma inert_untriggered c : inert c = true -> is_opener c = false /\ forall n, trigger n c = false.
Proof.
  unfold inert. intros H. apply negb_true_iff in H.
  do 15 (apply orb_false_elim in H; destruct H as [H ?]).
  split; [exact H|]. intros n.
  do 12 (destruct n as [|n]; [cbn [trigger]; auto using orb_false_intro|]). reflexivity.
Qed.

Definition allq (l : list item) : Prop :=
  Forall (fun x => match x with IChar c => inert c = true | IGroup g => good_group g end) l.

Lemma allq_quiet n e l : allq l -> forall i, quiet (passes n e) i l.
Proof.
  intros H. apply quiet_all. eapply Forall_impl; [|exact H]. intros [c|g] Hx; [|exact Hx].
  intros i. apply passes_untriggered; apply (inert_untriggered c Hx).
Qed.

Lemma allq_chars s : Forall (fun c => inert c = true) s -> allq (map IChar s).
Proof. intros H. apply Forall_map. exact H. Qed.

Lemma idc_classes c : id_continue c = true ->
  inert c = true /\ isspace c = false /\ plain_sq c = true /\ (c =? 33)%N = false.
Proof. unfold id_continue, id_start, isdigit, inert, is_opener, isspace, plain_sq. lia. Qed.

Lemma id_start_continue c : id_start c = true -> id_continue c = true.
Proof. unfold id_continue. intros ->. reflexivity. Qed.

Lemma isdigit_id_continue c : isdigit c = true -> id_continue c = true.
Proof. unfold id_continue. intros ->. apply orb_true_r. Qed.

Lemma idc_tight s : s <> [] -> Forall (fun c => id_continue c = true) s -> nonspace_ends s.
Proof.
  intros Hne H. apply nonspace_ends_of; [exact Hne|].
  eapply Forall_impl; [|exact H]. intros c Hc. apply (idc_classes c Hc).
Qed.

Lemma forallb_Forall {A} (p : A -> bool) l : forallb p l = true -> Forall (fun x => p x = true) l.
Proof. intros H. apply Forall_forall. intros x Hx. apply (proj1 (forallb_forall _ _) H x Hx). Qed.

Lemma wf_name_parts nm : wf_name nm = true ->
  exists c r, nm = c :: r /\ id_start c = true /\ forallb id_continue r = true /\
              existsb (bytes_eqb nm) keywords = false.
Proof.
  unfold wf_name. destruct nm as [|c r]; [discriminate|]. intros H.
  apply andb_true_iff in H. destruct H as [H Hk]. apply andb_true_iff in H. destruct H as [Hc Hr].
  exists c, r. repeat split; auto. apply negb_true_iff. exact Hk.
Qed.

Lemma wf_name_idc nm : wf_name nm = true -> Forall (fun c => id_continue c = true) nm /\ nm <> [].
Proof.
  intros H. destruct (wf_name_parts nm H) as (c & r & -> & Hc & Hr & _). split; [|discriminate].
  constructor; [apply id_start_continue, Hc | apply forallb_Forall, Hr].
Qed.

Lemma id_rest_all r : forallb id_continue r = true -> id_rest r = r.
Proof.
  induction r as [|c r IH]; [reflexivity|]. cbn [forallb id_rest]. intros H.
  apply andb_true_iff in H. destruct H as [Hc Hr]. rewrite Hc, IH by assumption. reflexivity.
Qed.

Lemma forall_bat (P : N -> Prop) (l : bytes) i c : Forall P l -> bat l i = Some c -> P c.
Proof. intros H Hb. unfold bat in Hb. apply nth_error_In in Hb. rewrite Forall_forall in H. auto. Qed.

Lemma digits_tight ds : ds <> [] -> Forall (fun c => c = 45%N \/ isdigit c = true) ds -> nonspace_ends ds.
Proof.
  intros Hne H. apply nonspace_ends_of; [exact Hne|]. eapply Forall_impl; [|exact H].
  intros c Hc. unfold isdigit in Hc. unfold isspace. lia.
Qed.

Definition tight_text (s : bytes) : Prop :=
  nonspace_ends s /\ exists c r, s = c :: r /\ (c =? 33)%N = false.

Lemma tight_concat a mid b : tight_text a -> tight_text b -> tight_text (a ++ mid ++ b).
Proof.
  intros [Ha (c & r & -> & Hb)] [Hb' _]. split; [apply nonspace_ends_concat; assumption|].
  exists c, (r ++ mid ++ b). auto.
Qed.

(* an operand as every level sees it: inert bytes and whole groups *)
Definition shaped (s : bytes) : Prop :=
  (exists l, allq l /\ flat l = s) /\ tight_text s /\ bal s.

Lemma idc_shaped s : s <> [] -> Forall (fun c => id_continue c = true) s -> shaped s.
Proof.
  intros Hne Hall. repeat split.
  - exists (map IChar s). split; [|apply flat_chars].
    apply allq_chars. eapply Forall_impl; [|exact Hall]. intros c Hc. apply (idc_classes c Hc).
  - apply idc_tight; assumption.
  - destruct s as [|c r]; [congruence|]. exists c, r. inversion Hall; subst. split; [reflexivity|].
    apply (idc_classes c); assumption.
  - rewrite <- (app_nil_r s). apply bal_plain_run; [|constructor].
    eapply Forall_impl; [|exact Hall]. intros c Hc. apply (idc_classes c Hc).
Qed.

Lemma group_shaped c m d : good_group (c :: m ++ [d]) -> bal (c :: m ++ [d]) ->
  isspace c = false -> isspace d = false -> (c =? 33)%N = false ->
  shaped (c :: m ++ [d]).
Proof.
  intros Hg Hb Hc Hd Hn. repeat split; try assumption.
  - exists [IGroup (c :: m ++ [d])]. split; [constructor; [exact Hg | constructor] | apply app_nil_r].
  - exists c, m, d. auto.
  - exists c, (m ++ [d]). auto.
Qed.

Lemma paren_shaped x : bal x -> shaped (paren x).
Proof.
  intros Hx. apply group_shaped; try reflexivity; [apply good_group_paren, Hx|].
  apply (bal_paren x []); [exact Hx | constructor].
Qed.

Lemma neg_text_spec n : (-100000000000000 < n)%Z -> (n < 0)%Z ->
  exists ds, dec_of_Z n = 45%N :: ds /\ Forall (fun c => isdigit c = true) ds /\ 1 <= length ds <= 14 /\
    all_digits_val ds 0%Z = Some (- n)%Z.
Proof.
  intros H1 H2. rewrite dec_of_Z_neg by exact H2.
  exists (dec_of_Z (- n)). split; [reflexivity|]. apply (dec_of_Z_spec (- n) 14); [|lia].
  change (10 ^ Z.of_nat 14)%Z with 100000000000000%Z. lia.
Qed.

Lemma neg_text_bal n : (-100000000000000 < n)%Z -> (n < 0)%Z -> bal (dec_of_Z n).
Proof.
  intros H1 H2. destruct (neg_text_spec n H1 H2) as (ds & -> & Hall & _).
  apply bal_plain; [reflexivity|]. rewrite <- (app_nil_r ds). apply bal_plain_run; [|constructor].
  eapply Forall_impl; [|exact Hall]. intros c Hc. apply (idc_classes c), isdigit_id_continue, Hc.
Qed.

Lemma atom_shape a : wf_atom a = true -> shaped (print_atom a).
Proof.
  intros H. destruct a as [nm|n|s|b|]; cbn [print_atom wf_atom] in *.
  - apply idc_shaped; apply (wf_name_idc nm H).
  - apply andb_true_iff in H. destruct H as [H1 H2]. destruct (n <? 0)%Z eqn:Hn.
    + apply paren_shaped, neg_text_bal; lia.
    + destruct (dec_of_Z_spec n 15) as (Hall & Hlen & _); [change (10 ^ Z.of_nat 15)%Z with 1000000000000000%Z; lia | lia |].
      apply idc_shaped; [destruct (dec_of_Z n); [cbn in Hlen; lia | discriminate]|].
      eapply Forall_impl; [|exact Hall]. intros c. apply isdigit_id_continue.
  - apply forallb_Forall in H. apply group_shaped; try reflexivity; [apply good_group_str, H|].
    apply (bal_str s []); [exact H | constructor].
  - apply idc_shaped; destruct b; try discriminate; repeat constructor.
  - apply idc_shaped; [discriminate | repeat constructor].
Qed.

(* ctx.steps contains the step bits of every byte of s *)
Definition covers (st : N) (s : bytes) : Prop :=
  forall c, In c s -> N.land st (op_steps c) = op_steps c.

Lemma covers_app st a b : covers st (a ++ b) <-> covers st a /\ covers st b.
Proof.
  unfold covers. split.
  - intros H. split; intros c Hc; apply H; apply in_or_app; auto.
  - intros [Ha Hb] c Hc. apply in_app_or in Hc. destruct Hc; auto.
Qed.

Lemma covers_paren st x : covers st (paren x) -> covers st x.
Proof. intros H c Hc. apply H. right. apply in_or_app. left. exact Hc. Qed.

Lemma has_step_sub st c n : N.land st (op_steps c) = op_steps c -> N.land (op_steps c) (step_bit n) = step_bit n ->
  has_step st n = true.
Proof.
  intros H1 H2. unfold has_step. apply N.eqb_eq. rewrite <- H2 at 1. rewrite N.land_assoc, H1. exact H2.
Qed.

Lemma land_lor_keep a b x : N.land a x = x -> N.land (N.lor a b) x = x.
Proof.
  intros H. apply N.bits_inj. intros k. rewrite <- H, !N.land_spec, N.lor_spec.
  destruct (N.testbit a k), (N.testbit b k); reflexivity.
Qed.

Lemma land_lor_new a x : N.land (N.lor a x) x = x.
Proof. rewrite N.lor_comm. apply land_lor_keep, N.land_diag. Qed.

Lemma covers_steps_of s : covers (steps_of s) s.
Proof.
  unfold steps_of.
  assert (G : forall s acc c, (In c s \/ N.land acc (op_steps c) = op_steps c) ->
              N.land (fold_left (fun a x => N.lor a (op_steps x)) s acc) (op_steps c) = op_steps c).
  { induction s0 as [|x s0 IH]; intros acc c [Hin|Hacc]; cbn [fold_left].
    - contradiction.
    - exact Hacc.
    - destruct Hin as [<-|Hin]; apply IH; [right; apply land_lor_new | left; exact Hin].
    - apply IH. right. apply land_lor_keep. exact Hacc. }
  intros c Hc. apply G. left. exact Hc.
Qed.

(* recog looks one byte behind and at what follows: everything before that byte may go, and what
   the switch does at an operator that stands in known text is then a closed computation *)
Lemma recog_behind n (e : bytes) i pre p t c : cut e i (pre ++ [p]) t -> recog n e i c = recog n (p :: t) 1 c.
Proof.
  intros H. pose proof (cut_bat_pred H) as Hp. destruct H as [-> <-].
  (* the right-hand side stays folded while the left is rewritten: half the term to rebuild at each step *)
  unfold recog at 1. rewrite Hp, <- (Nat.add_1_r (length (pre ++ [p]))), !(bat_app_r (pre ++ [p]) t).
  rewrite !app_length. cbn [length]. rewrite !Nat.add_1_r. generalize (length pre). intros k.
  replace (S k <? S k + length t - 1) with (1 <? S (length t) - 1) by lia.
  replace (S k =? S k + length t - 1) with (1 =? S (length t) - 1) by lia.
  replace (S k + 2 <? S k + length t) with (3 <? S (length t)) by lia.
  replace (S (S k) =? S k + length t) with (2 =? S (length t)) by lia.
  replace (S (S k) <? S k + length t) with (2 <? S (length t)) by lia.
  reflexivity.
Qed.

Lemma recog4_after_lt e i p : bat_pred e i = Some p -> (p = 60 \/ p = 62)%N -> recog 4 e i 61%N = Ok ANone.
Proof.
  intros Hp Hc. destruct i as [|i]; [discriminate|]. cbn [recog N.eqb Pos.eqb]. change (0 <? S i) with true. rewrite Hp.
  cbn [opt_panic bind]. replace ((p =? 62) || (p =? 60))%N with true by lia. reflexivity.
Qed.

Lemma recog4_bang c1 post : (c1 =? 61)%N = false -> recog 4 (33%N :: c1 :: post) 0 33%N = Ok ANone.
Proof.
  intros H. cbn [recog length bat nth_error opt_panic bind Nat.eqb Nat.sub N.eqb Pos.eqb]. rewrite H. reflexivity.
Qed.

Definition cmp_level (op : cmpop) : nat := match op with CEq | CNe => 4 | _ => 3 end.
Definition cmp_opch (op : cmpop) : N :=
  match op with CLt => 60 | CLe => 92 | CGt => 62 | CGe => 94 | CEq => 61 | CNe => 33 end%N.
Definition cmp_head (op : cmpop) : N :=
  match op with CLt | CLe => 60 | CGt | CGe => 62 | CEq => 61 | CNe => 33 end%N.

Lemma cmp_op_spec op :
  1 <= cmp_level op <= 11 /\ special (cmp_level op) = false /\
  N.land (op_steps (cmp_head op)) (step_bit (cmp_level op)) = step_bit (cmp_level op) /\
  bat (print_cmp op) 0 = Some (cmp_head op) /\ is_opener (cmp_head op) = false.
Proof. destruct op; cbn [cmp_level]; repeat split; lia. Qed.

(* the levels above a comparison operator pass over its bytes; evalEquality sees the '=' of
   <= and >= and leaves it alone because of the byte before *)
Lemma cmp_chars_quiet op n e i p post :
  cut e i p (print_cmp op ++ post) -> cmp_level op < n -> quiet (passes n e) i (map IChar (print_cmp op)).
Proof.
  intros Hs Hn. destruct (Nat.eq_dec n 4) as [->|H4].
  - assert (Hlt : forall c t, cut e i p (c :: 61%N :: t) -> (c = 60 \/ c = 62)%N -> passes 4 e (S i) 61%N).
    { intros c t Hc Hor. split; [reflexivity|]. apply (recog4_after_lt e (S i) c); [apply (cut_bat Hc) | exact Hor]. }
    destruct op; cbn [cmp_level] in Hn; try lia; cbn [print_cmp map app] in *;
      repeat (first [apply q_nil | apply q_char; [apply passes_untriggered; reflexivity|]]);
      (apply q_char; [eapply Hlt; [exact Hs | auto] | apply q_nil]).
  - assert (H5 : 4 < n) by (destruct op; cbn [cmp_level] in Hn; lia).
    apply quiet_chars, Forall_forall. intros c Hc j.
    assert (Hin : In c [60; 62; 61; 33]%N) by (destruct op; cbn [print_cmp In] in *; tauto).
    destruct Hin as [<-|[<-|[<-|[<-|[]]]]];
      (apply passes_untriggered; [reflexivity | apply (trigger_above 4); [reflexivity | exact H5]]).
Qed.

Lemma print_cmp_eq op a b :
  print (BCmp op a b) = print_atom a ++ (32%N :: print_cmp op ++ [32%N]) ++ print_atom b.
Proof. cbn [print app]. rewrite <- !app_assoc. reflexivity. Qed.

Lemma cmp_plain op : Forall (fun c => plain_sq c = true) (print_cmp op).
Proof. destruct op; repeat constructor. Qed.

Section Rec.
Variable rec : N -> bool -> bytes -> R F.
Variable st : N.
Notation EA := (eval_auto F O obj rec st).
Notation atom := (eval_atom F O obj rec st).

Lemma eval_auto_S m it e :
  EA (S m) it e = if has_step st (S m) then level_scan F O obj rec st (S m) (EA m) it e else EA m it e.
Proof. reflexivity. Qed.

Lemma level_scan_plain n next it e : special n = false ->
  level_scan F O obj rec st n next it e = scan_level F O obj n next it e (S (length e)) 0 0 (VUndef F) 0%N [].
Proof. destruct n as [|[|[|[|[|[|[|[|[|[|[|[|n]]]]]]]]]]]]; try discriminate; reflexivity. Qed.

Lemma level_transparent n next l e c r :
  e = flat l -> quiet (passes n e) 0 l -> trim e = e -> e = c :: r -> (n =? 4) && (c =? 33)%N = false ->
  level_scan F O obj rec st n next false e = next false e.
Proof.
  intros He Hq Ht Hc Hb.
  destruct (Nat.eq_dec n 11) as [->|H11]; [apply scan_comma_transparent with l; auto|].
  destruct (Nat.eq_dec n 10) as [->|H10]; [apply scan_terns_transparent with l; auto|].
  destruct (Nat.eq_dec n 2) as [->|H2]; [apply scan_sums_transparent with l; auto; rewrite Hc; discriminate|].
  assert (Hn : special n = false) by (repeat apply orb_false_intro; apply Nat.eqb_neq; assumption).
  rewrite (level_scan_plain _ _ _ _ Hn), scan_level_transparent with (l := l); auto.
  apply operand_first with c r; auto.
Qed.

Lemma eval_auto_through lo hi e :
  lo <= hi -> (forall m next, lo < m <= hi -> level_scan F O obj rec st m next false e = next false e) ->
  EA hi false e = EA lo false e.
Proof.
  intros Hle H. induction hi as [|hi IH]; [replace lo with 0 by lia; reflexivity|].
  destruct (Nat.eq_dec lo (S hi)) as [->|Hne]; [reflexivity|].
  rewrite eval_auto_S. destruct (has_step st (S hi)); [rewrite H by lia|]; (apply IH; [lia | intros; apply H; lia]).
Qed.

Lemma eval_auto_down l e c r lo hi :
  lo <= hi -> e = flat l -> e = c :: r -> trim e = e ->
  (forall n, lo < n <= hi -> (n =? 4) && (c =? 33)%N = false /\ quiet (passes n e) 0 l) ->
  EA hi false e = EA lo false e.
Proof.
  intros Hle He Hc Ht H. apply eval_auto_through; [exact Hle|]. intros m next Hm. destruct (H m Hm) as [Hb Hq].
  apply level_transparent with l c r; assumption.
Qed.

Lemma eval_auto_allq l e c r :
  e = flat l -> allq l -> e = c :: r -> trim e = e -> (c =? 33)%N = false ->
  forall n, eval_auto F O obj rec st n false e = eval_atom F O obj rec st false e.
Proof.
  intros He Hq Hc Ht Hb n. apply (eval_auto_down l e c r 0 n (Nat.le_0_l n) He Hc Ht).
  intros m _. split; [rewrite Hb; apply andb_false_r | apply allq_quiet, Hq].
Qed.

Lemma eval_atom_paren it x : bal x -> atom it (40%N :: x ++ [41%N]) = rec st it x.
Proof.
  intros Hx. set (g := 40%N :: x ++ [41%N]).
  assert (Hl : length g - 1 = 1 + length x) by (unfold g; cbn [length]; rewrite app_length; cbn [length]; lia).
  unfold eval_atom. rewrite (trim_tight g (paren_ends x)).
  unfold g at 1. cbn [orb andb N.eqb Pos.eqb N.leb N.compare Pos.compare Pos.compare_cont]. fold g.
  rewrite (good_group_self g (good_group_paren x Hx)).
  cbn [bind]. change (bat g 0) with (Some 40%N). cbn [opt_panic bind N.eqb Pos.eqb].
  unfold group_inner. rewrite Hl, (cut_slice x [41%N] (conj eq_refl eq_refl : cut g 1 [40%N] _)).
  rewrite sfrom_all. exact (rbind_ret_r _).
Qed.

Lemma eval_atom_str it s : Forall lit_byte s -> atom it (34%N :: s ++ [34%N]) = ret F (VStr F s).
Proof.
  intros Hs. set (g := 34%N :: s ++ [34%N]).
  assert (Hl : S (S (length s)) = length g) by (unfold g; cbn [length]; rewrite app_length; cbn [length]; lia).
  unfold eval_atom. rewrite (trim_tight g) by (exists 34%N, s, 34%N; auto).
  unfold g at 1. cbn [orb andb N.eqb Pos.eqb N.leb N.compare Pos.compare Pos.compare_cont]. fold g.
  unfold g at 1. rewrite (parse_string_lit s [] Hs). fold g. cbn [bind]. rewrite Hl, sfrom_all. reflexivity.
Qed.

Lemma eval_atom_ident it nm : wf_name nm = true ->
  atom it nm = lift F (get_ref_value F O obj false (VUndef F) nm false).
Proof.
  intros H. destruct (wf_name_idc nm H) as [Hall Hne].
  destruct (wf_name_parts nm H) as (c & r & Hnm & Hc & Hr & Hk).
  unfold eval_atom. rewrite (trim_tight nm) by (apply idc_tight; assumption). rewrite Hnm at 1.
  replace ((c =? 48) || (c =? 45) || (c =? 46) || (49 <=? c) && (c <=? 57))%N with false by (clear - Hc; unfold id_start in Hc; lia).
  replace ((c =? 34) || (c =? 39))%N with false by (clear - Hc; unfold id_start in Hc; lia).
  replace ((c =? 40) || (c =? 123) || (c =? 91))%N with false by (clear - Hc; unfold id_start in Hc; lia).
  assert (Hri : read_ident nm = Some nm).
  { rewrite Hnm. cbn [read_ident]. rewrite Hc, id_rest_all by assumption. reflexivity. }
  rewrite Hri.
  cbn [keywords existsb] in Hk.
  repeat (apply orb_false_elim in Hk; let K := fresh "K" in destruct Hk as [K Hk]).
  rewrite K, K0, K1, K2, K3, K4, K5, K6, K7, K8, K9, K10, K11. cbn [orb].
  rewrite sfrom_all. unfold lift.
  destruct (get_ref_value F O obj false (VUndef F) nm false) as [v| | | |]; reflexivity.
Qed.

(* the numeric arms of evalAtom on text whose bytes after the first are digits: neither a hex
   prefix nor a 64-bit suffix, so the value is what parseFloat answers *)
Lemma atom_number_fast c r (v : F) :
  Forall (fun c => isdigit c = true) r ->
  expr_parse_float F O (c :: r) = Ok (Some v) -> atom_number F O (c :: r) = Ok (VFloat F v).
Proof.
  intros Hr Hpf. set (ds := c :: r) in *.
  assert (Hch : forall i k, i <> 0 -> bat ds i = Some k ->
            (k =? 117)%N = false /\ (k =? 105)%N = false /\ ((k =? 120) || (k =? 88))%N = false).
  { intros [|i] k Hi Hk; [contradiction|]. pose proof (forall_bat _ r i _ Hr Hk) as Hd. cbv beta in Hd. unfold isdigit in Hd. lia. }
  assert (Hgeneric : atom_number_generic F O ds = Ok (VFloat F v)).
  { unfold atom_number_generic.
    destruct ((3 <? length ds) && has_suffix_64 ds) eqn:E; [|cbn [bind]; rewrite Hpf; reflexivity].
    apply andb_true_iff in E. destruct E as [E _]. apply Nat.ltb_lt in E.
    destruct (bat ds (length ds - 3)) as [k|] eqn:Hk; [|apply nth_error_None in Hk; lia].
    cbn [opt_panic bind]. destruct (Hch (length ds - 3) k ltac:(lia) Hk) as (-> & -> & _). cbn [bind]. rewrite Hpf. reflexivity. }
  unfold atom_number. change (bat ds 0) with (Some c). cbn [opt_panic bind].
  destruct (c =? 48)%N; [|exact Hgeneric].
  destruct (bat ds 1) as [c1|] eqn:Hc1; [|exact Hgeneric].
  destruct (Hch 1 c1 ltac:(discriminate) Hc1) as (_ & _ & ->). exact Hgeneric.
Qed.

Lemma eval_atom_fast it c r (v : F) :
  (c = 45%N \/ isdigit c = true) -> Forall (fun c => isdigit c = true) r ->
  expr_parse_float F O (c :: r) = Ok (Some v) -> atom it (c :: r) = ret F (VFloat F v).
Proof.
  intros Hc Hr Hpf. unfold eval_atom. rewrite (trim_tight (c :: r)).
  2:{ apply digits_tight; [discriminate|]. constructor; [exact Hc|]. eapply Forall_impl; [|exact Hr]. auto. }
  replace ((c =? 48) || (c =? 45) || (c =? 46) || (49 <=? c) && (c <=? 57))%N with true by (unfold isdigit in Hc; lia).
  rewrite (atom_number_fast c r v Hr Hpf). reflexivity.
Qed.

Lemma eval_atom_num it n : (0 <= n < 1000000000000000)%Z ->
  atom it (dec_of_Z n) = ret F (VFloat F (f_of_int F O n)).
Proof.
  intros Hn. destruct (dec_of_Z_spec n 15 Hn ltac:(lia)) as (Hall & Hlen & Hval).
  destruct (dec_of_Z n) as [|c r]; [cbn in Hlen; lia|]. inversion Hall as [|? ? Hc Hr]; subst.
  apply (eval_atom_fast it c r); auto.
  unfold expr_parse_float. replace (15 <? length (c :: r)) with false by (symmetry; apply Nat.ltb_ge; lia).
  replace (c =? 45)%N with false by (unfold isdigit in Hc; lia). rewrite Hval. reflexivity.
Qed.

(* evalAtom on  -digits  (at most 14 digits): parseFloat's  n * -1 *)
Lemma eval_atom_negnum it m ds :
  Forall (fun c => isdigit c = true) ds -> 1 <= length ds <= 14 -> all_digits_val ds 0%Z = Some m ->
  atom it (45%N :: ds) = ret F (VFloat F (f_mul F O (f_of_int F O m) (f_of_int F O (-1)%Z))).
Proof.
  intros Hall Hlen Hval. apply (eval_atom_fast it 45%N ds); auto.
  unfold expr_parse_float. replace (15 <? length (45%N :: ds)) with false by (symmetry; apply Nat.ltb_ge; cbn [length]; lia).
  cbn [N.eqb Pos.eqb]. destruct ds as [|d0 r0]; [cbn in Hlen; lia|]. rewrite Hval. reflexivity.
Qed.

Lemma eval_atom_true it : eval_atom F O obj rec st it s_true = ret F (VBool F true).
Proof. reflexivity. Qed.
Lemma eval_atom_false it : eval_atom F O obj rec st it s_false = ret F (VBool F false).
Proof. reflexivity. Qed.
Lemma eval_atom_null it : eval_atom F O obj rec st it s_null = ret F (VNull F).
Proof. reflexivity. Qed.

Lemma rbind_lift (r : res V) (f : V -> res V) :
  rbind F (lift F r) (fun x => lift F (f x)) = lift F (do x <- r; f x).
Proof.
  unfold rbind, lift, ret. destruct r as [x| | | |]; cbn [bind]; try reflexivity.
  destruct (f x) as [y| | | |]; cbn [bind app]; reflexivity.
Qed.

Lemma operand_lift n next it (lft : V) op s' s rv :
  trim s' = s -> tight_text s -> next it s = lift F rv ->
  operand F O obj n next it lft op s' = lift F (do v <- rv; apply_op F O obj n op lft v).
Proof.
  intros Ht [_ (c & r & Hs & Hb)] Hn.
  rewrite (operand_tight n next it lft op s' s c r Ht Hs) by (rewrite Hb; apply andb_false_r).
  rewrite Hn. apply rbind_lift.
Qed.

Lemma eval_auto_shaped s : shaped s -> forall n, EA n false s = eval_atom F O obj rec st false s.
Proof.
  intros ((l & Hq & Hf) & [Ht (c & r & Hc & Hb)] & _). apply (eval_auto_allq l s c r); auto using trim_tight.
Qed.

(* evalExpr on the text of a negative literal (what the callback has to deliver for (-5)) *)
Definition neg_ok : Prop :=
  forall n, (-100000000000000 < n)%Z -> (n < 0)%Z ->
    rec st false (dec_of_Z n) = ret F (VFloat F (f_mul F O (f_of_int F O (- n)%Z) (f_of_int F O (-1)%Z))).

Lemma eval_auto_atom a : wf_atom a = true -> neg_ok ->
  forall n, EA n false (print_atom a) = lift F (den_atom F O obj a).
Proof.
  intros H Hneg n. rewrite (eval_auto_shaped _ (atom_shape a H)).
  destruct a as [nm|z|s|b|]; cbn [print_atom den_atom wf_atom] in *.
  - apply eval_atom_ident. exact H.
  - apply andb_true_iff in H. destruct H as [H1 H2].
    destruct (z <? 0)%Z eqn:Ez.
    + rewrite eval_atom_paren by (apply neg_text_bal; lia). rewrite Hneg by lia. reflexivity.
    + apply eval_atom_num. lia.
  - apply eval_atom_str. apply forallb_Forall. exact H.
  - destruct b; reflexivity.
  - reflexivity.
Qed.

Lemma eval_auto_paren x : bal x -> forall n, EA n false (paren x) = rec st false x.
Proof. intros Hx n. rewrite (eval_auto_shaped _ (paren_shaped x Hx)). apply eval_atom_paren, Hx. Qed.

Lemma apply_op_first n (rv : res V) : (do v <- rv; apply_op F O obj n 0%N (VUndef F) v) = rv.
Proof. destruct rv; cbn [bind]; try reflexivity. apply apply_op_zero. Qed.

(* x op y with one blank on either side of the operator op of level n, x and y made of inert bytes
   and groups: the levels above n pass over everything, level n splits once at op, and the
   operands go to the level below. *)
Lemma eval_auto_binop n x opb y c0 opch (rx ry : res V) (f : V -> V -> res V) :
  let e := x ++ (32%N :: opb ++ [32%N]) ++ y in
  shaped x -> shaped y -> 1 <= n <= 11 -> special n = false ->
  covers st e -> N.land (op_steps c0) (step_bit n) = step_bit n ->
  bat opb 0 = Some c0 -> is_opener c0 = false ->
  (forall m i p post, cut e i p (opb ++ post) -> n < m -> quiet (passes m e) i (map IChar opb)) ->
  (forall post, recog n (32%N :: opb ++ 32%N :: post) 1 c0 = Ok (ASplit opch (length opb))) ->
  (forall a b, apply_op F O obj n opch a b = f a b) ->
  EA (Nat.pred n) false x = lift F rx -> EA (Nat.pred n) false y = lift F ry ->
  EA 11 false e = lift F (do a <- rx; do b <- ry; f a b).
Proof.
  intros e ((lx & Hqx & Hfx) & Htx & _) ((ly & Hqy & Hfy) & Hty & _) Hn Hsp Hcov Hbit Hc0 Ho Hquiet Hrecog Hf Hx Hy.
  destruct n as [|L]; [lia|]. cbn [Nat.pred] in Hx, Hy.
  set (l1 := lx ++ [IChar 32%N]). set (l2 := IChar 32%N :: ly).
  assert (Hf1 : flat l1 = x ++ [32%N]) by (unfold l1; rewrite flat_app, Hfx; reflexivity).
  assert (Hf2 : flat l2 = 32%N :: y) by (unfold l2; cbn [flat item_bytes app]; rewrite Hfy; reflexivity).
  assert (He : e = flat l1 ++ opb ++ flat l2).
  { unfold e. rewrite Hf1, Hf2. cbn [app]. rewrite <- !app_assoc. reflexivity. }
  pose proof (conj He eq_refl : cut e _ (flat l1) (opb ++ flat l2)) as Hs.
  assert (Hq1 : allq l1) by (apply Forall_app; split; [exact Hqx | repeat constructor]).
  assert (Hq2 : allq l2) by (constructor; [reflexivity | exact Hqy]).
  destruct (tight_concat x (32%N :: opb ++ [32%N]) y Htx Hty) as [Ht (c & r & Hc & Hb)]. fold e in Ht, Hc.
  assert (Hstep : has_step st (S L) = true).
  { apply (has_step_sub st c0); [|exact Hbit]. apply Hcov, in_or_app. right. apply in_or_app. left. right. apply in_or_app. left.
    apply (nth_error_In opb 0 Hc0). }
  rewrite (eval_auto_down (l1 ++ map IChar opb ++ l2) e c r (S L) 11 (proj2 Hn)); auto using trim_tight.
  2:{ rewrite He, !flat_app, flat_chars. reflexivity. }
  2:{ intros m [Hm _]. split; [rewrite Hb; apply andb_false_r|].
      apply quiet_app; [apply allq_quiet, Hq1|]. apply quiet_app; [|apply allq_quiet, Hq2].
      apply (Hquiet m _ _ _ Hs Hm). }
  rewrite eval_auto_S, Hstep, level_scan_plain by exact Hsp.
  rewrite (scan_level_binop (S L) (EA L) false e l1 opb l2 c0 opch); auto using allq_quiet.
  2:{ rewrite Hf1, Hf2 in Hs. rewrite Hf1, (recog_behind _ _ _ _ _ _ _ Hs). apply Hrecog. }
  rewrite Hf1, Hf2.
  rewrite (operand_lift _ _ _ _ _ _ x rx (trim_space_r x (proj1 Htx)) Htx Hx), apply_op_first.
  (* what scan_level_binop leaves is rbind of the two operands *)
  rewrite <- rbind_lift. apply rbind_ext. intros a.
  rewrite (operand_lift _ _ _ _ _ _ y ry (eq_trans (trim_space_l y) (trim_tight y (proj1 Hty))) Hty Hy).
  f_equal. destruct ry; cbn [bind]; [apply Hf | reflexivity ..].
Qed.

Lemma cmp_apply op (x y : V) : apply_op F O obj (cmp_level op) (cmp_opch op) x y = den_cmp F O obj op x y.
Proof. destruct op; reflexivity. Qed.

Lemma eval_auto_cmp op a b :
  wf_atom a = true -> wf_atom b = true -> neg_ok -> covers st (print (BCmp op a b)) ->
  EA 11 false (print (BCmp op a b)) = lift F (den F O obj (BCmp op a b)).
Proof.
  intros Ha Hb Hneg. rewrite print_cmp_eq. intros Hcov.
  destruct (cmp_op_spec op) as (Hl & Hsp & Hbit & Hhd & Hno).
  apply (eval_auto_binop (cmp_level op) _ (print_cmp op) _ (cmp_head op) (cmp_opch op));
    auto using atom_shape, eval_auto_atom.
  - intros m i p post. apply cmp_chars_quiet.
  - intros post. destruct op; reflexivity.
  - apply cmp_apply.
Qed.

Lemma eval_auto_not x (rx : res V) :
  bal x -> rec st false x = lift F rx -> covers st (33%N :: paren x) ->
  EA 11 false (33%N :: paren x) =
    lift F (do v <- rx;
            do b <- (match v with VBool _ b => Ok b | _ => to_bool F O obj v end);
            Ok (VBool F (negb b))).
Proof.
  intros Hx Hrec Hcov.
  set (e := 33%N :: paren x). set (l := [IChar 33%N; IGroup (paren x)]).
  assert (He : e = flat l) by (unfold e, l; cbn [flat item_bytes app]; rewrite app_nil_r; reflexivity).
  assert (Htrim : trim e = e) by (apply trim_tight; exists 33%N, (40%N :: x), 41%N; auto).
  assert (Hg : good_group (paren x)) by (apply good_group_paren; exact Hx).
  (* only evalEquality reacts to '!', and it does not split at one that no '=' follows *)
  assert (Hq : forall n, 4 <= n -> quiet (passes n e) 0 l).
  { intros n Hn. apply q_char; [|apply q_group; [exact Hg | apply q_nil]].
    destruct (Nat.eq_dec n 4) as [->|H4]; [split; [reflexivity | apply recog4_bang; reflexivity]|].
    apply passes_untriggered; [reflexivity | apply (trigger_above 4); [reflexivity | lia]]. }
  rewrite (eval_auto_down l e 33%N (paren x) 4 11); auto; [|lia|].
  2:{ intros n [Hn _]. split; [|apply Hq; lia]. apply andb_false_intro1, Nat.eqb_neq. lia. }
  assert (Hstep : has_step st 4 = true).
  { apply (has_step_sub st 33%N); [apply Hcov; left; reflexivity | reflexivity]. }
  rewrite eval_auto_S, Hstep, level_scan_plain by reflexivity.
  rewrite (scan_level_transparent 4 _ false e l) by auto.
  unfold operand. rewrite Htrim. cbn [Nat.eqb].
  assert (Hsb : strip_bangs (S (length e)) e false false = Ok (true, true, paren x)).
  { unfold e. cbn [strip_bangs length N.eqb Pos.eqb negb].
    rewrite (trim_tight _ (paren_ends x)). reflexivity. }
  rewrite Hsb. cbn [bind].
  rewrite eval_auto_paren by exact Hx. rewrite Hrec.
  unfold rbind, lift, ret. destruct rx as [v| | | |]; cbn [bind]; try reflexivity.
  destruct (match v with VBool _ b => Ok b | _ => to_bool F O obj v end) as [b| | | |]; cbn [bind]; reflexivity.
Qed.

Lemma eval_auto_logic (isand : bool) x y (rx ry : res V) :
  let oc := if isand then 38%N else 124%N in
  let e := paren x ++ [32%N; oc; oc; 32%N] ++ paren y in
  bal x -> bal y -> rec st false x = lift F rx -> rec st false y = lift F ry -> covers st e ->
  EA 11 false e =
    lift F (do a <- rx; do b <- ry; if isand then op_and F O obj a b else op_or F O obj a b).
Proof.
  intros oc e Hx Hy Hrx Hry Hcov.
  apply (eval_auto_binop (if isand then 8 else 9) _ [oc; oc] _ oc oc rx ry);
    auto using paren_shaped; try (destruct isand; reflexivity).
  - destruct isand; lia.
  - intros m i p post _ Hm. apply (quiet_chars _ [oc; oc]).
    assert (Hoc : forall j, passes m e j oc).
    { intros j. apply passes_untriggered; [destruct isand; reflexivity|].
      destruct isand; [apply (trigger_above 8) | apply (trigger_above 9)]; auto. }
    repeat (apply Forall_cons; [exact Hoc|]). apply Forall_nil.
  - rewrite eval_auto_paren by exact Hx. exact Hrx.
  - rewrite eval_auto_paren by exact Hy. exact Hry.
Qed.

End Rec.

Lemma digit_untriggered n c : (c = 45%N \/ isdigit c = true) -> n <> 2 ->
  is_opener c = false /\ trigger n c = false.
Proof.
  intros [->|Hd] Hn.
  - split; [reflexivity|].
    destruct n as [|[|[|n]]]; [reflexivity | reflexivity | contradiction | apply (trigger_above 2); [reflexivity | lia]].
  - destruct (inert_untriggered c) as [Ho Ht]; [apply idc_classes, isdigit_id_continue, Hd | auto].
Qed.

(* every level hands  -digits  down as it is: evalSums by scan_sums_neg, the others see nothing *)
Lemma eval_expr_neg d st : 1 <= d -> neg_ok (eval_expr F O obj d) st.
Proof.
  intros Hd n H1 H2. destruct d as [|d']; [lia|]. cbn [eval_expr].
  destruct (neg_text_spec n H1 H2) as (ds & -> & Hall & Hlen & Hval).
  (* the callback gets a name: left to unification (_ for rec below) the proof does not come back *)
  set (e := 45%N :: ds). set (rec := eval_expr F O obj d').
  assert (Hchars : Forall (fun c => c = 45%N \/ isdigit c = true) e).
  { constructor; [auto|]. eapply Forall_impl; [|exact Hall]. auto. }
  assert (Ht : trim e = e) by (apply trim_tight, digits_tight; [discriminate | exact Hchars]).
  rewrite (eval_auto_through rec st 0 11 e (Nat.le_0_l _)); [apply (eval_atom_negnum rec st false (- n)%Z ds); assumption|].
  intros m next _. destruct (Nat.eq_dec m 2) as [->|Hm].
  - apply (scan_sums_neg next false e ds); auto. intros ->. cbn in Hlen. lia.
  - apply (level_transparent rec st m next (map IChar e) e 45%N ds); auto using flat_chars, andb_false_r.
    apply quiet_chars. eapply Forall_impl; [|exact Hchars].
    intros c Hc i. apply passes_untriggered; apply (digit_untriggered m c Hc Hm).
Qed.

Lemma bal_print e : wf e = true -> bal (print e).
Proof.
  assert (Hlogic : forall oc x y, plain_sq oc = true -> bal x -> bal y ->
            bal (40%N :: x ++ [41; 32; oc; oc; 32; 40]%N ++ y ++ [41%N])).
  { intros oc x y Hoc Hx Hy. apply (bal_paren x); [exact Hx|].
    apply (bal_plain_run [32; oc; oc; 32]%N); [repeat constructor; exact Hoc|].
    apply (bal_paren y []); [exact Hy | constructor]. }
  induction e as [a|op a b|x IH|x IHx y IHy|x IHx y IHy]; cbn [wf print]; intros H;
    try (apply andb_true_iff in H; destruct H as [Ha Hb]).
  - apply (atom_shape a H).
  - apply bal_app; [apply (atom_shape a Ha)|]. apply bal_plain; [reflexivity|].
    apply bal_plain_run; [apply cmp_plain|]. apply bal_plain; [reflexivity|]. apply (atom_shape b Hb).
  - apply bal_plain; [reflexivity|]. apply (bal_paren (print x) []); [apply IH; exact H | constructor].
  - apply Hlogic; auto.
  - apply Hlogic; auto.
Qed.

Lemma print_logic_eq oc x y :
  40%N :: x ++ [41; 32; oc; oc; 32; 40]%N ++ y ++ [41%N] = paren x ++ [32%N; oc; oc; 32%N] ++ paren y.
Proof. unfold paren. cbn [app]. rewrite <- !app_assoc. reflexivity. Qed.

Lemma print_tight e : wf e = true -> nonspace_ends (print e).
Proof.
  destruct e as [a|op a b|x|x y|x y]; cbn [wf print]; intros H;
    try (apply andb_true_iff in H; destruct H as [Ha Hb]).
  - apply (atom_shape a H).
  - fold (print (BCmp op a b)). rewrite print_cmp_eq.
    apply nonspace_ends_concat; [apply (atom_shape a Ha) | apply (atom_shape b Hb)].
  - exists 33%N, (40%N :: print x), 41%N. auto.
  - rewrite print_logic_eq. apply nonspace_ends_concat; apply paren_ends.
  - rewrite print_logic_eq. apply nonspace_ends_concat; apply paren_ends.
Qed.

Lemma print_pos e : wf e = true -> 1 <= length (print e).
Proof. intros H. destruct (print_tight e H) as (c & m & z & [-> | ->] & _); apply le_n_S, Nat.le_0_l. Qed.

Lemma logic_parts st d (mid x y : bytes) :
  length (paren x ++ mid ++ paren y) < S d -> covers st (paren x ++ mid ++ paren y) ->
  (length x < d /\ covers st x) /\ (length y < d /\ covers st y).
Proof.
  intros Hd Hcov. unfold paren in Hd. cbn [app length] in Hd. rewrite !app_length in Hd. cbn [length] in Hd.
  rewrite app_length in Hd. apply covers_app in Hcov. destruct Hcov as [Hx Hcov]. apply covers_app in Hcov.
  repeat split; try lia; apply covers_paren; tauto.
Qed.

(* evalExpr on the printed text of a well-formed tree is the denotation of the tree *)
Theorem eval_expr_print : forall e, wf e = true -> forall d st,
  length (print e) < d -> covers st (print e) ->
  eval_expr F O obj d st false (print e) = lift F (den F O obj e).
Proof.
  induction e as [a|op a b|x IH|x IHx y IHy|x IHx y IHy]; intros Hwf d st Hd Hcov;
    (destruct d as [|d']; [inversion Hd|]);
    (* the text is not empty, so the callback has depth left for the text of a negative literal *)
    assert (Hneg : neg_ok (eval_expr F O obj d') st)
      by (apply eval_expr_neg, Nat.lt_succ_r, Nat.le_lt_trans with (2 := Hd), print_pos, Hwf);
    cbn [eval_expr]; cbn [wf] in Hwf; try (apply andb_true_iff in Hwf; destruct Hwf as [Ha Hb]).
  - apply eval_auto_atom; assumption.
  - apply eval_auto_cmp; assumption.
  - cbn [print den]. change (33%N :: 40%N :: print x ++ [41%N]) with (33%N :: paren (print x)).
    apply eval_auto_not; [apply bal_print; exact Hwf | | exact Hcov].
    apply IH; [exact Hwf | cbn [print length] in Hd; rewrite app_length in Hd; lia |].
    apply covers_paren. intros c Hc. apply Hcov. right. exact Hc.
  - cbn [print den] in *. rewrite print_logic_eq in *. destruct (logic_parts _ _ _ _ _ Hd Hcov) as [[? ?] [? ?]].
    apply (eval_auto_logic _ st true); auto using bal_print.
  - cbn [print den] in *. rewrite print_logic_eq in *. destruct (logic_parts _ _ _ _ _ Hd Hcov) as [[? ?] [? ?]].
    apply (eval_auto_logic _ st false); auto using bal_print.
Qed.

(* expr.Eval on the printed text *)
Theorem eval_print : forall e, wf e = true -> eval F O obj (print e) = den F O obj e.
Proof.
  intros e Hwf. pose proof (print_tight e Hwf) as Ht.
  unfold eval, eval_for_each. rewrite (trim_tight _ Ht).
  replace (length (print e) =? 0) with false by (pose proof (print_pos e Hwf); lia).
  rewrite eval_expr_print; auto; [|apply covers_steps_of].
  unfold lift, ret. destruct (den F O obj e); reflexivity.
Qed.

(* whereT.matchExpr on the printed text *)
Theorem match_print : forall e, wf e = true -> match_expr F O obj (print e) = den_match F O obj e.
Proof. intros e Hwf. unfold match_expr, den_match. rewrite eval_print by exact Hwf. reflexivity. Qed.

End Sem.
