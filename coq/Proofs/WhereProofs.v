(* Lemmas about Model.Where: the transcribed Value.Less is the documented value order
   (kinds Null < False < Number < String < True < JSON, numbers numeric, strings ASCII
   case-insensitive, other kinds byte-wise), it is a strict weak order (NaN apart), and
   whereT.matchField is interval membership / the plain comparison under that order. *)
From T38 Require Import Base.Bytes Base.SMap Model.Where.
From T38 Require Import Base.ListFacts.
From Coq Require Import ZifyN ZifyNat ZifyBool.
Open Scope N_scope.

(* the documented order, stated independently of the Go code *)

Definition num_cmp (a b : num) : comparison :=
  match a, b with
  | NaN, _ => Eq                      (* unordered; excluded by hypotheses *)
  | _, NaN => Eq
  | NegInf, NegInf => Eq
  | NegInf, _ => Lt
  | _, NegInf => Gt
  | PosInf, PosInf => Eq
  | PosInf, _ => Gt
  | _, PosInf => Lt
  | Fin x, Fin y => Z.compare x y
  end.

Definition fold_case (s : bytes) : bytes := map to_lower s.

Definition vcompare (a b : value) : comparison :=
  match N.compare (kind_code (v_kind a)) (kind_code (v_kind b)) with
  | Eq =>
      match v_kind a with
      | KNumber => num_cmp (v_num a) (v_num b)
      | KString => bytes_cmp (fold_case (v_data a)) (fold_case (v_data b))
      | _ => bytes_cmp (v_data a) (v_data b)
      end
  | c => c
  end.

Definition num_is_nan (n : num) : bool := match n with NaN => true | _ => false end.
Definition is_nan (v : value) : bool := is_number (v_kind v) && num_is_nan (v_num v).

Definition is_lt (c : comparison) : bool := match c with Lt => true | _ => false end.
Definition is_le (c : comparison) : bool := match c with Gt => false | _ => true end.
Definition is_gt (c : comparison) : bool := match c with Gt => true | _ => false end.
Definition is_ge (c : comparison) : bool := match c with Lt => false | _ => true end.
Definition is_eq (c : comparison) : bool := match c with Eq => true | _ => false end.

Definition in_interval (minx : bool) (lo : value) (maxx : bool) (hi : value) (v : value) : bool :=
  (if minx then is_lt (vcompare lo v) else is_le (vcompare lo v)) &&
  (if maxx then is_lt (vcompare v hi) else is_le (vcompare v hi)).

Definition is_op (d : bytes) : bool :=
  bytes_eqb d OP_LT || bytes_eqb d OP_LE || bytes_eqb d OP_GT || bytes_eqb d OP_GE ||
  bytes_eqb d OP_EQ || bytes_eqb d OP_NE.

Lemma kind_code_inj k1 k2 : kind_code k1 = kind_code k2 -> k1 = k2.
Proof. destruct k1, k2; cbn; intros H; try reflexivity; discriminate. Qed.

Lemma ladder X Y (R : bool) :
  (if X <? Y then true else if Y <? X then false else R) =
  match N.compare X Y with Lt => true | Gt => false | Eq => R end.
Proof.
  destruct (N.compare_spec X Y) as [->|H|H].
  - rewrite N.ltb_irrefl. reflexivity.
  - destruct (N.ltb_spec X Y); [reflexivity | lia].
  - destruct (N.ltb_spec X Y); [lia|]. destruct (N.ltb_spec Y X); [reflexivity | lia].
Qed.

Lemma add_compare_r x y p : N.compare (x + p) (y + p) = N.compare x y.
Proof. destruct (N.compare_spec x y), (N.compare_spec (x + p) (y + p)); try reflexivity; lia. Qed.

Lemma cmp_cons_ltb X Y a b :
  match N.compare X Y with Lt => true | Gt => false | Eq => bytes_ltb a b end =
  bytes_ltb (X :: a) (Y :: b).
Proof. unfold bytes_ltb. cbn [bytes_cmp]. destruct (N.compare X Y); reflexivity. Qed.

(* stringLessInsensitive = byte-wise order of the ASCII-lower-cased strings *)
Lemma str_less_ci_spec a b : str_less_ci a b = bytes_ltb (fold_case a) (fold_case b).
Proof.
  revert b; induction a as [|x a IH]; intros [|y b]; try reflexivity.
  cbn [str_less_ci fold_case map]. fold (fold_case a) (fold_case b).
  rewrite <- cmp_cons_ltb, <- IH. unfold to_lower.
  destruct (is_upper x), (is_upper y); rewrite ladder; try reflexivity.
  rewrite add_compare_r. reflexivity.
Qed.

Lemma to_lower_idem c : to_lower (to_lower c) = to_lower c.
Proof.
  unfold to_lower. destruct (is_upper c) eqn:E; [|rewrite E; reflexivity].
  unfold is_upper in *. destruct ((65 <=? c + 32) && (c + 32 <=? 90)) eqn:E2; [lia | reflexivity].
Qed.

Lemma fold_case_idem s : fold_case (fold_case s) = fold_case s.
Proof. unfold fold_case. rewrite map_map. apply map_ext. exact to_lower_idem. Qed.

Lemma num_ltb_spec a b : num_ltb a b = is_lt (num_cmp a b).
Proof. destruct a, b; reflexivity. Qed.

Lemma num_cmp_refl a : num_cmp a a = Eq.
Proof. destruct a; cbn; try reflexivity. apply Z.compare_refl. Qed.

Lemma num_cmp_antisym a b : num_cmp b a = CompOpp (num_cmp a b).
Proof. destruct a, b; cbn; try reflexivity. apply Z.compare_antisym. Qed.

(* Value.Less is "Lt" of the documented comparison.  No exception for NaN: num_cmp answers Eq where
   float64 answers "unordered", and both read as "not less". *)
Theorem value_less_spec a b : value_less a b = is_lt (vcompare a b).
Proof.
  unfold value_less, value_less_case, vcompare. rewrite ladder.
  destruct (N.compare (kind_code (v_kind a)) (kind_code (v_kind b))); try reflexivity.
  destruct (v_kind a); cbn; try reflexivity; [apply num_ltb_spec | apply str_less_ci_spec].
Qed.

Lemma vcompare_antisym a b : vcompare b a = CompOpp (vcompare a b).
Proof.
  unfold vcompare. rewrite (N.compare_antisym (kind_code (v_kind a)) (kind_code (v_kind b))).
  destruct (N.compare_spec (kind_code (v_kind a)) (kind_code (v_kind b))) as [E|H|H]; try reflexivity.
  apply kind_code_inj in E. rewrite <- E. cbn [CompOpp].
  destruct (v_kind a); try apply bytes_cmp_antisym. apply num_cmp_antisym.
Qed.

Theorem value_equals_spec a b : value_equals a b = is_eq (vcompare a b).
Proof.
  unfold value_equals. rewrite !value_less_spec, (vcompare_antisym a b). destruct (vcompare a b); reflexivity.
Qed.

Theorem value_less_irrefl a : value_less a a = false.
Proof.
  rewrite value_less_spec. unfold vcompare. rewrite N.compare_refl.
  destruct (v_kind a); rewrite ?bytes_cmp_refl, ?num_cmp_refl; reflexivity.
Qed.

(* Both "less" (s = true) and "not less" (s = false) are transitive: irreflexivity apart, this is
   what a strict weak order is.  For numbers the second half fails through a NaN in the middle. *)
Lemma bytes_ltb_chain s a b c : bytes_ltb a b = s -> bytes_ltb b c = s -> bytes_ltb a c = s.
Proof.
  destruct s; [apply ltb_trans|]. rewrite !bytes_ltb_false_leb. intros H1 H2. exact (bytes_leb_trans _ _ _ H2 H1).
Qed.

Lemma num_ltb_chain s a b c :
  num_is_nan b = false \/ s = true -> num_ltb a b = s -> num_ltb b c = s -> num_ltb a c = s.
Proof. destruct s, a, b, c; cbn; intros [?|?]; intros; try discriminate; try reflexivity; lia. Qed.

Theorem value_less_chain s a b c :
  is_nan b = false \/ s = true -> value_less a b = s -> value_less b c = s -> value_less a c = s.
Proof.
  unfold is_nan. intros Hn. rewrite !value_less_spec. unfold vcompare.
  destruct (N.compare_spec (kind_code (v_kind a)) (kind_code (v_kind b))) as [E1|H1|H1],
           (N.compare_spec (kind_code (v_kind b)) (kind_code (v_kind c))) as [E2|H2|H2],
           (N.compare_spec (kind_code (v_kind a)) (kind_code (v_kind c))) as [E3|H3|H3];
    cbn [is_lt]; try N.order; try congruence.
  (* three values of one kind; bytes_ltb x y is is_lt (bytes_cmp x y) by definition *)
  apply kind_code_inj in E1. rewrite E1. destruct (v_kind b); cbn in Hn; try apply bytes_ltb_chain.
  rewrite <- !num_ltb_spec. apply num_ltb_chain, Hn.
Qed.

Theorem value_less_trans a b c :
  value_less a b = true -> value_less b c = true -> value_less a c = true.
Proof. apply value_less_chain. right; reflexivity. Qed.

Theorem value_less_asym a b : value_less a b = true -> value_less b a = false.
Proof. rewrite !value_less_spec, (vcompare_antisym a b). now destruct (vcompare a b). Qed.

Theorem value_equals_trans a b c :
  is_nan b = false ->
  value_equals a b = true -> value_equals b c = true -> value_equals a c = true.
Proof.
  unfold value_equals. rewrite !andb_true_iff, !negb_true_iff. intros Hn [H1 H2] [H3 H4].
  split; [exact (value_less_chain false a b c (or_introl Hn) H1 H3) | exact (value_less_chain false c b a (or_introl Hn) H4 H2)].
Qed.

Theorem value_trichotomy a b :
  value_less a b = true \/ value_equals a b = true \/ value_less b a = true.
Proof.
  unfold value_equals. destruct (value_less a b); [left; reflexivity|].
  destruct (value_less b a); [right; right; reflexivity | right; left; reflexivity].
Qed.

Lemma is_op_false d :
  is_op d = false ->
  bytes_eqb d OP_LT = false /\ bytes_eqb d OP_LE = false /\ bytes_eqb d OP_GT = false /\
  bytes_eqb d OP_GE = false /\ bytes_eqb d OP_EQ = false /\ bytes_eqb d OP_NE = false.
Proof. unfold is_op. intros H. repeat (apply orb_false_iff in H as [H ?]). auto 10. Qed.

(* the min/max form: interval membership with the two exclusivity flags *)
Theorem where_range_spec w v :
  is_op (v_data (w_min w)) = false ->
  match_field w v = in_interval (w_minx w) (w_min w) (w_maxx w) (w_max w) v.
Proof.
  intros Hop. apply is_op_false in Hop as (H1 & H2 & H3 & H4 & H5 & H6).
  unfold match_field. rewrite H1, H2, H3, H4, H5, H6.
  unfold in_interval, mLTE, mGTE, mGT, mLT.
  rewrite !value_less_spec, (vcompare_antisym (w_min w) v), (vcompare_antisym v (w_max w)).
  destruct (w_minx w), (w_maxx w), (vcompare (w_min w) v), (vcompare v (w_max w)); reflexivity.
Qed.

(* the operator forms: the plain comparison of the field value with the operand *)
Theorem where_ops_spec w v :
  (v_data (w_min w) = OP_LT -> match_field w v = is_lt (vcompare v (w_max w))) /\
  (v_data (w_min w) = OP_LE -> match_field w v = is_le (vcompare v (w_max w))) /\
  (v_data (w_min w) = OP_GT -> match_field w v = is_gt (vcompare v (w_max w))) /\
  (v_data (w_min w) = OP_GE -> match_field w v = is_ge (vcompare v (w_max w))) /\
  (v_data (w_min w) = OP_EQ -> match_field w v = is_eq (vcompare v (w_max w))) /\
  (v_data (w_min w) = OP_NE -> match_field w v = negb (is_eq (vcompare v (w_max w)))).
Proof.
  repeat split; intros Hd; unfold match_field; rewrite Hd; cbn [bytes_eqb OP_LT OP_LE OP_GT OP_GE OP_EQ OP_NE N.eqb Pos.eqb andb];
  unfold mLTE, mGTE, mGT, mLT, mEQ;
  rewrite ?value_equals_spec, ?value_less_spec, ?(vcompare_antisym v (w_max w)); destruct (vcompare v (w_max w)); reflexivity.
Qed.

(* lower-casing a bound (where_make) leaves every comparison unchanged when the bound is a String
   or a Number, or when its data is lower-case already (true / false / null, lower-case JSON) *)
Definition lower_safe (a : value) : Prop :=
  v_kind a = KString \/ v_kind a = KNumber \/ fold_case (v_data a) = v_data a.

Lemma vcompare_lower_l a b : lower_safe a -> vcompare (lower_value a) b = vcompare a b.
Proof.
  unfold vcompare, lower_value. cbn [v_kind v_data v_num]. fold (fold_case (v_data a)).
  intros [K|[K|K]]; rewrite ?K; try reflexivity.
  rewrite fold_case_idem. reflexivity.
Qed.

Lemma vcompare_lower_r a b : lower_safe a -> vcompare b (lower_value a) = vcompare b a.
Proof.
  intros H. rewrite (vcompare_antisym (lower_value a) b), (vcompare_antisym a b), vcompare_lower_l; auto.
Qed.

Theorem scan_count_dir objs ws wis :
  scan_count true objs ws wis = scan_count false objs ws wis.
Proof. unfold scan_count. rewrite filter_rev, rev_length. reflexivity. Qed.

(* an object is returned iff every WHERE and every WHEREIN accepts its (defaulted) field value *)
Theorem field_match_spec ws wis fs :
  field_match ws wis fs =
  forallb (fun nw => match_field (snd nw) (get_field fs (fst nw))) ws &&
  forallb (fun nv => wherein_match (snd nv) (get_field fs (fst nv))) wis.
Proof.
  unfold field_match.
  assert (H1 : wheres_match ws fs = forallb (fun nw => match_field (snd nw) (get_field fs (fst nw))) ws).
  { induction ws as [|[n w] ws IH]; cbn; [reflexivity|].
    destruct (match_field w (get_field fs n)); cbn; [exact IH | reflexivity]. }
  assert (H2 : whereins_match wis fs = forallb (fun nv => wherein_match (snd nv) (get_field fs (fst nv))) wis).
  { induction wis as [|[n vs] wis IH]; cbn; [reflexivity|].
    destruct (wherein_match vs (get_field fs n)); cbn; [exact IH | reflexivity]. }
  rewrite H1, H2. destruct (forallb _ ws); reflexivity.
Qed.

Theorem get_field_missing fs name :
  (forall n v, In (n, v) fs -> n <> name) -> get_field fs name = ZeroValue.
Proof.
  induction fs as [|[n v] fs IH]; cbn; intros H; [reflexivity|].
  destruct (bytes_eqb n name) eqn:E.
  - apply bytes_eqb_eq in E. exfalso. exact (H n v (or_introl eq_refl) E).
  - apply IH. intros n' v' Hin. apply (H n' v'). right; exact Hin.
Qed.
