(* C01 — Command replies and visible state conform to a sequential keyspace model.
   Only the property theorems; each is closed by a lemma of Proofs/Ks*.v or by the
   line or two that prove it here.

   Objects: [exec O true] = the transcription of handleInputCommand's gates + the handlers of crud.go /
   json.go / keys.go / scan.go for the repaired tree (Model/Keyspace.v; [exec O false] = the pinned
   cmdFSET); [sexec_cmd] = the plain map collection -> id -> (object, fields, deadline) of
   Model/Spec.v behind the same command syntax; [abs] forgets the id stored redundantly inside
   every object. [O] is the record of opaque library functions (geojson, sjson/gjson, strconv,
   field.ValueOf): every theorem holds for every O, nothing is assumed about it.

   Full statement aimed at by c01_refines_partial (false as it stands, see c01_refines_ff_refuted):
     forall O p, exists sf rs, run O true [] p = Some (sf, rs) /\ srun O [] p = (abs sf, rs). *)
From T38 Require Import Base.Bytes Base.SMap Model.Field Model.Object Model.Glob Model.Spec Model.Keyspace
  Proofs.KsField Proofs.KsObject Proofs.KsInv Proofs.KsRefine Proofs.KsProgram.

(* One-step simulation: from a well-formed state, a [cmd_ok] command line answers exactly what the plain
   map answers and leaves a state whose abstraction is the plain map's new state. Covers every
   modelled command: SET FSET DEL PDEL DROP RENAME RENAMENX FLUSHDB EXPIRE PERSIST JSET JDEL
   GET FGET EXISTS FEXISTS TTL TYPE KEYS SCAN (CURSOR LIMIT MATCH ASC DESC NOFIELDS IDS OBJECTS COUNT) JGET,
   with the gate errors and every ">> Args" error. *)
Theorem c01_step_refines : forall O e s args s' r log,
  inv s -> cmd_ok O e args -> exec O true e s args = Done s' r log ->
  sexec_cmd O e (abs s) args = (abs s', r) /\ inv s'.
Proof. exact exec_refines. Qed.
Print Assumptions c01_step_refines.

(* Whole programs from the empty database: no panic, same replies, same final visible state.
   _partial: [prog_ok] excludes PDEL / KEYS patterns whose literal prefix ends in byte 0xFF
   (open finding C12-ff of glob.Parse); nothing else is excluded. *)
Theorem c01_refines_partial : forall O p, prog_ok O p ->
  exists sf rs, run O true [] p = Some (sf, rs) /\ srun O [] p = (abs sf, rs) /\ inv sf.
Proof. intros O p. exact (run_refines O p [] inv_nil). Qed.
Print Assumptions c01_refines_partial.

(* ... and that hypothesis cannot be dropped: SET k "ab\xff\x01" STRING a ; PDEL k "ab\xff*" *)
Theorem c01_refines_ff_refuted :
  exists sf rs, run toy_oracle true [] ff_prog = Some (sf, rs) /\ snd (srun toy_oracle [] ff_prog) <> rs.
Proof. eexists. eexists. split; [vm_compute; reflexivity|]. vm_compute. discriminate. Qed.
Print Assumptions c01_refines_ff_refuted.

(* An error or a negative answer (nil, 0) changes nothing and logs nothing — every command, every
   argument list, no side condition on patterns. *)
Theorem c01_error_changes_nothing : forall O e s args s' r log,
  inv s -> exec O true e s args = Done s' r log -> is_negative r = true -> s' = s /\ log = [].
Proof. exact negative_changes_nothing. Qed.
Print Assumptions c01_error_changes_nothing.

(* A collection exists iff it holds at least one object: no reachable state has an empty collection. *)
Theorem c01_nonempty_cols : forall O s, Reach O s -> forall k c, get k s = Some c -> c <> [].
Proof. exact nonempty_cols. Qed.
Print Assumptions c01_nonempty_cols.

(* Reachable states are well formed: keys and ids strictly sorted, every object filed under its
   own id, every field list name-sorted (what the B-tree / binary-search code relies on). *)
Theorem c01_reachable_well_formed : forall O s, Reach O s ->
  msorted s /\ forall k c, get k s = Some c -> c <> [] /\ msorted c /\
     forall id o, get id c = Some o -> o_id o = id /\ msorted (o_fields o).
Proof. exact reach_well_formed. Qed.
Print Assumptions c01_reachable_well_formed.

(* The repaired handlers never dereference a nil object... *)
Theorem c01_no_panic : forall O e s args, exec O true e s args <> Panic.
Proof. exact exec_no_panic. Qed.
Print Assumptions c01_no_panic.

(* ... the pinned cmdFSET does (finding F1): SET k a POINT 1 1 ; FSET k missing XX RETURN a 1.
   The repaired handler answers 0 and changes nothing. *)
Theorem c01_no_panic_pinned_refuted :
  exists s, run toy_oracle false [] f1_prog_prefix = Some (s, [ROk str_OK]) /\
            exec toy_oracle false (toy_env 6) s f1_cmd = Panic /\
            exists s' r l, exec toy_oracle true (toy_env 6) s f1_cmd = Done s' r l /\ s' = s /\ r = RInt 0 /\ l = [].
Proof.
  eexists. split; [vm_compute; reflexivity|]. split; [vm_compute; reflexivity|]. eexists. eexists. eexists.
  split; [vm_compute; reflexivity|]. repeat split.
Qed.
Print Assumptions c01_no_panic_pinned_refuted.

(* What is appended to the log is the command verbatim or nothing. *)
Theorem c01_log_shape : forall O e s args s' r log,
  exec O true e s args = Done s' r log -> log = [] \/ log = [args].
Proof. exact log_shape. Qed.
Print Assumptions c01_log_shape.

(* field.List: Set and Get with their scanning loops and early exits are the plain field map. *)
Theorem c01_field_set_is_map_update : forall l f, msorted l -> fl_set l f = sf_set l f.
Proof. exact fl_set_spec. Qed.
Print Assumptions c01_field_set_is_map_update.

Theorem c01_field_get_is_map_lookup : forall O l name, msorted l -> fl_get O l name = sf_get O l name.
Proof. exact fl_get_spec. Qed.
Print Assumptions c01_field_get_is_map_lookup.

Theorem c01_field_set_sorted : forall l f, msorted l -> msorted (fl_set l f).
Proof. intros l f Hs. rewrite fl_set_spec by exact Hs. apply sf_set_sorted; exact Hs. Qed.
Print Assumptions c01_field_set_sorted.

Theorem c01_field_set_nozero : forall l f, msorted l -> nozero l -> nozero (fl_set l f).
Proof. intros l f Hs Hz. apply Forall_fl_set; auto. Qed.
Print Assumptions c01_field_set_nozero.

(* Field values read back what was written (null/true/false in their one spelling); a zero value
   deletes. [shadowed] = a JSON-valued field "a" that itself answers path "b" hides the field
   literally named "a.b" — the documented meaning of dotted names. *)
Theorem c01_field_readback : forall O l n v,
  msorted l -> is_zero v = false -> shadowed O l n = false ->
  fl_get O (fl_set l (n, v)) n = (n, bfield v).
Proof. exact field_readback. Qed.
Print Assumptions c01_field_readback.

Theorem c01_field_zero_deletes : forall O l n v,
  msorted l -> is_zero v = true -> shadowed O l n = false ->
  fl_get O (fl_set l (n, v)) n = zero_field.
Proof. intros O l n v Hs Hz Hsh. rewrite fl_get_set_same, Hz by assumption. reflexivity. Qed.
Print Assumptions c01_field_zero_deletes.

(* The pinned List.Get does not (finding F2): a stored, unshadowed field reads as the zero field. *)
Theorem c01_field_readback_pinned_refuted :
  exists O l n v, msorted l /\ get n l = Some v /\ is_zero v = false /\ shadowed O l n = false /\
                  fl_get_old O l n = zero_field /\ fl_get O l n = (n, v).
Proof.
  exists toy_foracle, f2_list, f2_name, (mkValue KNumber [53]). split; [exact f2_list_sorted|]. vm_compute.
  repeat split; reflexivity.
Qed.
Print Assumptions c01_field_readback_pinned_refuted.

(* The pinned Value.Equals used by Set/FSET to detect "no change" equates different strings (finding C01-eq). *)
Theorem c01_pinned_equals_refuted : exists a b, a <> b /\ str_equals_ci a b = true.
Proof. exists [65; 66; 67], [97; 98; 99]. split; [discriminate | vm_compute; reflexivity]. Qed.
Print Assumptions c01_pinned_equals_refuted.

(* The head codec: id and deadline packed by makeHead read back through ID() and Expires(),
   for every id (bytes >= 0x80 right after the varint included) and every int64 deadline. *)
Theorem c01_head_roundtrip : forall kind id ex, int64_range ex ->
  head_id (make_head kind id ex) = Some id /\ head_expires (make_head kind id ex) = Some ex.
Proof. exact head_roundtrip. Qed.
Print Assumptions c01_head_roundtrip.

(* non-vacuity: a reachable state with two collections, a string, a field-bearing point with a
   deadline; the program satisfies prog_ok; the last reply reads the point back *)
Example c01_nonvacuous :
  prog_ok toy_oracle demo_prog /\
  exists sf rs, run toy_oracle true [] demo_prog = Some (sf, rs) /\ length sf = 2%nat /\
     find sf w_k w_a = Some (mkObj w_a (mkGeo true (w_1 ++ w_1)) 1000000005 [(w_speed, mkValue KString w_1)]) /\
     find sf w_g w_b = Some (mkObj w_b (mkGeo false w_speed) 0 []) /\
     nth 2 rs RNil = RBulk (w_1 ++ w_1).
Proof.
  split; [vm_compute; auto|]. eexists. eexists. split; [vm_compute; reflexivity|]. vm_compute. repeat split.
Qed.
