(* C01, continuation — "field values read back exactly what was written", at the level of the
   PACKED field list of internal/field/list_binary.go (one allocation: uvarint size header, then
   per entry a shared-name number, a kind byte and, for numbers / strings / JSON, a length-prefixed
   data string).  Props/C01.v speaks about field.List as the name-sorted entry sequence
   (Model/Field.v); this file closes the gap to the bytes (Model/FieldBin.v: ptob, uvarint,
   binary.PutUvarint, putfield, delfield, the entry loop of Set / Get / Scan / Len, Weight).
   Sizes are N: every theorem holds for every body size below 2^63 (a Go slice cannot be longer),
   across the header-length boundaries 2^7, 2^14, 2^21, 2^28, ...
   Only the property theorems; each is closed by a lemma of Proofs/FieldBin*.v or by the line or
   two that prove it here. *)
From Coq Require Import String.
From T38 Require Import Base.Bytes Base.SMap Model.Field Model.Object Model.FieldBin
  Proofs.KsField Proofs.FieldBinProofs Gen.FieldBin Proofs.FieldBinTied.
Local Open Scope N_scope.

(* The size header: a reader whose window is at least as long as the longest header
   (binary.PutUvarint of a uint64: 10 bytes) recovers exactly the body, for every body. *)
Theorem c01_bin_header_roundtrip : forall peek body,
  max_header_len <= peek -> lenN body < two63 -> ptob peek (Some (buf_of body)) = Val body.
Proof. exact ptob_roundtrip. Qed.
Print Assumptions c01_bin_header_roundtrip.

Theorem c01_bin_weight_roundtrip : forall peek body,
  max_header_len <= peek -> lenN body < two64 -> weight peek (Some (buf_of body)) = Val (lenN (buf_of body)).
Proof. exact weight_roundtrip. Qed.
Print Assumptions c01_bin_weight_roundtrip.

(* How long the header is: one more byte at each of 2^7, 2^14, 2^21, 2^28; never more than 10. *)
Theorem c01_bin_header_boundaries : forall x, x < two64 ->
  (header_len x = 1 <-> x < 2 ^ 7) /\
  (header_len x = 2 <-> 2 ^ 7 <= x < 2 ^ 14) /\
  (header_len x = 3 <-> 2 ^ 14 <= x < 2 ^ 21) /\
  (header_len x = 4 <-> 2 ^ 21 <= x < 2 ^ 28) /\
  (header_len x = 5 <-> 2 ^ 28 <= x < 2 ^ 35) /\
  1 <= header_len x <= max_header_len.
Proof. exact header_len_boundaries. Qed.
Print Assumptions c01_bin_header_boundaries.

(* A reader that looks at fewer bytes than the writer emitted does NOT: the body reads as empty
   (no panic, no error) ... *)
Theorem c01_bin_short_window_reads_empty : forall peek body,
  peek < header_len (lenN body) ->
  ptob peek (Some (buf_of body)) = Val [] /\ weight peek (Some (buf_of body)) = Val 0.
Proof. exact ptob_short_peek. Qed.
Print Assumptions c01_bin_short_window_reads_empty.

(* ... e.g. a 3-byte window (binary.MaxVarintLen16) from 2^21 bytes on, where the 10-byte window
   still reads the body back; such bodies exist. *)
Theorem c01_bin_short_window_refuted :
  (exists body : bytes, lenN body = 2 ^ 21) /\
  forall peek body, peek <= 3 -> 2 ^ 21 <= lenN body < two63 ->
    ptob max_header_len (Some (buf_of body)) = Val body /\ body <> [] /\
    ptob peek (Some (buf_of body)) = Val [] /\ weight peek (Some (buf_of body)) = Val 0.
Proof. exact short_window_refuted. Qed.
Print Assumptions c01_bin_short_window_refuted.
(* ... and so does the whole list: Scan shows nothing, Get finds nothing, Len and Weight are 0 *)

Theorem c01_bin_short_window_list_refuted : forall peek sn G l name,
  peek <= 3 -> 2 ^ 21 <= lenN (enc_body sn l) < two64 ->
  bl_scan peek sn (enc sn l) = Val [] /\ bl_get peek sn G (enc sn l) name = Val zero_field /\
  bl_len peek (enc sn l) = Val 0 /\ weight peek (enc sn l) = Val 0.
Proof.
  intros peek sn G l name Hp [Hlo Hhi].
  apply bl_short_peek, (window_short _ 3); [exact Hhi | lia | exact Hp | exact Hlo].
Qed.
Print Assumptions c01_bin_short_window_list_refuted.

(* decode . encode = id: Scan on the packed form of any entry sequence shows that sequence
   (kinds_ok: one of the six kinds, a name the shared-name table knows; fits: below 2^63 bytes). *)
Theorem c01_bin_scan_roundtrip : forall peek sn l,
  max_header_len <= peek -> kinds_ok sn l -> fits sn l -> bl_scan peek sn (enc sn l) = Val (fl_scan l).
Proof.
  intros peek sn l Hp Hk Hb. unfold bl_scan, enc. rewrite (ptob_enc_buf peek _ Hp Hb).
  apply scan_enc; auto using fits_fl_ok.
Qed.
Print Assumptions c01_bin_scan_roundtrip.

Theorem c01_bin_len : forall peek sn l,
  max_header_len <= peek -> kinds_ok sn l -> fits sn l -> bl_len peek (enc sn l) = Val (N.of_nat (length l)).
Proof.
  intros peek sn l Hp Hk Hb. unfold bl_len, enc. rewrite (ptob_enc_buf peek _ Hp Hb).
  apply (len_enc sn); auto using fits_fl_ok.
Qed.
Print Assumptions c01_bin_len.

(* List.Get and List.Set on the bytes are Model.Field's fl_get / fl_set through the codec:
   putfield / delfield splice the entry in or out and write the header of the NEW total length. *)
Theorem c01_bin_get_refines : forall peek sn G l name,
  max_header_len <= peek -> kinds_ok sn l -> fits sn l -> bl_get peek sn G (enc sn l) name = Val (fl_get G l name).
Proof. exact bl_get_enc. Qed.
Print Assumptions c01_bin_get_refines.

Theorem c01_bin_set_refines : forall peek sn l f,
  max_header_len <= peek -> kinds_ok sn l -> fits sn l -> kind_ok (snd f) ->
  bl_set peek sn (enc sn l) f = Val (enc sn (fl_set l f)).
Proof. exact bl_set_enc. Qed.
Print Assumptions c01_bin_set_refines.

(* Field values read back exactly what was written, through the bytes, at every size. *)
Theorem c01_bin_readback : forall peek sn G l n v,
  max_header_len <= peek -> kinds_ok sn l -> fits sn l -> entry_ok sn (n, v) -> fits sn (fl_set l (n, v)) ->
  msorted l -> is_zero v = false -> shadowed G l n = false ->
  exists p', bl_set peek sn (enc sn l) (n, v) = Val p' /\ bl_get peek sn G p' n = Val (n, bfield v).
Proof. exact packed_readback. Qed.
Print Assumptions c01_bin_readback.

(* The tie to the source: the windows, the writer buffers and the uvarint loop found in
   /repo/internal/field/list_binary.go by t38x (Gen/FieldBin.v) are the ones assumed above ... *)
Theorem c01_bin_source_tied : source_tied.
Proof. exact source_is_tied. Qed.
Print Assumptions c01_bin_source_tied.

(* ... so every window of the source reads every header back. *)
Theorem c01_bin_source_windows_roundtrip : forall fn l c body,
  In (fn, l, c) header_windows -> lenN body < two63 ->
  ptob l (Some (buf_of body)) = Val body /\ weight l (Some (buf_of body)) = Val (lenN (buf_of body)).
Proof. exact source_windows_roundtrip. Qed.
Print Assumptions c01_bin_source_windows_roundtrip.

(* non-vacuity: a table, a two-entry list, its 7 packed bytes; the hypotheses hold for it *)
Example c01_bin_nonvacuous :
  (enc toy_sn toy_list = Some [6; 0; 2; 1; 55; 1; 4] /\
   bl_scan 10 toy_sn (enc toy_sn toy_list) = Val toy_list /\
   bl_set 10 toy_sn (enc toy_sn toy_list) ([97], zero_value) = Val (Some [2; 1; 4]) /\
   bl_scan 0 toy_sn (enc toy_sn toy_list) = Val []) /\
  (kinds_ok toy_sn toy_list /\ fits toy_sn toy_list /\ msorted toy_list /\
   entry_ok toy_sn ([98], mkValue KString [120]) /\ fits toy_sn (fl_set toy_list ([98], mkValue KString [120]))).
Proof. split; [vm_compute; repeat split | exact toy_hyps]. Qed.
