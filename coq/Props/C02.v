(* C02 — Spatial search returns exactly the objects satisfying the geometric predicate.
   Only the property theorems, each closed by a lemma of Proofs/ or by the line or two that prove it
   here. *)
From Coq Require Import Reals.
From Flocq Require Import Core BinarySingleNaN.
From T38 Require Import Base.Bytes Model.Float32 Model.Collection Model.Search
  Proofs.CollectionProofs Proofs.CollectionBounds Proofs.Float32Proofs Proofs.Float32Enclosure Proofs.SearchProofs.
Import ListNotations.

(* rtreeValueDown / rtreeValueUp never invert an order: for all doubles x <= y (Go's comparison,
   hence both non-NaN; subnormals, values beyond the float32 range and infinities included)
   down x <= up y as float32 values. *)
Theorem c02_round_monotone : forall x y : f64, le64 x y = true -> le32 (down x) (up y) = true.
Proof. exact round_monotone. Qed.
Print Assumptions c02_round_monotone.

(* Hence two float64 rectangles that overlap still overlap after rtreeRect: the index never
   loses a candidate. *)
Theorem c02_overlap_preserved : forall a b : rect64, overlap64 a b ->
  intersects32 (rtree_rect a) (rtree_rect b) = true /\ is_nan32 (r32_minx (rtree_rect b)) = false.
Proof. exact overlap_rounded. Qed.
Print Assumptions c02_overlap_preserved.

(* "Outward rounding" in the literal sense, where it holds: for every finite double whose magnitude
   is at least the smallest normal float32 (2^-126) and whose float32 conversion does not overflow,
   rtreeValueDown x <= x <= rtreeValueUp x (real-valued, +-Inf read as +-2^128; and with the
   comparisons Go itself would evaluate after converting back to float64). *)
Theorem c02_enclosure_normal_range : forall x : f64,
  is_finite x = true -> (bpow radix2 (-126) <= Rabs (B2R x))%R -> is_finite (to32 x) = true ->
  is_nan (down x) = false /\ is_nan (up x) = false /\
  (ext32 (down x) <= B2R x <= ext32 (up x))%R.
Proof.
  intros x F L F32. pose proof (to32_finite_range x F F32) as RR.
  destruct (down_le_self x F L RR) as [D1 D2]. destruct (self_le_up x F L RR) as [U1 U2]. repeat split; assumption.
Qed.
Print Assumptions c02_enclosure_normal_range.

Theorem c02_enclosure_normal_range_bool : forall x : f64,
  is_finite x = true -> (bpow radix2 (-126) <= Rabs (B2R x))%R -> is_finite (to32 x) = true ->
  le64 (to64 (down x)) x = true /\ le64 x (to64 (up x)) = true.
Proof. intros x F L F32. exact (enclosure_bool x F L (to32_finite_range x F F32)). Qed.
Print Assumptions c02_enclosure_normal_range_bool.

(* Outside that range it is false (subnormal float32 range / beyond MaxFloat32); the index needs only
   the monotonicity above. *)
Theorem c02_enclosure_refuted :
  (exists x : f64, is_nan x = false /\ le64 (to64 (down x)) x = false) /\
  (exists x : f64, is_nan x = false /\ le64 x (to64 (up x)) = false).
Proof.
  split.
  - exists (f64_of_bits 9218868437227405311). split; vm_compute; reflexivity.
  - exists (f64_of_bits 1). split; vm_compute; reflexivity.
Qed.
Print Assumptions c02_enclosure_refuted.

(* Within / Intersects (sparse = 0): index candidates by rounded-rectangle overlap, then the exact
   predicate. Under the oracle hypothesis "hits implies the float64 bounding rectangles overlap" the
   result is exactly the indexed objects that satisfy the predicate, in index order. *)
Theorem c02_search_exact : forall (Q : Type) (qrect : Q -> rect64) (hits : obj -> Q -> bool) c q,
  Wf c ->
  (forall o, hits o q = true -> overlap64 (o_rect o) (qrect q)) ->
  search Q qrect hits c q = filter (fun o => hits o q) (spatial_list c).
Proof. intros Q qrect hits c q W Hrect. apply search_exact_indexed; auto. Qed.
Print Assumptions c02_search_exact.

(* ... and that is exactly the set of retrievable objects for which TEST holds, without duplicates.
   TEST evaluates the predicate through expression.go testObject, which (since the repair
   proposed_fixes/C02-test-empty-geometry.diff) answers false for an empty geometry before calling
   the library — test_hits. The oracle hypotheses are only about non-empty geometries: the predicate
   implies overlapping bounding rectangles, and a non-spatial object never satisfies it. *)
Theorem c02_search_equals_test : forall (Q : Type) (qrect : Q -> rect64) (hits : obj -> Q -> bool) c q,
  Wf c ->
  (forall o, o_empty o = false -> hits o q = true -> overlap64 (o_rect o) (qrect q)) ->
  (forall o, o_empty o = false -> hits o q = true -> o_spatial o = true) ->
  (forall o, In o (search Q qrect hits c q) <-> In o (test_spec Q hits c q)) /\
  NoDup (map o_id (search Q qrect hits c q)).
Proof. exact search_equals_test. Qed.
Print Assumptions c02_search_equals_test.

(* The statement for the raw library predicate (TEST before the repair) needs the extra hypothesis
   "only non-empty geometries satisfy the predicate" ... *)
Theorem c02_search_equals_raw_predicate : forall (Q : Type) (qrect : Q -> rect64) (hits : obj -> Q -> bool) c q,
  Wf c ->
  (forall o, hits o q = true -> overlap64 (o_rect o) (qrect q)) ->
  (forall o, hits o q = true -> o_spatial o = true /\ o_empty o = false) ->
  (forall o, In o (search Q qrect hits c q) <-> In o (search_spec Q hits c q)) /\
  NoDup (map o_id (search Q qrect hits c q)).
Proof. exact search_spec_equiv. Qed.
Print Assumptions c02_search_equals_raw_predicate.

(* ... which cannot be dropped, and which tidwall/geojson violates (Circle.Contains is vacuously
   true for an empty FeatureCollection): with such a predicate the raw index-free evaluation holds for
   an object the index never returns. Finding C02-empty-in-circle; the repaired TEST applies
   the empty rule itself (c02_search_equals_test). *)
Theorem c02_kind_hypothesis_needed :
  exists c q, Wf c /\
    (forall o, In o (scan_ids c) -> vacuous_hits o q = true -> overlap64 (o_rect o) q) /\
    In empty_fc (search_spec rect64 vacuous_hits c q) /\
    search rect64 (fun q => q) vacuous_hits c q = [].
Proof. exact kind_hypothesis_needed. Qed.
Print Assumptions c02_kind_hypothesis_needed.

(* after any history of inserts, overwrites, moves and deletes *)
Theorem c02_any_history : forall ops, Wf (run ops).
Proof. exact wf_run. Qed.
Print Assumptions c02_any_history.

(* SPARSE only thins: every reported object satisfies the predicate and is in the exact result;
   no object is reported twice (for any way of splitting the query rectangle into leaves). *)
Theorem c02_sparse_sound : forall (Q : Type) (qrect : Q -> rect64) (hits : obj -> Q -> bool)
    (leaves : rect64 -> nat -> list rect64) c q n,
  Wf c ->
  (forall o, In o (sparse_search Q qrect hits leaves c q n) -> hits o q = true /\ In o (spatial_list c)) /\
  NoDup (map o_id (sparse_search Q qrect hits leaves c q n)).
Proof. exact sparse_sound. Qed.
Print Assumptions c02_sparse_sound.

(* the same for the quad split geoSparseInner actually performs (float64 w/2, h/2 arithmetic,
   depth-first, 4^n leaves) *)
Theorem c02_sparse_sound_quads : forall (Q : Type) (qrect : Q -> rect64) (hits : obj -> Q -> bool) c q n,
  Wf c ->
  (forall o, In o (sparse_search Q qrect hits quad_leaves c q n) -> hits o q = true /\ In o (spatial_list c)) /\
  NoDup (map o_id (sparse_search Q qrect hits quad_leaves c q n)).
Proof. intros Q qrect hits c q n. apply sparse_sound. Qed.
Print Assumptions c02_sparse_sound_quads.

(* an all-NaN query rectangle returns nothing (the guard of geoSearch) *)
Theorem c02_nan_guard : forall sp qr,
  is_nan (r64_minx qr) = true -> is_nan (r64_miny qr) = true ->
  is_nan (r64_maxx qr) = true -> is_nan (r64_maxy qr) = true -> geo_search sp qr = [].
Proof.
  intros sp qr. destruct qr as [a b c d]. cbn [r64_minx r64_miny r64_maxx r64_maxy]. intros Ha Hb Hc Hd.
  destruct a; try discriminate. destruct b; try discriminate. destruct c; try discriminate.
  destruct d; try discriminate. reflexivity.
Qed.
Print Assumptions c02_nan_guard.

(* non-vacuity: the oracle hypotheses are satisfiable by a non-trivial predicate (bounding boxes
   overlap) and the search then returns a non-empty strict subset on a concrete state *)
Example c02_nonvacuous :
  (forall o q, box_hits o q = true -> overlap64 (o_rect o) q) /\
  (forall o q, box_hits o q = true -> o_spatial o = true /\ o_empty o = false) /\
  let c := run [OSet f12_p1; OSet f12_p2;
                OSet (Obj [113]%N true false 1 17 [] 0 (rect64_of_bits 0 0 0 0));
                OSet (Obj [115]%N false true 0 2 [120]%N 0 (rect64_of_bits 0 0 0 0))] in
  (* the index proposes both points of the float32 cell, the exact predicate keeps the right one *)
  length (geo_search (c_spatial c) (o_rect f12_p1)) = 2%nat /\
  map o_id (search rect64 (fun q => q) box_hits c (o_rect f12_p1)) = [[112; 49]]%N /\
  length (scan_ids c) = 4%nat.
Proof.
  split; [exact box_hits_overlap|]. split; [exact box_hits_kind|]. vm_compute. repeat split; reflexivity.
Qed.

(* non-vacuity of the enclosure hypotheses (x = 100.000002, not a float32) and the repaired TEST on
   the vacuously-true predicate: the empty FeatureCollection is not reported *)
Example c02_enclosure_nonvacuous :
  let x := f64_of_bits 4636737291495373776 in
  is_finite x = true /\ is_finite (to32 x) = true /\
  le64 (f64_of_bits 4039728865751334912) x = true /\       (* 2^-126 <= x *)
  bits_of_f32 (down x) = 1120403456%Z /\ bits_of_f32 (up x) = 1120403458%Z /\
  test_spec rect64 vacuous_hits (run [OSet empty_fc]) (rect64_of_bits 0 0 0 0) = [].
Proof. vm_compute. repeat split; reflexivity. Qed.
