(* C02 (continued) — the query area.  WITHIN / INTERSECTS and TEST each have their own parser from area
   tokens to a geojson object (search.go cmdSearchArgs + parseRectArea; test.go parseArea behind
   token.go parseAreaExpression and cmdTEST).  c02_search_equals_test (Props/C02.v) is about "the same
   area"; these theorems are about the two parsers building it (Model/AreaParse.v, tied to the code by
   harness/cmd/c02/areas.go).  For every instantiation of the library oracles (strings.ToLower,
   strconv.ParseFloat, geojson.Parse of OBJECT and of the sector polygon, the keyspace lookup of GET).
   Only the property theorems, each closed by a lemma of Proofs/ or by the line or two that prove it here. *)
From Coq Require Import String List Bool ZArith NArith.
From T38 Require Import Base.Bytes Model.Float32 Model.Collection Model.Search Model.AreaParse
  Proofs.CollectionProofs Proofs.SearchProofs
  Proofs.AreaParseBing Proofs.AreaParseProofs.
Import ListNotations.
Local Open Scope Z_scope.

(* cmdSearchArgs from the type word to the end of the CLIPBY loop: for every command, every
   combination of FENCE / CLIP / "BOUNDS read as output format" and every token list, no index out of
   range, no QuadKeyToTileXY panic, and the CLIPBY loop ends. *)
Theorem c02ar_search_never_panics : forall lower pf gj_ok sec_ok lookup cmd fence clip outb vs,
  search_area lower pf gj_ok sec_ok lookup cmd fence clip outb vs <> Panic /\
  search_area lower pf gj_ok sec_ok lookup cmd fence clip outb vs <> NoFuel.
Proof. intros. eapply safe_no_panic, post_safe, search_area_post. Qed.
Print Assumptions c02ar_search_never_panics.

(* parseArea, and cmdTEST's second half through parseAreaExpression (on the token lists that do not
   build an AND / OR / NOT / parenthesis tree; those answer TOutside). *)
Theorem c02ar_test_never_panics : forall lower pf gj_ok sec_ok lookup,
  (forall dc vs, parse_area lower pf gj_ok sec_ok lookup dc vs <> Panic /\
                 parse_area lower pf gj_ok sec_ok lookup dc vs <> NoFuel) /\
  (forall isect a1nil vs, test_tail lower pf gj_ok sec_ok lookup isect a1nil vs <> TPanic /\
                          test_tail lower pf gj_ok sec_ok lookup isect a1nil vs <> TNoFuel).
Proof.
  intros lower pf gj_ok sec_ok lookup. split.
  - intros dc vs. apply safe_no_panic, parse_area_safe.
  - apply test_tail_safe.
Qed.
Print Assumptions c02ar_test_never_panics.

(* WITHIN / INTERSECTS accepted the tokens (no CLIP before them, BOUNDS not read as the output format;
   FENCE or not): then TEST … WITHIN|INTERSECTS <the same tokens>
     - builds exactly the same object and consumes every token, when the search area is one of POINT,
       CIRCLE, OBJECT, SECTOR, BOUNDS, HASH, QUADKEY, TILE, GET without CLIPBY;
     - answers "invalid number of arguments" for the two things only the search side knows: MVT
       (s_mvt) and CLIPBY (AClip).
   The hypothesis tile_z_unsigned excludes TILE x y z with a sign in front of z (c02ar_tile_sign_refuted). *)
Theorem c02ar_search_ok_test_same : forall lower pf gj_ok sec_ok lookup cmd fence isect vs r,
  is_nearby cmd = false ->
  search_area lower pf gj_ok sec_ok lookup cmd fence false false vs = Ok r ->
  tile_z_unsigned lower vs = true ->
  test_tail lower pf gj_ok sec_ok lookup isect false vs = expected_test r.
Proof. exact search_ok_test_same. Qed.
Print Assumptions c02ar_search_ok_test_same.

(* TEST accepted the tokens as one object a (no CLIP): then the search side builds the same object
   from them with no MVT / CLIP / ROAM side effect — except that (2) TEST parses and ignores further
   areas after the first where search demands CLIPBY ("invalid number of arguments"), and (3) TEST
   evaluates TILE x y z for every int64 x, y and uint64 z where search demands 0 <= x, 0 <= y, z <= 23. *)
Theorem c02ar_test_ok_search_same : forall lower pf gj_ok sec_ok lookup cmd fence isect vs a,
  is_nearby cmd = false ->
  test_tail lower pf gj_ok sec_ok lookup isect false vs = TOk false a ->
  (exists r, search_area lower pf gj_ok sec_ok lookup cmd fence false false vs = Ok r /\ s_obj r = a /\
             s_mvt r = false /\ s_clip r = false /\ s_outreset r = false /\ s_roam r = None)
  \/ (search_area lower pf gj_ok sec_ok lookup cmd fence false false vs = Err ENumArgs /\
      exists rest, parse_area lower pf gj_ok sec_ok lookup false vs = Ok (rest, a) /\ rest <> [])
  \/ (exists x y z t, a = ATile x y z /\ (x < 0 \/ y < 0 \/ 23 < z) /\
      search_area lower pf gj_ok sec_ok lookup cmd fence false false vs = Err (EInvalidArg t)).
Proof. exact test_ok_search_same. Qed.
Print Assumptions c02ar_test_ok_search_same.

(* Both fail: for the eight words on which the parsers run the same statements, an error of the search
   side is the same error value (same text) on the TEST side, unless the area itself was fine and the
   error is about what follows it (CLIPBY syntax against expression syntax). *)
Theorem c02ar_same_error : forall lower pf gj_ok sec_ok lookup cmd fence isect typ vs1 e,
  is_nearby cmd = false -> is_empty typ = false ->
  shared_any (lower typ) = true \/ shared_noclip (lower typ) = true ->
  search_area lower pf gj_ok sec_ok lookup cmd fence false false (typ :: vs1) = Err e ->
  test_tail lower pf gj_ok sec_ok lookup isect false (typ :: vs1) = TErr e
  \/ exists rest a, parse_area lower pf gj_ok sec_ok lookup false (typ :: vs1) = Ok (rest, a) /\ rest <> [].
Proof. exact shared_error_same. Qed.
Print Assumptions c02ar_same_error.

(* The switch of cmdSearchArgs and parseArea are the same function on the shared words: same object,
   same rest of the token list, same error — with CLIP too for POINT / BOUNDS / HASH / QUADKEY. *)
Theorem c02ar_switch_is_parse_area : forall lower pf gj_ok sec_ok lookup cmd clip typ vs,
  is_nearby cmd = false -> is_empty typ = false ->
  (shared_any (lower typ) = true \/ (clip = false /\ shared_noclip (lower typ) = true)) ->
  search_switch lower pf gj_ok sec_ok lookup cmd clip (lower typ) vs
  = lift clip (parse_area lower pf gj_ok sec_ok lookup clip (typ :: vs)).
Proof. exact switch_shared. Qed.
Print Assumptions c02ar_switch_is_parse_area.

(* With CLIP both refuse CIRCLE / OBJECT / SECTOR / GET, whatever follows; the texts differ by design
   ("invalid argument 'cannot clip with circle'" against "invalid clip type 'CIRCLE'"). *)
Theorem c02ar_clip_refused_texts_differ : forall lower pf gj_ok sec_ok lookup cmd typ vs,
  is_empty typ = false ->
  beq (lower typ) "circle" || beq (lower typ) "object" || beq (lower typ) "sector"
    || beq (lower typ) "get" = true ->
  (exists m, search_switch lower pf gj_ok sec_ok lookup cmd true (lower typ) vs
             = Err (EInvalidArg (lit "cannot clip with " ++ m)))
  /\ parse_area lower pf gj_ok sec_ok lookup true (typ :: vs) = Err (EClipType typ).
Proof. exact switch_clip_refused. Qed.
Print Assumptions c02ar_clip_refused_texts_differ.

(* WITHIN|INTERSECTS key … <tokens> (no MVT, no CLIPBY) returns exactly the ids for which TEST GET key id
   WITHIN|INTERSECTS <the same tokens> answers 1: the tokens denote the same object on both sides (previous theorems) and
   for one object the index walk equals the index-free evaluation (c02_search_equals_test). *)
Theorem c02ar_tokens_search_equals_test :
  forall lower pf gj_ok sec_ok lookup (Q : Type) (denote : area -> Q) (qrect : Q -> rect64)
         (hits : obj -> Q -> bool) c cmd fence isect vs r,
  is_nearby cmd = false ->
  search_area lower pf gj_ok sec_ok lookup cmd fence false false vs = Ok r ->
  tile_z_unsigned lower vs = true ->
  s_mvt r = false -> plain (s_obj r) = true ->
  Wf c ->
  (forall o, o_empty o = false -> hits o (denote (s_obj r)) = true ->
             overlap64 (o_rect o) (qrect (denote (s_obj r)))) ->
  (forall o, o_empty o = false -> hits o (denote (s_obj r)) = true -> o_spatial o = true) ->
  exists a, test_tail lower pf gj_ok sec_ok lookup isect false vs = TOk false a /\
    (forall o, In o (search Q qrect hits c (denote (s_obj r))) <-> In o (test_spec Q hits c (denote a))) /\
    NoDup (map o_id (search Q qrect hits c (denote (s_obj r)))).
Proof.
  intros lower pf gj_ok sec_ok lookup Q denote qrect hits c cmd fence isect vs r Hnb Hs Hu Hmvt Hp Hwf H1 H2.
  exists (s_obj r). split.
  - rewrite (search_ok_test_same lower pf gj_ok sec_ok lookup cmd fence isect vs r Hnb Hs Hu). unfold expected_test.
    rewrite Hmvt. destruct (s_obj r); try discriminate; reflexivity.
  - apply search_equals_test; assumption.
Qed.
Print Assumptions c02ar_tokens_search_equals_test.

(* "WITHIN key BOUNDS minlat minlon maxlat maxlon": parseSearchScanBaseTokens took BOUNDS for the output
   format; when the next token is a number cmdSearchArgs parses exactly as if BOUNDS had been the area
   word, and resets the output format. *)
Theorem c02ar_bounds_shorthand : forall lower pf gj_ok sec_ok lookup cmd fence clip t vs b,
  is_nearby cmd = false -> is_empty t = false -> pf t = Some b ->
  search_area lower pf gj_ok sec_ok lookup cmd fence clip true (t :: vs) =
    match search_area lower pf gj_ok sec_ok lookup cmd fence clip false (lit "BOUNDS" :: t :: vs) with
    | Ok r => Ok (mkS (s_obj r) true (s_tile r) (s_mvt r) (s_clip r) (s_roam r))
    | x => x
    end.
Proof. exact bounds_shorthand. Qed.
Print Assumptions c02ar_bounds_shorthand.

(* Every accepted WITHIN / INTERSECTS — any FENCE / CLIP flags, the BOUNDS shorthand included, any
   CLIPBY chain — leaves a search object: Collection.Within / Intersects never receive nil. *)
Theorem c02ar_search_obj_nonnil : forall lower pf gj_ok sec_ok lookup cmd fence clip outb vs r,
  is_nearby cmd = false ->
  search_area lower pf gj_ok sec_ok lookup cmd fence clip outb vs = Ok r -> s_obj r <> ANil.
Proof. intros until r. intros Hnb Hs. exact (post_ok _ _ _ _ (search_area_post _ _ _ _ _ _ _ _ _ _) Hs Hnb). Qed.
Print Assumptions c02ar_search_obj_nonnil.

(* The pinned code (before /repo 1d3bf59) refuted it: GEO was in withinOrIntersectsTypes and has no arm in
   the switch (finding C02-within-geo-nil, fixed: WITHIN key GEO made the server dereference nil). The
   repaired code refuses the word. *)
Theorem c02ar_search_obj_nonnil_pinned_refuted :
  (exists vs r, search0_pinned CWithin false false false vs = Ok r /\ s_obj r = ANil) /\
  search0 CWithin false false false (toks ["GEO"%string]) = Err (EInvalidArg (lit "GEO")).
Proof.
  split; [|vm_compute; reflexivity]. exists (toks ["GEO"%string]). eexists.
  split; [vm_compute; reflexivity|reflexivity].
Qed.
Print Assumptions c02ar_search_obj_nonnil_pinned_refuted.

(* "CLIP cannot be combined with GET" (part of c02ar_clip_refused_texts_differ) was FALSE in the pinned
   code (before /repo 7096363) as soon as a CLIPBY followed: the arm set err and did not return, and the
   CLIPBY loop overwrote err (finding C02-clip-get-clipby, fixed). The repaired code refuses both. *)
Theorem c02ar_clip_get_pinned_refuted :
  (search0_pinned CIntersects false true false (toks ["GET"; "k"; "i"]%string)
     = Err (EInvalidArg (lit "cannot clip with get")) /\
   exists r, search0_pinned CIntersects false true false
               (toks ["GET"; "k"; "i"; "CLIPBY"; "BOUNDS"; "0"; "0"; "1"; "1"]%string) = Ok r
             /\ s_clip r = true
             /\ s_obj r = AClip (AGet (lit "k") (lit "i")) (ABounds 0 0 4607182418800017408 4607182418800017408)) /\
  search0 CIntersects false true false (toks ["GET"; "k"; "i"; "CLIPBY"; "BOUNDS"; "0"; "0"; "1"; "1"]%string)
    = Err (EInvalidArg (lit "cannot clip with get")).
Proof.
  split; [|vm_compute; reflexivity]. split; [vm_compute; reflexivity|]. eexists.
  split; [vm_compute; reflexivity|split; reflexivity].
Qed.
Print Assumptions c02ar_clip_get_pinned_refuted.

(* "search accepts => TEST builds the same" is FALSE for TILE x y +z: Atoi reads the sign, ParseUint
   refuses it (finding C02-tile-sign). *)
Theorem c02ar_tile_sign_refuted :
  exists vs r, search0 CWithin false false false vs = Ok r /\ s_obj r = ATile 0 0 1 /\
               test0 false false vs = TErr (EInvalidArg (lit "+1")).
Proof.
  exists (toks ["TILE"; "0"; "0"; "+1"]%string). eexists.
  split; [vm_compute; reflexivity|split; [reflexivity|vm_compute; reflexivity]].
Qed.
Print Assumptions c02ar_tile_sign_refuted.

(* "TEST accepts => search accepts" is FALSE in the two ways c02ar_test_ok_search_same lists. *)
Theorem c02ar_tile_range_refuted :
  (search0 CWithin false false false (toks ["TILE"; "-1"; "0"; "5"]%string) = Err (EInvalidArg (lit "-1")) /\
   test0 false false (toks ["TILE"; "-1"; "0"; "5"]%string) = TOk false (ATile (-1) 0 5)) /\
  (search0 CWithin false false false (toks ["TILE"; "0"; "0"; "24"]%string) = Err (EInvalidArg (lit "24")) /\
   test0 false false (toks ["TILE"; "0"; "0"; "24"]%string) = TOk false (ATile 0 0 24)).
Proof. repeat split; vm_compute; reflexivity. Qed.
Print Assumptions c02ar_tile_range_refuted.

(* a second area after the first: TEST parses it and ignores it, search wants CLIPBY *)
Theorem c02ar_trailing_area_refuted :
  search0 CWithin false false false
    (toks ["BOUNDS"; "0"; "0"; "1"; "1"; "BOUNDS"; "5"; "5"; "5"; "5"]%string) = Err ENumArgs /\
  test0 false false (toks ["BOUNDS"; "0"; "0"; "1"; "1"; "BOUNDS"; "5"; "5"; "5"; "5"]%string)
    = TOk false (ABounds 0 0 4607182418800017408 4607182418800017408).
Proof. split; vm_compute; reflexivity. Qed.
Print Assumptions c02ar_trailing_area_refuted.

(* An unknown area word fails on both sides with different texts, by design. *)
Theorem c02ar_unknown_word_texts_differ :
  search0 CWithin false false false (toks ["FOO"%string]) = Err (EInvalidArg (lit "FOO")) /\
  test0 false false (toks ["FOO"%string]) = TErr ENumArgs.
Proof. split; vm_compute; reflexivity. Qed.
Print Assumptions c02ar_unknown_word_texts_differ.

(* internal/bing: levelOfDetail = len(quadKey) *)
Theorem c02ar_quadkey_level : forall k x y z,
  quadkey_to_tilexy k = Some (x, y, z) -> z = Z.of_nat (length k).
Proof. exact quadkey_level. Qed.
Print Assumptions c02ar_quadkey_level.

(* QuadKeyToTileXY panics exactly on a character outside '0'..'3' ... *)
Theorem c02ar_quadkey_panics_iff : forall k,
  quadkey_to_tilexy k = None <-> forallb quadkey_digit k = false.
Proof.
  intros k. rewrite quadkey_to_tilexy_acc. destruct (forallb quadkey_digit k); split; (discriminate || reflexivity).
Qed.
Print Assumptions c02ar_quadkey_panics_iff.

(* ... which QuadKeyToBounds checks first: it never panics, for a string of any length. *)
Theorem c02ar_quadkey_bounds_never_panics : forall k,
  quadkey_to_bounds k <> Panic /\ quadkey_to_bounds k <> NoFuel.
Proof. intros k. rewrite quadkey_to_bounds_acc. split; discriminate. Qed.
Print Assumptions c02ar_quadkey_bounds_never_panics.

(* Up to 63 digits: bit (level-1-j) of tileX / tileY is the low / high bit of digit j and no other bit
   is set, so 0 <= tileX, tileY < 2^level. *)
Theorem c02ar_quadkey_bits : forall k x y z, (length k <= 63)%nat ->
  quadkey_to_tilexy k = Some (x, y, z) ->
  (forall j, (j < length k)%nat ->
     Z.testbit x (Z.of_nat (length k - 1 - j)) = dig_x (nth j k 0%N) /\
     Z.testbit y (Z.of_nat (length k - 1 - j)) = dig_y (nth j k 0%N))
  /\ (forall m, Z.of_nat (length k) <= m -> Z.testbit x m = false /\ Z.testbit y m = false).
Proof. exact quadkey_bits. Qed.
Print Assumptions c02ar_quadkey_bits.

Theorem c02ar_quadkey_range : forall k x y z, (length k <= 63)%nat ->
  quadkey_to_tilexy k = Some (x, y, z) -> 0 <= x < 2 ^ z /\ 0 <= y < 2 ^ z.
Proof.
  intros k x y z Hlen H. rewrite (quadkey_level _ _ _ _ H). destruct (quadkey_bits _ _ _ _ Hlen H) as [_ Hhi].
  split; apply high_bits_clear_range; try lia; intros m Hm; apply Hhi; exact Hm.
Qed.
Print Assumptions c02ar_quadkey_range.

(* TileXYToQuadKey (QuadKeyToTileXY k) = k *)
Theorem c02ar_quadkey_roundtrip : forall k x y z, (length k <= 63)%nat ->
  quadkey_to_tilexy k = Some (x, y, z) -> tilexy_to_quadkey (Z.to_nat z) x y = k.
Proof. exact quadkey_roundtrip. Qed.
Print Assumptions c02ar_quadkey_roundtrip.

(* Beyond 64 digits int64(1 << (i-1)) is 0: leading digits are ignored (QUADKEY accepts any length). *)
Theorem c02ar_quadkey_leading_ignored : forall c k x y, (64 <= length k)%nat -> quadkey_digit c = true ->
  qk_loop (c :: k) x y = qk_loop k x y.
Proof. exact quadkey_leading_ignored. Qed.
Print Assumptions c02ar_quadkey_leading_ignored.

(* The agreement theorems' hypotheses hold for concrete token lists (ASCII lower-casing, ParseFloat on
   the literals used): a circle, a sector in lower case, a mixed-case quadkey decoded to tile 5/3/4. *)
Example c02ar_agreement_nonvacuous :
  (exists r, search0 CWithin false false false (toks ["CIRCLE"; "1"; "5"; "24"]%string) = Ok r /\
             test0 false false (toks ["CIRCLE"; "1"; "5"; "24"]%string) = TOk false (s_obj r) /\
             s_obj r = ACircle 4607182418800017408 4617315517961601024 4627448617123184640) /\
  (exists r, search0 CIntersects false false false (toks ["sector"; "0"; "0"; "24"; "1"; "5"]%string) = Ok r /\
             test0 true false (toks ["sector"; "0"; "0"; "24"; "1"; "5"]%string) = TOk false (s_obj r) /\
             s_obj r = ASector 0 0 4627448617123184640 4607182418800017408 4617315517961601024) /\
  (exists r, search0 CWithin false false false (toks ["QuadKey"; "0123"]%string) = Ok r /\
             test0 false false (toks ["QuadKey"; "0123"]%string) = TOk false (s_obj r) /\
             s_obj r = ATile 5 3 4).
Proof.
  repeat split; eexists; (split; [vm_compute; reflexivity|split; [vm_compute; reflexivity|reflexivity]]).
Qed.

Example c02ar_quadkey_roundtrip_example :
  quadkey_to_tilexy (lit "0313102310") = Some (486, 332, 10) /\
  tilexy_to_quadkey 10 486 332 = lit "0313102310".
Proof. split; vm_compute; reflexivity. Qed.
