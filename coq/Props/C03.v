(* C03 — Restart reproduces exactly the acknowledged state (AOF replay equivalence).
   (1) generic over the dataset type and the command semantics `exec` (the keyspace model is the
   instance): replaying the log equals the live state; a kill at any byte recovers the state after a
   PREFIX of the program. (2) over the tables regenerated from /repo: every command, script
   sub-command and sweeper action that can change the dataset is handed to writeAOF. *)
From Coq Require Import String List Bool ZArith.
From T38 Require Import Base.Bytes Model.Resp Model.Aof Proofs.AofProofs Model.Replay Proofs.ReplayProofs.
From T38 Require Import Model.Tables Gen.LockTable Gen.Dispatch Gen.ScriptTables Gen.Mutators Model.Gate Proofs.GateProofs.
Import ListNotations.

(* the log contains exactly the updating commands; replaying it from the same initial state yields
   the live state, for every program — provided a command that reports "not updated" changed nothing *)
Theorem c03_replay_equiv : forall (S : Type) (exec : S -> cmd -> S * bool),
  (forall s c, snd (exec s c) = false -> fst (exec s c) = s) ->
  forall p s0, replay S exec (logof S exec p s0) s0 = run S exec p s0.
Proof.
  intros S exec noupd p s0.
  exact (replay_logof_on S exec (fun _ => True) (fun _ _ _ => I) (fun s c _ => noupd s c) p s0 I).
Qed.
Print Assumptions c03_replay_equiv.

(* killing the process at any instant leaves a byte prefix q of the file: start-up recovers exactly
   the state after some prefix p1 of the program (no partially applied command), truncates the file
   to the end of p1's log, and p1 contains every command whose bytes were wholly written (by C08 that
   includes every acknowledged one) *)
Theorem c03_crash_prefix : forall (S : Type) (exec : S -> cmd -> S * bool),
  (forall s c, snd (exec s c) = false -> fst (exec s c) = s) ->
  forall p s0 q t,
  Forall cmd_ok (logof S exec p s0) -> (q ++ t)%list = encs (logof S exec p s0) ->
  exists p1 p2, p = (p1 ++ p2)%list /\
    recover S exec q s0 = Some (run S exec p1 s0, len (encs (logof S exec p1 s0))) /\
    (len (encs (logof S exec p1 s0)) <= len q)%Z /\
    (forall m, (m <= length (logof S exec p s0))%nat ->
               (len (encs (firstn m (logof S exec p s0))) <= len q)%Z ->
               (m <= length (logof S exec p1 s0))%nat).
Proof.
  intros S exec noupd p s0 q t.
  exact (crash_prefix_on S exec (fun _ => True) (fun _ _ _ => I) (fun s c _ => noupd s c) p s0 q t I).
Qed.
Print Assumptions c03_crash_prefix.

Open Scope string_scope.

(* every command string whose handler can change the dataset is in an arm with write = true of a
   table that calls writeAOF when write is set (dev-only commands excepted) *)
Theorem c03_every_change_logged : forall c, logged_check c = true.
Proof. exact every_change_logged. Qed.
Print Assumptions c03_every_change_logged.

(* the same for sub-commands of EVAL / EVALSHA / EVALNA / EVALNASHA *)
Theorem c03_script_writes_logged :
  forall t, In t [script_rw; script_na] -> forall c, script_logged_check t c = true.
Proof. exact script_writes_logged. Qed.
Print Assumptions c03_script_writes_logged.

(* expirations (objects and hooks) go through writeAOF as well: both sweepers reach the log buffer *)
Theorem c03_expiry_logged :
  touches ["aofbuf"] (fn_effects "backgroundExpireObjects") = true /\
  touches ["aofbuf"] (fn_effects "backgroundExpireHooks") = true /\
  touches ["Collection"; "cols"] (fn_effects "backgroundExpireObjects") = true.
Proof. vm_compute. repeat split. Qed.
Print Assumptions c03_expiry_logged.

(* non-vacuity: a toy instance (a counter; command [x] adds, [] is a no-op) cut inside its 2nd record *)
Example c03_nonvacuous :
  let exec := fun (s : Z) (c : cmd) => match c with [[x]] => ((s + Z.of_N x)%Z, true) | _ => (s, false) end in
  let p := [[[1%N]]; []; [[2%N]]; [[3%N]]] in
  logof Z exec p 0%Z = [[[1%N]]; [[2%N]]; [[3%N]]] /\
  recover Z exec (firstn 20 (encs (logof Z exec p 0%Z))) 0%Z = Some (1%Z, 11%Z) /\
  changes "jset" = true /\ changes "sethook" = true.
Proof. vm_compute. repeat split. Qed.
