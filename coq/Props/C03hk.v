(* C03 — restart reproduces the acknowledged state: HOOKS AND CHANNELS.
   The theorems of Props/C03.v / C03ks.v for the registry of hooks and channels: the life-cycle
   model Model/HookLife.v (cmdSetHook with META / EX / the Equals path / the name clash, cmdDelHook,
   cmdPDelHook, cmdHooks, FLUSHDB, backgroundExpireHooks), whose every step is compared with the
   server by harness/internal/hooklife (replies, listings, the bytes of the AOF, restart, kill,
   cut log, sweeper records). Only theorems, each closed by a lemma of Proofs/ or by the line that
   proves it here.

   [exec O now s args] = (registry', reply, updated): [updated] is "writeAOF appended args".
   A program is a list of [PCmd now args] (a client command at ITS OWN clock reading) and
   [PSweep now] (a pass of backgroundExpireHooks); [plog] is what the program appends to the log
   (commands with updated = true, and the DELHOOK / DELCHAN records of the sweeper); [replay_at O clk]
   applies log records in order, record i at clock [clk i] — ANY clock function: the restart happens
   later, and records are applied faster than they were issued.  [er] erases deadline VALUES (keeps
   "has a deadline"): a deadline is re-armed relative to the replay, so values cannot be kept.
   [Inv]: names sorted, unique and non-empty, hookExpires sorted and exact; it holds for the empty
   registry and is preserved by everything (c03hk_inv), so the theorems hold along every run. *)
From Coq Require Import String.
From Coq Require Import List ZArith.
From T38 Require Import Base.Bytes Base.SMap Model.Spec Model.HookLife Proofs.HookLifeProofs.
From T38 Require Model.Resp Model.Aof Proofs.AofProofs Model.Replay Model.Expire.
Import ListNotations.
Local Open Scope Z_scope.

(* every registry a program reaches from the empty one satisfies the invariant *)
Theorem c03hk_inv : forall O p, Inv (prun O p empty).
Proof. exact reachable_inv. Qed.
Print Assumptions c03hk_inv.

(* a command that is not appended to the log (an error, a listing, the "Equals: nothing to do" path
   of SETHOOK / SETCHAN, a DEL / PDEL that hits nothing) leaves the registry AND hookExpires exactly
   as they were — every oracle, every clock, every command line *)
Theorem c03hk_unlogged_unchanged : forall O now s args s' r,
  Inv s -> exec O now s args = (s', r, false) -> s' = s /\ logrec args false = [].
Proof. intros O now s args s' r Hi H. pose proof (noupd_exec O now s args Hi) as N. rewrite H in N. split; [exact (N eq_refl) | reflexivity]. Qed.
Print Assumptions c03hk_unlogged_unchanged.

(* restart at ANY clock: the log of any program — commands at their own clock readings, sweeper
   passes in between — replayed from the empty registry reproduces the live registry with name,
   kind, key, endpoints, fence command and metas of every hook and channel, and every deadline kept
   as a deadline *)
Theorem c03hk_restart_deadline_kept : forall O clk p,
  er (replay_at O clk 0 (plog O p empty) empty) = er (prun O p empty).
Proof. intros O clk p. rewrite plog_flat, prun_flat. apply replay_clog; [exact inv_empty | exact inv_empty | reflexivity]. Qed.
Print Assumptions c03hk_restart_deadline_kept.

(* ... from any two well-formed registries that agree up to deadline values *)
Theorem c03hk_restart_deadline_kept_from : forall O clk p s0 s0',
  Inv s0 -> Inv s0' -> er s0 = er s0' ->
  er (replay_at O clk 0 (plog O p s0) s0') = er (prun O p s0).
Proof. intros O clk p s0 s0' Hi Hi' E. rewrite plog_flat, prun_flat. apply replay_clog; assumption. Qed.
Print Assumptions c03hk_restart_deadline_kept_from.

(* what "up to deadline values" keeps *)
Theorem c03hk_deadline_meaning : forall s s', er s = er s' ->
  keys (hooks s) = keys (hooks s') /\
  forall n,
    match get n (hooks s), get n (hooks s') with
    | Some h, Some h' =>
        h_name h = h_name h' /\ h_chan h = h_chan h' /\ h_key h = h_key h' /\ h_eps h = h_eps h' /\
        h_args h = h_args h' /\ h_metas h = h_metas h' /\ (h_ex h = None <-> h_ex h' = None)
    | None, None => True
    | _, _ => False
    end.
Proof. exact er_meaning. Qed.
Print Assumptions c03hk_deadline_meaning.

(* kill at any instant: the file is a byte prefix q of the log. Start-up (the loader of C04) at any
   clock recovers, up to deadline values, the registry after a PREFIX p1 of the program — sweeper
   passes written out as the DELHOOK / DELCHAN commands they execute ([flat]), so a cut inside a pass
   keeps the victims deleted so far —, truncates the file to the end of p1's log, and p1 holds every
   record whose bytes were wholly written *)
Theorem c03hk_crash_prefix : forall O clk p s0 q t,
  Inv s0 -> Forall AofProofs.cmd_ok (plog O p s0) -> (q ++ t)%list = Resp.encs (plog O p s0) ->
  exists p1 p2 s1, flat O p s0 = (p1 ++ p2)%list /\
    recover_at O clk q s0 = Some (s1, Resp.len (Resp.encs (clog O p1 s0))) /\
    er s1 = er (crun O p1 s0) /\ Inv s1 /\
    Resp.len (Resp.encs (clog O p1 s0)) <= Resp.len q /\
    (forall m, (m <= length (plog O p s0))%nat ->
               Resp.len (Resp.encs (firstn m (plog O p s0))) <= Resp.len q ->
               (m <= length (clog O p1 s0))%nat).
Proof. exact hk_crash_prefix. Qed.
Print Assumptions c03hk_crash_prefix.

(* [flat] is the same program: same final registry, same log *)
Theorem c03hk_flat_same : forall O p s, prun O p s = crun O (flat O p s) s /\ plog O p s = clog O (flat O p s) s.
Proof. intros O p s. split; [apply prun_flat | apply plog_flat]. Qed.
Print Assumptions c03hk_flat_same.

(* expiry records replay: the DELHOOK / DELCHAN records of a sweeper pass, applied at any clock to a
   registry that agrees up to deadline values, delete exactly what the pass deleted *)
Theorem c03hk_expiry_replays : forall O clk now s s',
  Inv s -> Inv s' -> er s = er s' ->
  er (replay_at O clk 0 (snd (sweep now s)) s') = er (fst (sweep now s)).
Proof. intros O clk now s s' Hi Hi' E. rewrite (sweep_as_cmds O now s). apply replay_clog; assumption. Qed.
Print Assumptions c03hk_expiry_replays.

(* the instance of Props/C03.v (Model/Replay.v) with a frozen clock: exact equality, index included *)
Theorem c03hk_replay_equiv : forall O now p s0, Inv s0 ->
  Replay.replay state (hk_exec O now) (Replay.logof state (hk_exec O now) p s0) s0 = Replay.run state (hk_exec O now) p s0.
Proof. intros O now p. exact (ReplayProofs.replay_logof_on state (hk_exec O now) Inv (hkf_inv O now) (hkf_noupd O now) p). Qed.
Print Assumptions c03hk_replay_equiv.

Theorem c03hk_crash_prefix_frozen : forall O now p s0 q t,
  Inv s0 ->
  Forall AofProofs.cmd_ok (Replay.logof state (hk_exec O now) p s0) ->
  (q ++ t)%list = Resp.encs (Replay.logof state (hk_exec O now) p s0) ->
  exists p1 p2, p = (p1 ++ p2)%list /\
    Replay.recover state (hk_exec O now) q s0 =
      Some (Replay.run state (hk_exec O now) p1 s0, Resp.len (Resp.encs (Replay.logof state (hk_exec O now) p1 s0))) /\
    Resp.len (Resp.encs (Replay.logof state (hk_exec O now) p1 s0)) <= Resp.len q /\
    (forall m, (m <= length (Replay.logof state (hk_exec O now) p s0))%nat ->
               Resp.len (Resp.encs (firstn m (Replay.logof state (hk_exec O now) p s0))) <= Resp.len q ->
               (m <= length (Replay.logof state (hk_exec O now) p1 s0))%nat).
Proof.
  intros O now p s0 q t.
  exact (ReplayProofs.crash_prefix_on state (hk_exec O now) Inv (hkf_inv O now) (hkf_noupd O now) p s0 q t).
Qed.
Print Assumptions c03hk_crash_prefix_frozen.

(* RENAME / RENAMENX and DROP never touch the registry (crud.go: cmdRENAME is refused before it changes
   anything when a hook or channel watches either key — hooks are reported first —, cmdDROPop only
   disconnects groups).  The guard, as a function of the registry: *)
Theorem c03hk_rename_guard : forall s key newkey,
  let touches h := orb (bytes_eqb (h_key h) key) (bytes_eqb (h_key h) newkey) in
  match rename_guard s key newkey with
  | None => forall h, In h (vals (hooks s)) -> touches h = false
  | Some e => (e = err_has_hooks /\ exists h, In h (vals (hooks s)) /\ touches h = true /\ h_chan h = false) \/
              (e = err_has_chans /\ (exists h, In h (vals (hooks s)) /\ touches h = true /\ h_chan h = true) /\
               forall h, In h (vals (hooks s)) -> touches h = true -> h_chan h = true)
  end.
Proof. exact rename_guard_spec. Qed.
Print Assumptions c03hk_rename_guard.

Local Open Scope string_scope.
Local Open Scope list_scope.
Local Open Scope Z_scope.
(* toy oracle: every url valid, EX <token> = (length of the token) seconds, fence key = first token *)
Definition toyO : oracle :=
  mkOracle (fun b => b) (fun _ => true) (fun b => Some (Z.of_nat (length b) * 1000000000))
           (fun c r => match r with k :: _ => FOk k | [] => FErr (bs "no key") end).
Definition w (s : String.string) : bytes := bs s.
Definition cC := [w "SETCHAN"; w "c"; w "EX"; w "12345"; w "META"; w "b"; w "2"; w "NEARBY"; w "fleet"; w "FENCE"].
Definition cH := [w "SETHOOK"; w "h"; w "http://x,http://y"; w "WITHIN"; w "zoo"; w "FENCE"].
Definition cP := [w "SETCHAN"; w "p"; w "NEARBY"; w "fleet"; w "FENCE"].
(* c declared at 10 (5 s), re-declared at 30 (new deadline: logged), and at 30 again (Equals: not
   logged); a listing; h; p twice (the second is the Equals path); a sweep at 4 s (nothing), c once more, a sweep at
   9.5 s (DELCHAN c is logged); the name clash SETHOOK c is refused *)
Definition progX : list pstep :=
  [PCmd 10 cC; PCmd 30 cC; PCmd 30 cC; PCmd 40 [w "CHANS"; w "*"]; PCmd 50 cH; PCmd 60 cP; PCmd 70 cP;
   PCmd 80 [w "SETHOOK"; w "c"; w "http://x"; w "NEARBY"; w "fleet"; w "FENCE"];
   PSweep 4000000000; PCmd 4000000001 cC; PSweep 9500000000].

Example c03hk_nonvacuous :
  plog toyO progX empty = [cC; cC; cH; cP; cC; [c_delchan; w "c"]] /\
  keys (hooks (prun toyO progX empty)) = [w "h"; w "p"] /\
  (* replayed a day later, 1 ns per record: same registry modulo deadline values ... *)
  er (replay_at toyO (fun i => 86400000000000 + Z.of_nat i) 0 (plog toyO progX empty) empty) = er (prun toyO progX empty) /\
  (* ... although a cut after the 2nd record shows different deadline values live and replayed *)
  hexp (prun toyO [PCmd 10 cC; PCmd 30 cC] empty) = [(5000000030, w "c")] /\
  hexp (replay_at toyO (fun i => 86400000000000 + Z.of_nat i) 0 [cC; cC] empty) = [(86405000000001, w "c")] /\
  (* a file cut inside the 3rd record recovers the first two *)
  exists sz, recover_at toyO (fun _ => 7) (firstn (length (Resp.encs [cC; cC]) + 9) (Resp.encs (plog toyO progX empty))) empty
             = Some (replay_at toyO (fun _ => 7) 0 [cC; cC] empty, sz) /\ sz = Resp.len (Resp.encs [cC; cC]).
Proof.
  split; [vm_compute; reflexivity|]. split; [vm_compute; reflexivity|]. split; [vm_compute; reflexivity|].
  split; [vm_compute; reflexivity|]. split; [vm_compute; reflexivity|].
  eexists. split; vm_compute; reflexivity.
Qed.
