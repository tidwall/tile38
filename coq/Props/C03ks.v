(* C03 — restart reproduces the acknowledged state: the generic theorems of Props/C03.v
   (c03_replay_equiv, c03_crash_prefix) instantiated with the keyspace model of C01.
   Only theorems, each closed by a lemma of Proofs/KsReplay.v or Proofs/KsDeadline.v, or by the line
   or two that prove it here.

   [ks_exec O e] = Model/Keyspace.exec (repaired tree) with a FROZEN environment e (same clock, leader,
   not read-only, in the live run and in the replay); its flag is "writeAOF appended the command".
   The generic hypothesis  noupd  holds in every state satisfying the invariant [inv] of C01
   (sorted keys/ids, no empty collection), which every command preserves and the empty database
   satisfies; the theorems are therefore stated for initial states with [inv]. *)
From T38 Require Import Base.Bytes Base.SMap Model.Field Model.Object Model.Glob Model.Spec Model.Keyspace
  Proofs.KsInv Proofs.KsProgram Proofs.KsReplay Proofs.KsDeadline.
From T38 Require Model.Resp Model.Aof Proofs.AofProofs Model.Replay.

(* a command that is not appended to the log left the dataset exactly as it was: reads, errors,
   negative answers, write handlers reporting updated = false — every command line, every oracle *)
Theorem c03ks_noupd : forall O e s c,
  inv s -> snd (ks_exec O e s c) = false -> fst (ks_exec O e s c) = s.
Proof. exact ks_noupd. Qed.
Print Assumptions c03ks_noupd.

(* every command preserves the invariant, so the theorems below apply along the whole run *)
Theorem c03ks_inv : forall O e s c, inv s -> inv (fst (ks_exec O e s c)).
Proof. exact ks_inv. Qed.
Print Assumptions c03ks_inv.

(* replaying the log reproduces the live state — any program, from any well-formed state *)
Theorem c03ks_replay_equiv : forall O e p s0, inv s0 ->
  Replay.replay state (ks_exec O e) (Replay.logof state (ks_exec O e) p s0) s0 = Replay.run state (ks_exec O e) p s0.
Proof. exact ks_replay_equiv. Qed.
Print Assumptions c03ks_replay_equiv.

(* ... in particular from the empty database *)
Theorem c03ks_replay_equiv_empty : forall O e p,
  Replay.replay state (ks_exec O e) (Replay.logof state (ks_exec O e) p []) [] = Replay.run state (ks_exec O e) p [].
Proof. intros O e p. apply ks_replay_equiv, inv_nil. Qed.
Print Assumptions c03ks_replay_equiv_empty.

(* a kill leaves a byte prefix q of the file: start-up recovers exactly the state after a prefix p1
   of the program, truncates to the end of p1's log, and p1 holds every wholly written record *)
Theorem c03ks_crash_prefix : forall O e p s0 q t,
  inv s0 ->
  Forall AofProofs.cmd_ok (Replay.logof state (ks_exec O e) p s0) ->
  (q ++ t)%list = Resp.encs (Replay.logof state (ks_exec O e) p s0) ->
  exists p1 p2, p = (p1 ++ p2)%list /\
    Replay.recover state (ks_exec O e) q s0 =
      Some (Replay.run state (ks_exec O e) p1 s0, Resp.len (Resp.encs (Replay.logof state (ks_exec O e) p1 s0))) /\
    (Resp.len (Resp.encs (Replay.logof state (ks_exec O e) p1 s0)) <= Resp.len q)%Z /\
    (forall m, (m <= length (Replay.logof state (ks_exec O e) p s0))%nat ->
               (Resp.len (Resp.encs (firstn m (Replay.logof state (ks_exec O e) p s0))) <= Resp.len q)%Z ->
               (m <= length (Replay.logof state (ks_exec O e) p1 s0))%nat).
Proof.
  intros O e p s0 q t.
  exact (ReplayProofs.crash_prefix_on state (ks_exec O e) inv (ks_inv O e) (ks_noupd O e) p s0 q t).
Qed.
Print Assumptions c03ks_crash_prefix.

(* Restart at another clock. Replaying the same log with a different frozen `now` (everything else in
   the environment equal) from states that agree up to deadline VALUES yields states that agree up to
   deadline values: same keys, ids, geometries, fields and has-deadline flags ([er] replaces every
   deadline by 0 / 1; c03ks_deadline_meaning spells it out).  Side condition [clock_ok]: no argument
   of a logged command, read as seconds, makes  wrap64 (now + int64(float64(time.Second)*x))  exactly
   0 at either clock — deadline 0 means "none", so `SET k id EX x` with now + x*1e9 = 0 stores an
   object WITHOUT deadline (only possible for x = -(unix time), see docs/notes/C01.md). *)
Theorem c03ks_deadline_kept : forall O e e' log,
  env_sim e e' -> Forall (clock_ok O e e') log ->
  forall s s', er s = er s' ->
  er (Replay.replay state (ks_exec O e) log s) = er (Replay.replay state (ks_exec O e') log s').
Proof. exact ks_deadline_kept. Qed.
Print Assumptions c03ks_deadline_kept.

(* ... hence a restart at clock e' of the log written at clock e reproduces the live state up to
   deadline values *)
Theorem c03ks_restart_deadline_kept : forall O e e' p s0,
  inv s0 -> env_sim e e' -> Forall (clock_ok O e e') (Replay.logof state (ks_exec O e) p s0) ->
  er (Replay.replay state (ks_exec O e') (Replay.logof state (ks_exec O e) p s0) s0) =
  er (Replay.run state (ks_exec O e) p s0).
Proof.
  intros O e e' p s0 Hi Hes HF. rewrite <- (ks_replay_equiv O e p s0 Hi). symmetry.
  apply ks_deadline_kept; [exact Hes | exact HF | reflexivity].
Qed.
Print Assumptions c03ks_restart_deadline_kept.

Theorem c03ks_deadline_meaning : forall s s', er s = er s' ->
  keys s = keys s' /\
  forall key id,
    match find s key id, find s' key id with
    | Some o, Some o' => o_id o = o_id o' /\ o_geo o = o_geo o' /\ o_fields o = o_fields o' /\
                         ((o_ex o =? 0)%Z = (o_ex o' =? 0)%Z)
    | None, None => True
    | _, _ => False
    end.
Proof. exact er_meaning. Qed.
Print Assumptions c03ks_deadline_meaning.

(* the side condition is satisfiable and the theorem is not vacuous: SET .. EX ; EXPIRE ; SET replayed
   at now = 5 and now = 1000 give different states that agree after erasing deadline values *)
Example c03ks_deadline_nonvacuous :
  env_sim (toy_env 5) (toy_env 1000) /\
  Forall (clock_ok toy_oracle (toy_env 5) (toy_env 1000)) dl_log /\
  Replay.replay state (ks_exec toy_oracle (toy_env 5)) dl_log [] <>
  Replay.replay state (ks_exec toy_oracle (toy_env 1000)) dl_log [] /\
  er (Replay.replay state (ks_exec toy_oracle (toy_env 5)) dl_log []) =
  er (Replay.replay state (ks_exec toy_oracle (toy_env 1000)) dl_log []).
Proof. exact deadline_kept_nonvacuous. Qed.

(* JDEL changes the dataset; it is logged because jdel is in the write arm. With the pinned lock
   table (jdel in the default arm, finding F3) this very step produces no record and noupd fails. *)
Theorem c03ks_jdel_changes_and_is_logged :
  exists s s' r,
    Keyspace.run jd_oracle true [] [(toy_env 5, [kw_SET; w_k; w_a; w_STRING; w_speed])] = Some (s, [ROk str_OK]) /\
    exec jd_oracle true (toy_env 6) s [w_JDEL; w_k; w_a; w_1] = Done s' r [[w_JDEL; w_k; w_a; w_1]] /\
    s' <> s /\ arm_of (lower w_JDEL) = ArmWrite.
Proof.
  eexists. eexists. eexists. split; [vm_compute; reflexivity|]. split; [vm_compute; reflexivity|].
  split; [vm_compute; discriminate | reflexivity].
Qed.
Print Assumptions c03ks_jdel_changes_and_is_logged.

(* non-vacuity: SET ; GET ; SET — the GET is not logged; a file cut inside the 2nd record recovers
   the state after the first SET *)
Example c03ks_nonvacuous :
  let e := toy_env 5 in
  let c1 := [kw_SET; w_k; w_a; w_STRING; w_speed] in
  let c2 := [w_GET; w_k; w_a] in
  let c3 := [kw_SET; w_g; w_b; w_STRING; w_speed] in
  Replay.logof state (ks_exec toy_oracle e) [c1; c2; c3] [] = [c1; c3] /\
  Forall AofProofs.cmd_ok [c1; c3] /\
  exists sz, Replay.recover state (ks_exec toy_oracle e)
               (firstn (length (Resp.encs [c1]) + 7) (Resp.encs [c1; c3])) [] =
             Some (Replay.run state (ks_exec toy_oracle e) [c1] [], sz) /\
             sz = Resp.len (Resp.encs [c1]).
Proof.
  cbv zeta. split; [vm_compute; reflexivity|]. split.
  - repeat constructor; try discriminate; vm_compute; reflexivity.
  - eexists. split; [vm_compute; reflexivity | vm_compute; reflexivity].
Qed.
