(* C03 — the file IS the sequence of logged records: the append discipline of the log descriptor.
   The log is opened without O_APPEND; flushAOF writes at the position of the one descriptor Server.aof.
   (1) model (Model/AofPos.v): with the position at the end and only flushes / position-neutral
   functions in between, the file is what it was plus the flushed bytes, in order — so the file
   written record by record is the `encs log` of c03_replay_equiv / c03_crash_prefix; a seek + read
   through that descriptor ending short of the end makes the next flush overwrite old bytes.
   (2) source (Gen/AofPos.v, every use of Server.aof and of its local aliases, regenerated by t38x):
   outside the audited start-up / append / rewrite-swap / follower-resync functions every use is
   position-neutral (Name, Stat, Sync, nil test) — no alias, no hand-over as an argument. *)
From Coq Require Import String List Bool Arith NArith.
From T38 Require Import Base.Bytes Model.Resp Gen.AofPos Model.AofPos Proofs.AofPosProofs.
Import ListNotations.
Local Open Scope list_scope.
Local Open Scope nat_scope.

Theorem c03pos_append_discipline : forall ops f,
  f_pos f = length (f_content f) -> forallb disciplined ops = true ->
  f_content (run_ops ops f) = f_content f ++ flushed ops /\
  f_pos (run_ops ops f) = length (f_content (run_ops ops f)).
Proof.
  intros ops [c p] Hp Hd. cbn [f_pos f_content] in Hp. subst p. rewrite (run_ops_at_end ops Hd c). split; reflexivity.
Qed.
Print Assumptions c03pos_append_discipline.

(* the file after the records of any log were flushed one by one, any neutral commands in between *)
Theorem c03pos_file_is_log : forall log, f_content (run_ops (flush_log log) (mkFd [] 0)) = encs log.
Proof.
  intros log. rewrite <- flushed_flush_log. exact (f_equal f_content (run_ops_at_end _ (flush_log_disciplined log) [])).
Qed.
Print Assumptions c03pos_file_is_log.

(* any file, any block [p, p+n) ending short of its end, any non-empty flush after it: bytes are lost *)
Theorem c03pos_seek_read_breaks_append : forall f p n b,
  p + n < length (f_content f) -> b <> [] ->
  f_content (run_ops [OSeekRead p n; OFlush b] f) <> f_content f ++ b.
Proof. exact seek_read_breaks_append. Qed.
Print Assumptions c03pos_seek_read_breaks_append.

(* over the source: every use of the descriptor is neutral or one of the audited ones *)
Theorem c03pos_uses_audited : forall u, In u aof_uses ->
  use_neutral u = true \/ existsb (use_eqb (use_key u)) audited = true.
Proof. exact uses_audited_spec. Qed.
Print Assumptions c03pos_uses_audited.

(* hence every function other than the audited six is an ONeutral step *)
Theorem c03pos_unaudited_functions_neutral : forall fn, ~ In fn audited_functions -> fn_neutral fn = true.
Proof. exact unaudited_functions_neutral. Qed.
Print Assumptions c03pos_unaudited_functions_neutral.

(* flushAOF's Write is the only write through the descriptor and nothing opens with O_APPEND *)
Theorem c03pos_only_flush_writes :
  filter (fun u => String.eqb (u_kind u) "call" && negb (existsb (String.eqb (u_detail u)) ["Name"; "Stat"; "Sync"; "Fd"; "Read"; "Seek"; "Truncate"; "Close"]%string)) aof_uses
    = [("Server.flushAOF", "call", "Write")%string] /\
  some_open_with_o_append = false.
Proof. vm_compute. split; reflexivity. Qed.
Print Assumptions c03pos_only_flush_writes.

(* non-vacuity: the readers of the log (AOFMD5's checksum, the AOF stream) use the descriptor for its
   name only *)
Example c03pos_nonvacuous :
  uses_of "Server.checksum" = [("Server.checksum", "call", "Name")%string] /\
  uses_of "Server.liveAOF" = [("Server.liveAOF", "call", "Name")%string] /\
  fn_neutral "Server.cmdAOFMD5" = true /\ fn_neutral "Server.cmdAOF" = true.
Proof. vm_compute. repeat split. Qed.
