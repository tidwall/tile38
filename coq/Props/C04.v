(* C04 — A torn or padded log tail is repaired and loses nothing but the torn command.
   Only the property theorems, each closed by a lemma of Proofs/ or by the lines that prove it here. *)
From T38 Require Import Base.Bytes Model.Resp Model.Aof Proofs.RespProofs Proofs.AofProofs Proofs.ChunkProofs.
Local Open Scope Z_scope.

(* What writeAOF appends is read back exactly, whatever follows it in the buffer. *)
Theorem c04_enc_complete : forall args r,
  args <> [] -> len (enc args) < BIG -> read_next (enc args ++ r) = Complete args Redis r.
Proof. intros args r _. apply read_next_enc. Qed.
Print Assumptions c04_enc_complete.

(* Every strict byte prefix of an encoded command is Incomplete: never an error (loadAOF would
   refuse to start), never a wrong command, never a panic. *)
Theorem c04_enc_prefix_incomplete : forall args q s,
  args <> [] -> len (enc args) < BIG -> q ++ s = enc args -> s <> [] -> read_next q = Incomplete.
Proof. intros args q s _. apply read_next_enc_cut. Qed.
Print Assumptions c04_enc_prefix_incomplete.

(* Loading ANY byte prefix q of a log of encoded commands yields exactly the commands wholly inside
   the cut, and the valid size (what the file is truncated to) is their total encoded length. *)
Theorem c04_cut : forall cmds q s,
  Forall cmd_ok cmds -> q ++ s = encs cmds ->
  load_whole q = Loaded (firstn (inside cmds (len q)) cmds) (len (encs (firstn (inside cmds (len q)) cmds))).
Proof. exact load_whole_cut. Qed.
Print Assumptions c04_cut.

(* Zero runs of any length before every command and at the tail are skipped; nothing is cut. *)
Theorem c04_zeros : forall l ztail,
  Forall (fun zc => cmd_ok (snd zc)) l ->
  load_whole (padded l ++ repeat 0%N ztail) = Loaded (map snd l) (len (padded l ++ repeat 0%N ztail)).
Proof. exact load_whole_padded. Qed.
Print Assumptions c04_zeros.

(* After the repair the file is the encoding of the kept commands; appending further commands to it
   and loading again yields kept ++ more, with no truncation. *)
Theorem c04_append_after : forall cmds q s more,
  Forall cmd_ok cmds -> Forall cmd_ok more -> q ++ s = encs cmds ->
  let kept := firstn (inside cmds (len q)) cmds in
  load_whole q = Loaded kept (len (encs kept)) /\
  load_whole (encs kept ++ encs more) = Loaded (kept ++ more) (len (encs kept ++ encs more)).
Proof.
  intros cmds q s more Hok Hmore E kept. split; [apply (load_whole_cut cmds q s); assumption|]. rewrite <- encs_app. apply load_whole_full. apply Forall_app; split; [|assumption]. apply Forall_firstn. exact Hok.
Qed.
Print Assumptions c04_append_after.

(* The chunked read loop of loadAOF with its carry-over buffer computes exactly what one-shot parsing
   computes, for EVERY way the reads cut the file (NULs are skipped only where a command starts; the
   carry-over is prepended untouched), on every file on whose prefixes the parser does not panic. *)
Theorem c04_chunked_eq_whole : forall chunks,
  (forall k, drain_all (firstn k (concat chunks)) <> DPanic) ->
  load_chunks chunks [] 0 [] = load_whole (concat chunks).
Proof. exact load_chunks_eq_whole. Qed.
Print Assumptions c04_chunked_eq_whole.

(* ... in particular with fixed-size reads of any size > 0 (loadAOF: 0xFFFF) *)
Theorem c04_load_aof_eq_whole : forall csz file,
  (0 < csz)%nat -> (forall k, drain_all (firstn k file) <> DPanic) ->
  load_aof_sz csz file = load_whole file.
Proof. exact load_aof_sz_eq_whole. Qed.
Print Assumptions c04_load_aof_eq_whole.

(* c04_cut for the chunked loader itself: any byte prefix of a log of encoded commands, read in
   0xFFFF-byte packets, yields exactly the commands wholly inside the cut (no panic hypothesis). *)
Theorem c04_cut_chunked : forall cmds q s,
  Forall cmd_ok cmds -> q ++ s = encs cmds ->
  load_aof q = Loaded (firstn (inside cmds (len q)) cmds) (len (encs (firstn (inside cmds (len q)) cmds))).
Proof. exact load_aof_cut. Qed.
Print Assumptions c04_cut_chunked.

(* Tear and padding together, for loadAOF's own chunked loop: any byte prefix q of a log with zero runs of
   any length before every command and at the tail loads as the commands wholly inside q; the valid size is
   those commands with their padding plus the zero run z' that precedes the torn piece lo. *)
Theorem c04_cut_padded : forall l ztail q s,
  Forall (fun zc => cmd_ok (snd zc)) l -> q ++ s = padded l ++ repeat 0%N ztail ->
  exists n z' lo,
    q = padded (firstn n l) ++ repeat 0%N z' ++ lo /\
    load_aof q = Loaded (map snd (firstn n l)) (len (padded (firstn n l)) + Z.of_nat z').
Proof.
  intros l ztail q s Hok E. rewrite (load_aof_padded l ztail q s Hok E). exact (load_whole_cut_padded l ztail q s Hok E).
Qed.
Print Assumptions c04_cut_padded.

(* c04_zeros and c04_append_after for the chunked loader *)
Theorem c04_zeros_chunked : forall l ztail,
  Forall (fun zc => cmd_ok (snd zc)) l ->
  load_aof (padded l ++ repeat 0%N ztail) = Loaded (map snd l) (len (padded l ++ repeat 0%N ztail)).
Proof.
  intros l ztail Hok. rewrite (load_aof_padded l ztail _ [] Hok (app_nil_r _)). exact (load_whole_padded l ztail Hok).
Qed.
Print Assumptions c04_zeros_chunked.

Theorem c04_append_after_chunked : forall cmds q s more,
  Forall cmd_ok cmds -> Forall cmd_ok more -> q ++ s = encs cmds ->
  let kept := firstn (inside cmds (len q)) cmds in
  load_aof q = Loaded kept (len (encs kept)) /\
  load_aof (encs kept ++ encs more) = Loaded (kept ++ more) (len (encs kept ++ encs more)).
Proof.
  intros cmds q s more Hok Hmore E kept. split; [exact (load_aof_cut cmds q s Hok E)|]. rewrite <- encs_app. apply load_aof_full, Forall_app. split; [apply Forall_firstn; exact Hok|exact Hmore].
Qed.
Print Assumptions c04_append_after_chunked.

(* Open known finding C04-torn-then-padded: zero padding AFTER a torn command (a crash during an append
   on a file system that zero-extends) is not repaired.  The torn prefix alone, or with fewer NULs than the
   missing bytes, loads as [c1]; with 64 NULs the parser sees "invalid bulk length" and loadAOF fails.
   c04_cut_padded is the partial statement that holds: padding at command boundaries only. *)
Theorem c04_torn_then_padded_refuted :
  let c1 := [[83; 69; 84]; [107]; [118]]%N in
  let c2 := [[83; 69; 84]; [107]; [104; 101; 108; 108; 111; 32; 119; 111; 114; 108; 100]]%N in
  let q := firstn 53 (encs [c1; c2]) in
  cmd_ok c1 /\ cmd_ok c2 /\ (length q < length (encs [c1; c2]))%nat /\
  load_whole q = Loaded [c1] 27 /\
  load_aof (q ++ repeat 0%N 64) = LoadErr EBulk /\
  load_aof (q ++ repeat 0%N 5) = Loaded [c1] 27.
Proof. exact torn_then_padded_fails. Qed.
Print Assumptions c04_torn_then_padded_refuted.

(* non-vacuity: SET k "\r\n*$\000" cut inside the second command *)
Example c04_nonvacuous :
  let c1 := [[83; 69; 84]; [107]; [13; 10; 42; 36; 0]]%N in
  let c2 := [[68; 69; 76]; [107]]%N in
  cmd_ok c1 /\ cmd_ok c2 /\
  load_whole (firstn 37 (encs [c1; c2])) = Loaded [c1] 31 /\
  load_aof (firstn 37 (encs [c1; c2])) = Loaded [c1] 31.
Proof. vm_compute. repeat split; congruence. Qed.
