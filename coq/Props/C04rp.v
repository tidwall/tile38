(* C04, continuation: executing the replayed commands cannot move the loader's position.
   loadAOF keeps its byte offset in Server.aofsz and runs every complete command on the same server;
   the offset the file is truncated to must depend only on the bytes of the log.
   Only the property theorems, each closed by a lemma of Proofs/AofReplayProofs.v or by the lines that
   prove it here. *)
From Coq Require Import String List Bool ZArith.
From T38 Require Import Base.Bytes Model.Resp Model.Aof Model.Tables Model.AofReplay
  Proofs.AofProofs Proofs.ChunkProofs Proofs.AofReplayProofs
  Gen.LockTable Gen.Dispatch Gen.Mutators.
Import ListNotations.
Local Open Scope Z_scope.
Local Open Scope list_scope.

(* Over the tables t38x regenerates from /repo on every run: for every command name that
   handleInputCommand hands to writeAOF (and that can therefore be in a log: SET ... FLUSHDB, DROP,
   RENAME, SETHOOK/SETCHAN, the records scripts write, ...), the handler Server.command dispatches
   does not assign Server.aofsz, directly or through any synchronous in-package call. *)
Theorem c04_replay_position_untouched :
  forallb (fun c => negb (cmd_writes_pos dispatch effects c)) (loggable lock_table) = true.
Proof. exact loggable_untouched_b. Qed.
Print Assumptions c04_replay_position_untouched.

(* ... and every such command has a handler whose effects the translator has analysed *)
Theorem c04_replay_handlers_known :
  forallb (fun c => match find_handler dispatch c with
                    | Some h => match assoc effects (h_fn h) with Some _ => true | None => false end
                    | None => false end) (loggable lock_table) = true.
Proof. vm_compute. reflexivity. Qed.
Print Assumptions c04_replay_handlers_known.

(* The frame theorem, for ANY dispatch: if none of the commands of the log runs a handler that assigns the
   position, the loader with command execution cuts the file where the bytes-only loader does and has run
   exactly the commands it lists (XFatal when one of them returns a fatal error). *)
Theorem c04_replay_frame :
  forall (St : Type) (name_of : list bytes -> string) (run : list bytes -> St -> option St)
         (havoc : list bytes -> St -> Z -> Z) (writes_pos : string -> bool) file cs v s,
  load_aof file = Loaded cs v -> Forall (fun c => writes_pos (name_of c) = false) cs ->
  load_aof_x St name_of run havoc writes_pos file s =
  match run_all St run cs s with Some s' => XLoaded s' v | None => XFatal end.
Proof. exact load_aof_x_frame. Qed.
Print Assumptions c04_replay_frame.

(* With the real dispatch: for every log that loads, every command list in it made of commands that can be
   logged (or that Server.command does not know), every handler semantics, every value a handler could
   give the position: the recovered size is the bytes-only valid size of c04_cut_chunked / c04_cut_padded. *)
Theorem c04_replay_size_bytes_only :
  forall (St : Type) (name_of : list bytes -> string) (run : list bytes -> St -> option St)
         (havoc : list bytes -> St -> Z -> Z) file cs v s,
  load_aof file = Loaded cs v -> Forall (may_be_logged name_of) cs ->
  load_aof_x St name_of run havoc (cmd_writes_pos dispatch effects) file s =
  match run_all St run cs s with Some s' => XLoaded s' v | None => XFatal end.
Proof. exact replay_size_bytes_only. Qed.
Print Assumptions c04_replay_size_bytes_only.

(* c04_cut_chunked with command execution: a log torn at ANY byte is cut back to the end of its last
   complete command and exactly the complete commands have been executed. *)
Theorem c04_replay_cut :
  forall (St : Type) (name_of : list bytes -> string) (run : list bytes -> St -> option St)
         (havoc : list bytes -> St -> Z -> Z) cmds q t s,
  Forall cmd_ok cmds -> Forall (may_be_logged name_of) cmds -> q ++ t = encs cmds ->
  let kept := firstn (inside cmds (len q)) cmds in
  load_aof_x St name_of run havoc (cmd_writes_pos dispatch effects) q s =
  match run_all St run kept s with Some s' => XLoaded s' (len (encs kept)) | None => XFatal end.
Proof.
  intros St name_of run havoc cmds q t s Hok Hlog Hq kept. apply replay_size_bytes_only.
  - exact (load_aof_cut cmds q t Hok Hq).
  - apply Forall_firstn. exact Hlog.
Qed.
Print Assumptions c04_replay_cut.

(* The hypothesis matters: on `SET k v; FLUSHDB; SET k v` torn inside the third command the real tables give
   the cut 44; a dispatch whose FLUSHDB handler resets the position gives Truncate(-20). *)
Theorem c04_replay_havoc_moves_cut :
  load_aof ex_file = Loaded [ex_set; ex_flushdb] 44 /\
  load_aof_x unit ex_name (fun _ s => Some s) (fun _ _ _ => 0) (cmd_writes_pos dispatch effects) ex_file tt = XLoaded tt 44 /\
  load_aof_x unit ex_name (fun _ s => Some s) (fun _ _ _ => 0) (fun c => String.eqb c "flushdb") ex_file tt = XLoaded tt (-20).
Proof. exact havoc_moves_cut. Qed.
Print Assumptions c04_replay_havoc_moves_cut.

(* non-vacuity: the loggable set is the 18 write commands, and the example commands satisfy may_be_logged *)
Example c04_replay_nonvacuous :
  In "flushdb"%string (loggable lock_table) /\ In "set"%string (loggable lock_table) /\
  In "drop"%string (loggable lock_table) /\ In "rename"%string (loggable lock_table) /\
  In "sethook"%string (loggable lock_table) /\ In "setchan"%string (loggable lock_table) /\
  In "jset"%string (loggable lock_table) /\ In "expire"%string (loggable lock_table) /\
  (18 <= length (loggable lock_table))%nat /\
  may_be_logged ex_name ex_set /\ may_be_logged ex_name ex_flushdb.
Proof. exact loggable_nonvacuous. Qed.
