(* C05 — Fence notifications follow the documented enter/exit/inside/outside/cross rules.
   Only the property theorems, each closed by a lemma of Proofs/FenceProofs.v,
   Proofs/FenceRegProofs.v or Proofs/FenceSinkProofs.v, or by the few lines that prove it here.
   Model: Model/Fence.v (fenceMatch / FenceMatch, doc_msgs) and
   Model/HookReg.v (registries, getQueueCandidates). *)
From Coq Require Import List Bool ZArith.
From T38 Require Import Base.Bytes Model.Fence Model.HookReg Proofs.FenceProofs Proofs.FenceRegProofs Proofs.FenceSinkProofs.
Import ListNotations.

(* The table.  For every DETECT value (no clause, or any of the 32 subsets), every SET / FSET (and
   any other object-carrying command, which fenceMatch treats like SET) that passes the guards,
   every previous object (absent, or spatially inside/outside x passing/failing the filters; FSET
   carries none), every new object and either value of "the straight path crosses the area", the
   transcribed fenceMatch yields exactly the documented messages, in the documented order.
   "Inside" = spatially inside and passing the fence's filters; doc_all states the three
   refinements R1-R3 of the real code (Model/Fence.v). *)
Theorem c05_table : forall D c old new cross,
  is_move c = true ->
  fence_match true D (move_case c old new cross) = FOk (map FM (doc_msgs D c old new cross)).
Proof.
  intros D c old new cross Hm. rewrite fence_match_msgs. unfold doc_msgs. rewrite doc_all_chain.
  destruct c; try discriminate Hm; reflexivity.
Qed.
Print Assumptions c05_table.

(* The guards and short-cuts, for every case of the abstract domain: the fallback loop always
   terminates; a missing object, an id outside the MATCH globs, a non-spatial object, FSET on a
   NOFIELDS fence, a COUNT-output fence or a COMMANDS filter not naming the command silence the
   fence; DROP yields one "drop" message and DEL of a matching spatial object one "del" message. *)
Theorem c05_guards : forall D x acc,
  fence_match acc D x <> FFuel /\
  (guard_fails x = true \/ acc = false -> fence_match acc D x = FOk []) /\
  (acc = true -> c_cmd x = CDrop -> fence_match acc D x = FOk [FDrop]) /\
  (acc = true -> c_cmd x = CDel -> guard_fails x = false -> fence_match acc D x = FOk [FDel]).
Proof. exact fence_guards. Qed.
Print Assumptions c05_guards.

(* One fence's messages for one write have strictly increasing msgDetectCode weights, so the
   stable sort of sortMsgs by (weight, hook name) never reorders them. *)
Theorem c05_order_kept : forall D x acc l,
  fence_match acc D x = FOk l -> increasing (map weight l) = true.
Proof. exact fence_weights_increasing. Qed.
Print Assumptions c05_order_kept.

(* In every registry state reachable by SETHOOK/SETCHAN, DELHOOK/DELCHAN (and hook expiry),
   PDELHOOK/PDELCHAN and FLUSHDB, hook names are unique and hooksOut / hookTree / hookCross /
   hookExpires hold exactly the hooks that detect "outside" / have an area / have an area and
   an explicit "cross" / carry an expiry. *)
Theorem c05_registry_inv : forall ops, reg_inv (reg_run ops).
Proof. exact registry_inv. Qed.
Print Assumptions c05_registry_inv.

(* Whether a hook is among getQueueCandidates' candidates for a write depends on that hook and the
   write only: the population of other hooks never changes it. *)
Theorem c05_candidates_local : forall r k old new h,
  reg_inv r ->
  (In h (candidates r k old new) <-> In h (hooks r) /\ h_key h = k /\ cand_cond h old new = true).
Proof. exact candidates_local. Qed.
Print Assumptions c05_candidates_local.

(* A static fence that would produce a message for a SET / FSET is a candidate, under the oracle
   hypotheses "a spatial hit implies overlapping bounding rectangles" (for the two objects and for
   the old-centre -> new-centre line, whose rectangle lies in the hull of the two objects'
   rectangles: c05_cross_hull). *)
Theorem c05_candidates_complete : forall r k h a x acc l old_r new_r,
  reg_inv r -> In h (hooks r) -> h_key h = k -> h_area h = Some a ->
  is_move (c_cmd x) = true ->
  (sp_of (c_obj x) = true -> exists r2, new_r = Some r2 /\ overlaps a r2 = true) ->
  (sp_of (c_old x) = true -> exists r1, old_r = Some r1 /\ overlaps a r1 = true) ->
  (c_cross x = true -> is_some (c_old x) = true -> is_some (c_obj x) = true ->
     exists r1 r2, old_r = Some r1 /\ new_r = Some r2 /\ overlaps a (hull r1 r2) = true) ->
  fence_match acc (h_detect h) x = FOk l -> l <> [] ->
  In h (candidates r k old_r new_r).
Proof. exact candidates_complete. Qed.
Print Assumptions c05_candidates_complete.

Theorem c05_cross_hull : forall a c1 c2 r1 r2,
  within c1 r1 -> within c2 r2 ->
  (minx c1 <= maxx c1 /\ miny c1 <= maxy c1 /\ minx c2 <= maxx c2 /\ miny c2 <= maxy c2)%Z ->
  overlaps a (hull c1 c2) = true -> overlaps a (hull r1 r2) = true.
Proof. intros a c1 c2 r1 r2 H1 H2 _ Ho. apply (overlaps_mono a (hull c1 c2)); auto using hull_within. Qed.
Print Assumptions c05_cross_hull.

(* DEL / PDEL / expiry (a "del" write carries the deleted object and no previous one): a fence
   whose area the object was inside (hence overlapping rectangles) is a candidate and emits one
   "del"; DROP reaches exactly the fences of that key that detect "outside" (in particular every
   fence with default detection), each emitting one "drop". *)
Theorem c05_del_drop :
  (forall r k h a robj D x,
     reg_inv r -> In h (hooks r) -> h_key h = k -> h_area h = Some a -> overlaps a robj = true ->
     c_cmd x = CDel -> guard_fails x = false ->
     In h (candidates r k None (Some robj)) /\ fence_match true D x = FOk [FDel]) /\
  (forall r k h D x,
     reg_inv r -> c_cmd x = CDrop ->
     (In h (candidates r k None None) <-> In h (hooks r) /\ h_key h = k /\ detects (h_detect h) DOutside = true) /\
     fence_match true D x = FOk [FDrop]).
Proof.
  split.
  - intros r k h a robj D x Hi Hin Hk Ha Ho Hc Hg. split.
    + exact (del_candidate r k h a robj Hi Hin Hk Ha Ho).
    + exact (proj2 (proj2 (proj2 (fence_guards D x true))) eq_refl Hc Hg).
  - intros r k h D x Hi Hc. split.
    + exact (drop_candidates r k h Hi).
    + exact (proj1 (proj2 (proj2 (fence_guards D x true))) eq_refl Hc).
Qed.
Print Assumptions c05_del_drop.

(* What reaches the sink of hook h (the subscribers of its channel, or its webhook manager) for one
   write: h's own FenceMatch result if h is among the candidates, nothing otherwise - whatever the
   other candidates produce, in whatever order the candidate map is iterated (cl = any duplicate-free
   enumeration of it), through the separate stable sorts of channel and webhook messages. *)
Theorem c05_sink_delivery : forall r cl cf af h,
  reg_inv r -> NoDup (map h_name cl) -> (forall x, In x cl -> In x (hooks r)) -> In h (hooks r) ->
  (if h_chan h then channel_delivery cl cf af (h_name h) else webhook_delivery cl cf af (h_name h)) =
  if existsb (fun x => bytes_eqb (h_name x) (h_name h)) cl
  then msgs_of (fence_match (af h) (h_detect h) (cf h)) else [].
Proof. exact sink_delivery. Qed.
Print Assumptions c05_sink_delivery.

(* The SET / FSET results are identical for a webhook, a channel and a live connection with the
   same fence definition (key, DETECT, area, hence the same abstract case x and COMMANDS verdict acc
   for the write), in every reachable registry, whatever other hooks exist: all three receive
   msgs_of (fence_match acc D x) (the hook / meta / group fields are not part of fmsg).  Oracle
   hypotheses as in c05_candidates_complete. *)
Theorem c05_same_for_all_sinks : forall r cl cf af hw hc k D a x acc old_r new_r,
  reg_inv r ->
  NoDup (map h_name cl) -> (forall h, In h cl <-> In h (candidates r k old_r new_r)) ->
  In hw (hooks r) -> In hc (hooks r) -> h_chan hw = false -> h_chan hc = true ->
  h_key hw = k -> h_key hc = k -> h_detect hw = D -> h_detect hc = D ->
  h_area hw = Some a -> h_area hc = Some a ->
  cf hw = x -> cf hc = x -> af hw = acc -> af hc = acc ->
  is_move (c_cmd x) = true ->
  (sp_of (c_obj x) = true -> exists r2, new_r = Some r2 /\ overlaps a r2 = true) ->
  (sp_of (c_old x) = true -> exists r1, old_r = Some r1 /\ overlaps a r1 = true) ->
  (c_cross x = true -> is_some (c_old x) = true -> is_some (c_obj x) = true ->
     exists r1 r2, old_r = Some r1 /\ new_r = Some r2 /\ overlaps a (hull r1 r2) = true) ->
  webhook_delivery cl cf af (h_name hw) = msgs_of (fence_match acc D x) /\
  channel_delivery cl cf af (h_name hc) = msgs_of (fence_match acc D x) /\
  live_delivery k k acc D x = msgs_of (fence_match acc D x).
Proof. exact same_for_all_sinks. Qed.
Print Assumptions c05_same_for_all_sinks.

(* The one difference between the sinks, outside SET / FSET: hooks are gated by candidate selection,
   live connections are not.  For a delete of an object that is not a candidate reason for hook h
   (h does not detect "outside" and the object's rectangle misses h's area) the hook's sink gets
   nothing while a live connection with that definition gets one del.  The property only asks for a
   del when the object WAS inside the area, where both agree (c05_del_drop): an observation. *)
Theorem c05_del_gate_difference : forall r cl cf af h k x robj,
  reg_inv r -> NoDup (map h_name cl) -> (forall y, In y cl <-> In y (candidates r k None (Some robj))) ->
  In h (hooks r) -> h_key h = k -> cf h = x -> af h = true ->
  c_cmd x = CDel -> guard_fails x = false ->
  cand_cond h None (Some robj) = false ->
  (if h_chan h then channel_delivery cl cf af (h_name h) else webhook_delivery cl cf af (h_name h)) = [] /\
  live_delivery k k true (h_detect h) x = [FDel].
Proof. exact del_gate_difference. Qed.
Print Assumptions c05_del_gate_difference.

Definition D_enter_cross : dset :=
  {| d_nil := false; d_inside := false; d_outside := false; d_enter := true; d_exit := false; d_cross := true |}.
Definition D_default : dset :=
  {| d_nil := true; d_inside := false; d_outside := false; d_enter := false; d_exit := false; d_cross := false |}.
Definition t_in := {| o_sp := true; o_flt := true |}.
Definition t_out := {| o_sp := false; o_flt := true |}.

Example c05_rows :
  fence_match true D_enter_cross (move_case CSet (Some t_out) t_in false) = FOk [FM DEnter] /\
  fence_match true D_enter_cross (move_case CSet (Some t_out) t_out true) = FOk [FM DCross] /\
  fence_match true D_default (move_case CSet (Some t_in) t_out false) = FOk [FM DExit; FM DOutside].
Proof. vm_compute. auto. Qed.

(* a registry with a default fence, an inside-only fence and a cross fence on key "k"; a far-away
   move that crosses the third one's rectangle selects the default and the cross fence only *)
Definition hk (n : N) (D : dset) (a : rect) : hook :=
  {| h_name := [n]; h_chan := true; h_key := [107%N]; h_detect := D; h_area := Some a; h_expires := false |}.
Definition D_inside : dset :=
  {| d_nil := false; d_inside := true; d_outside := false; d_enter := false; d_exit := false; d_cross := false |}.
Definition sq (x y : Z) : rect := {| minx := x; miny := y; maxx := (x + 10)%Z; maxy := (y + 10)%Z |}.
Example c05_registry_example :
  let r := reg_run [RSet (hk 1 D_default (sq 0 0)) false; RSet (hk 2 D_inside (sq 100 100)) false;
                    RSet (hk 3 D_enter_cross (sq 200 200)) false; RSet (hk 4 D_inside (sq 0 0)) false;
                    RDel [4%N] true] in
  map h_name (candidates r [107%N] (Some (sq 150 150)) (Some (sq 260 260))) = [[1%N]; [3%N]].
Proof. vm_compute. reflexivity. Qed.

(* a channel, a webhook and another (channel) fence on the same area; an outside -> inside move:
   each of the first two sinks gets its own [enter; inside], untouched by the third fence's messages
   that the stable sort interleaves with them *)
Definition hw5 : hook := {| h_name := [5%N]; h_chan := false; h_key := [107%N]; h_detect := D_default; h_area := Some (sq 0 0); h_expires := false |}.
Example c05_sinks_example :
  let r := reg_run [RSet (hk 1 D_default (sq 0 0)) false; RSet hw5 false; RSet (hk 3 D_default (sq 0 0)) false] in
  let cl := [hk 3 D_default (sq 0 0); hw5; hk 1 D_default (sq 0 0)] in
  let cf := fun _ : hook => move_case CSet (Some t_out) t_in false in
  (forall h, In h cl <-> In h (candidates r [107%N] (Some (sq 50 50)) (Some (sq 5 5)))) /\
  fst (queue_hooks cl cf (fun _ => true)) =
    [([1%N], FM DEnter); ([3%N], FM DEnter); ([1%N], FM DInside); ([3%N], FM DInside)] /\
  channel_delivery cl cf (fun _ => true) [1%N] = [FM DEnter; FM DInside] /\
  webhook_delivery cl cf (fun _ => true) [5%N] = [FM DEnter; FM DInside].
Proof.
  split; [|vm_compute; auto].
  intro h. vm_compute. intuition.
Qed.
