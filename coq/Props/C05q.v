(* C05 (continuation) — "the SET/FSET results are identical for a webhook, a channel and a live
   connection", with the webhook's queue and retries in between.

   Props/C05.v states the equality for what queueHooks hands to the three paths for ONE write.  A
   webhook's messages then sit in the hook queue until the hook's manager (Hook.proc) has sent
   them, re-inserting the failed message and all following ones when a send fails.  Here C10's
   queue model (Model/Queues.v: Enq, the two halves of proc, send outcomes) is composed with
   queue_hooks in Model/FenceQueue.v, and the equality is stated for what the ENDPOINT accepts,
   over whole write histories and for every endpoint failure pattern within the retention period.
   Only property theorems; each is closed by a lemma of Proofs/FenceQueueProofs.v or by the two lines that
   prove it here. *)
From Coq Require Import List Bool NArith ZArith Lia.
From T38 Require Import Base.Bytes Model.Fence Model.HookReg Model.Queues Model.FenceQueue
  Proofs.FenceProofs Proofs.FenceRegProofs Proofs.FenceSinkProofs Proofs.QueuesHookProofs Proofs.FenceQueueProofs.
Import ListNotations.

(* At every instant of every history (writes interleaved with the halves of Hook.proc of any
   webhooks, any send outcomes), inside the retention period: the messages the writes queued for
   webhook n are exactly  accepted-by-the-endpoint ++ still-owed.  So a failed send never makes a
   message disappear, overtake another or arrive twice. *)
Theorem c05_webhook_queue_prefix : forall nm evs n,
  in_retention (hist nm evs) -> no_collision nm evs n ->
  webhook_stream evs n = webhook_accepted nm evs n ++ webhook_owed nm evs n.
Proof. exact webhook_queue_prefix. Qed.
Print Assumptions c05_webhook_queue_prefix.

(* Once the endpoint answers again, three more halves of proc hand over everything. *)
Theorem c05_webhook_queue_eventually : forall nm evs n t1 t2 t3,
  in_retention (hist nm (evs ++ recovered n t1 t2 t3)) -> no_collision nm evs n ->
  webhook_accepted nm (evs ++ recovered n t1 t2 t3) n = webhook_stream evs n /\
  webhook_owed nm (evs ++ recovered n t1 t2 t3) n = [].
Proof. exact webhook_queue_eventually. Qed.
Print Assumptions c05_webhook_queue_eventually.

(* What the endpoint of webhook h finally accepts: h's own FenceMatch result of every write for
   which h was a candidate, in write order (c05_sink_delivery through the queue). *)
Theorem c05_webhook_queue_own : forall nm evs h t1 t2 t3,
  h_chan h = false ->
  in_retention (hist nm (evs ++ recovered (h_name h) t1 t2 t3)) ->
  no_collision nm evs (h_name h) ->
  Forall (own_reg h) (writes_of evs) ->
  webhook_accepted nm (evs ++ recovered (h_name h) t1 t2 t3) (h_name h) =
  flat_map (fun w => if existsb (fun x => bytes_eqb (h_name x) (h_name h)) (w_cl w)
                     then msgs_of (fence_match (w_af w h) (h_detect h) (w_cf w h)) else []) (writes_of evs).
Proof. exact webhook_queue_own. Qed.
Print Assumptions c05_webhook_queue_own.

(* Identical for the three sinks.  hw a webhook, hc a channel with the same fence definition (key k,
   DETECT D, area a) and a live connection with that definition; every write of the history is a
   SET / FSET (or other object-carrying write) on k satisfying the hypotheses of
   c05_same_for_all_sinks (same_def); the writes are interleaved in any way with manager steps of
   any webhooks under ANY send outcomes.  After recovery the endpoint has accepted, in order and
   exactly once, the messages published on the channel = the messages of the live connection. *)
Theorem c05_same_for_all_sinks_queued : forall nm evs hw hc k D a t1 t2 t3,
  in_retention (hist nm (evs ++ recovered (h_name hw) t1 t2 t3)) ->
  no_collision nm evs (h_name hw) ->
  Forall (same_def hw hc k D a) (writes_of evs) ->
  webhook_accepted nm (evs ++ recovered (h_name hw) t1 t2 t3) (h_name hw) = channel_stream evs (h_name hc) /\
  channel_stream evs (h_name hc) = live_stream k D hw evs /\
  webhook_owed nm (evs ++ recovered (h_name hw) t1 t2 t3) (h_name hw) = [].
Proof.
  intros nm evs hw hc k D a t1 t2 t3 Ht Hnc Hall.
  destruct (webhook_queue_eventually nm evs (h_name hw) t1 t2 t3 Ht Hnc) as (-> & Ho).
  destruct (same_def_streams hw hc k D a evs Hall). auto.
Qed.
Print Assumptions c05_same_for_all_sinks_queued.

(* ... and at every earlier instant what the endpoint has accepted is a prefix of the channel's
   sequence, the rest being still owed to it. *)
Theorem c05_webhook_prefix_of_channel : forall nm evs hw hc k D a,
  in_retention (hist nm evs) -> no_collision nm evs (h_name hw) ->
  Forall (same_def hw hc k D a) (writes_of evs) ->
  channel_stream evs (h_name hc) = webhook_accepted nm evs (h_name hw) ++ webhook_owed nm evs (h_name hw).
Proof.
  intros nm evs hw hc k D a Ht Hnc Hall. rewrite <- (webhook_queue_prefix nm evs (h_name hw) Ht Hnc). symmetry.
  apply (same_def_streams hw hc k D a evs Hall).
Qed.
Print Assumptions c05_webhook_prefix_of_channel.

Theorem c05_msg_code_faithful : forall m, msg_decode (msg_code m) = m.
Proof. exact decode_code. Qed.
Print Assumptions c05_msg_code_faithful.

Definition Dq_default : dset :=
  {| d_nil := true; d_inside := false; d_outside := false; d_enter := false; d_exit := false; d_cross := false |}.
Definition sqq (x y : Z) : rect := {| minx := x; miny := y; maxx := (x + 10)%Z; maxy := (y + 10)%Z |}.
Definition hq_chan (n : N) : hook :=
  {| h_name := [n]; h_chan := true; h_key := [107%N]; h_detect := Dq_default; h_area := Some (sqq 0 0); h_expires := false |}.
Definition hq_hook : hook :=
  {| h_name := [5%N]; h_chan := false; h_key := [107%N]; h_detect := Dq_default; h_area := Some (sqq 0 0); h_expires := false |}.
Definition q_in := {| o_sp := true; o_flt := true |}.
Definition q_out := {| o_sp := false; o_flt := true |}.
Definition q_cl := [hq_chan 3; hq_hook; hq_chan 1].
Definition q_w1 : fwrite := mkFW 0 [107%N] q_cl (fun _ => move_case CSet (Some q_out) q_in false) (fun _ => true).
Definition q_w2 : fwrite := mkFW 10 [107%N] q_cl (fun _ => move_case CSet (Some q_in) q_out false) (fun _ => true).
Definition q_nm (b : bytes) : hookid := hd 0%N b.
Definition q_reg := reg_run [RSet (hq_chan 1) false; RSet hq_hook false; RSet (hq_chan 3) false].

(* the manager takes [enter; inside], the endpoint accepts enter and fails on inside; both writes
   happen before / after; later rounds find the endpoint healthy *)
Definition q_hist : list sev :=
  [SWrite q_w1; SProc [5%N] 5 []; SProc [5%N] 7 [true; false]; SWrite q_w2; SProc [5%N] 600 [false]].

Example c05_queue_example :
  same_def hq_hook (hq_chan 1) [107%N] Dq_default (sqq 0 0) q_w1 /\
  same_def hq_hook (hq_chan 1) [107%N] Dq_default (sqq 0 0) q_w2 /\
  no_collision q_nm q_hist [5%N] /\
  in_retention (hist q_nm (q_hist ++ recovered [5%N] 601 1200 1201)) /\
  (* after the failed send of "inside" *)
  webhook_accepted q_nm (firstn 3 q_hist) [5%N] = [FM DEnter] /\
  webhook_owed q_nm (firstn 3 q_hist) [5%N] = [FM DInside] /\
  (* the whole history, the endpoint still failing *)
  webhook_accepted q_nm q_hist [5%N] = [FM DEnter] /\
  webhook_owed q_nm q_hist [5%N] = [FM DInside; FM DExit; FM DOutside] /\
  (* after recovery *)
  webhook_accepted q_nm (q_hist ++ recovered [5%N] 601 1200 1201) [5%N] = [FM DEnter; FM DInside; FM DExit; FM DOutside] /\
  channel_stream q_hist [1%N] = [FM DEnter; FM DInside; FM DExit; FM DOutside] /\
  live_stream [107%N] Dq_default hq_hook q_hist = [FM DEnter; FM DInside; FM DExit; FM DOutside].
Proof.
  assert (Hsd : forall w old_r new_r,
            w_key w = [107%N] -> w_cl w = q_cl ->
            (forall h, In h q_cl <-> In h (candidates q_reg [107%N] old_r new_r)) ->
            w_cf w (hq_chan 1) = w_cf w hq_hook -> w_af w (hq_chan 1) = w_af w hq_hook ->
            is_move (c_cmd (w_cf w hq_hook)) = true ->
            (sp_of (c_obj (w_cf w hq_hook)) = true -> exists r2, new_r = Some r2 /\ overlaps (sqq 0 0) r2 = true) ->
            (sp_of (c_old (w_cf w hq_hook)) = true -> exists r1, old_r = Some r1 /\ overlaps (sqq 0 0) r1 = true) ->
            c_cross (w_cf w hq_hook) = false ->
            same_def hq_hook (hq_chan 1) [107%N] Dq_default (sqq 0 0) w).
  { intros w old_r new_r Hk Hcl Hc Hx Ha Hm Hn Ho Hcr. split; [exact Hk|].
    exists q_reg, old_r, new_r. rewrite Hcl.
    split; [apply registry_inv|].
    split; [vm_compute; repeat constructor; cbn; intuition discriminate|].
    split; [exact Hc|].
    split; [vm_compute; tauto|]. split; [vm_compute; tauto|].
    repeat (split; [reflexivity|]).
    split; [exact Hx|]. split; [exact Ha|]. split; [exact Hm|]. split; [exact Hn|]. split; [exact Ho|].
    rewrite Hcr. discriminate. }
  split; [|split; [|split; [|split]]].
  - apply (Hsd q_w1 (Some (sqq 50 50)) (Some (sqq 5 5))); try reflexivity.
    + intro h. vm_compute. intuition.
    + intros _. exists (sqq 5 5). split; reflexivity.
    + cbn. discriminate.
  - apply (Hsd q_w2 (Some (sqq 5 5)) (Some (sqq 50 50))); try reflexivity.
    + intro h. vm_compute. intuition.
    + cbn. discriminate.
    + intros _. exists (sqq 5 5). split; reflexivity.
  - intros w x Hw Hx Hn. cbn in Hw. destruct Hw as [<-|[<-|[]]]; cbn in Hx;
      destruct Hx as [<-|[<-|[<-|[]]]]; cbn in Hn; try discriminate; reflexivity.
  - unfold in_retention. cbn [hist map qev_of app q_hist recovered]. unfold enq_of, q_w1, q_w2.
    repeat (apply Forall_cons; [cbn [qtime w_now]; unfold hook_ttl; lia|]). apply Forall_nil.
  - vm_compute. repeat split; reflexivity.
Qed.
