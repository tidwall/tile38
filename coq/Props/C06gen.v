(* C06 (continued) — follow generations and followers without a log.
   A caught-up follower is an exact copy of its CURRENT leader: every FOLLOW that changes the leader starts a
   new generation (s.followc); the follow() goroutines of earlier generations are not cancelled, they end
   where they compare their generation with s.followc.  Model/FollowGen.v makes the attempts of all
   generations explicit; where they are guarded is read off the source (Gen/FollowSteps.v, regenerated
   by t38x on every run) - the first three theorems are that tie.  The leader's log is supplied by the
   environment at every step that talks to a leader, so every statement below holds for every leader
   behaviour.  Only theorems here, each closed by a lemma of Proofs/FollowGenProofs.v or by the line or two that
   prove it. *)
From Coq Require Import List ZArith Bool String.
From T38 Require Import Base.Bytes Gen.Consts Gen.FollowSteps Model.Follow Model.FollowGen Proofs.FollowGenProofs.
Import ListNotations.
Open Scope list_scope.
Open Scope Z_scope.

(* a generation that is no longer s.followc returns errNoLongerFollowing before it touches the server in all five
   places where an attempt comes back from the network or from another locked section: at the top of followStep, in
   followCheckSome and followHandleCommand (right after s.mu is taken), between followCheckSome's return and the first
   caught-up test, and in the read loop before faofsz / the flag are written (the last two since
   proposed_fixes/C06-stale-generation-flag.diff; the code before it is [pinned_cfg], see c06g_stale_flag_pinned_refuted) *)
Theorem c06g_guards_from_source :
  cfg_of follow_step follow_check_some follow_handle_command = proved_cfg.
Proof. vm_compute. reflexivity. Qed.
Print Assumptions c06g_guards_from_source.

(* followStartOver: with a log - recreate it, then followReset; without a log (--appendonly no) - followReset *)
Theorem c06g_start_over_from_source :
  forall aof, so_run aof follow_start_over = Some (proved_ops aof).
Proof. exact start_over_transcribed. Qed.
Print Assumptions c06g_start_over_from_source.

(* ... so EVERY start-over, in both configurations, leaves an empty dataset and aofsz = 0 (and an empty log if
   there is one): nothing the follower held survives a resync from position zero *)
Theorem c06g_start_over_resets :
  forall (st : Type) (st0 : st) aof (d : gdata st) ops,
  so_run aof follow_start_over = Some ops ->
  let d' := start_over st st0 ops d in
  d_mem st d' = st0 /\ d_aofsz st d' = 0 /\
  (aof = true -> d_file st d' = []) /\ (aof = false -> d_file st d' = d_file st d).
Proof.
  intros st st0 aof d ops H. rewrite start_over_transcribed in H. inversion H; subst.
  exact (start_over_resets st st0 aof d).
Qed.
Print Assumptions c06g_start_over_resets.

(* one step of an attempt whose generation is not s.followc - whichever step, against whichever leader log, in
   either --appendonly configuration - leaves the follower's log, dataset and aofsz (and s.followc) as they are *)
Theorem c06g_stale_attempt_inert :
  forall digest md5 digest_eqb csz st st0 app aof ops (w : world st) e i a,
  actor e = Some i -> nth_error (w_atts st w) i = Some a -> a_gen a <> w_cur st w ->
  w_data st (gstep digest md5 digest_eqb csz st st0 app proved_cfg aof ops w e) = w_data st w /\
  w_cur st (gstep digest md5 digest_eqb csz st st0 app proved_cfg aof ops w e) = w_cur st w.
Proof.
  intros. eapply stale_inert; eauto.
Qed.
Print Assumptions c06g_stale_attempt_inert.

(* ... and so does any sequence of steps of any number of stale attempts: after a newer FOLLOW has been accepted the
   earlier generations never change the follower's state again, however long they go on *)
Theorem c06g_stale_attempts_inert :
  forall digest md5 digest_eqb csz st st0 app aof ops es (w : world st),
  Forall (stale_ev (gens st w) (w_cur st w)) es ->
  w_data st (grun digest md5 digest_eqb csz st st0 app proved_cfg aof ops w es) = w_data st w /\
  w_cur st (grun digest md5 digest_eqb csz st st0 app proved_cfg aof ops w es) = w_cur st w.
Proof.
  intros digest md5 digest_eqb csz st st0 app aof ops es w HF.
  destruct (stale_steps digest md5 digest_eqb csz st st0 app proved_cfg aof ops es w HF) as ((_ & Ec) & Hd & _). auto.
Qed.
Print Assumptions c06g_stale_attempts_inert.

(* the caught-up flag: no step of a stale attempt raises it (a stale attempt may still clear it: GClear) ... *)
Theorem c06g_stale_flag_inert :
  forall digest md5 digest_eqb csz st st0 app aof ops (w : world st) e i a,
  actor e = Some i -> nth_error (w_atts st w) i = Some a -> a_gen a <> w_cur st w ->
  w_cup st (gstep digest md5 digest_eqb csz st st0 app proved_cfg aof ops w e) = true -> w_cup st w = true.
Proof.
  intros digest md5 digest_eqb csz st st0 app aof ops w e i a. apply stale_flag_partial; reflexivity.
Qed.
Print Assumptions c06g_stale_flag_inert.

(* ... and no sequence of steps of stale attempts does: if the follower reports caught up after them it did before *)
Theorem c06g_stale_flag_inert_run :
  forall digest md5 digest_eqb csz st st0 app aof ops es (w : world st),
  Forall (stale_ev (gens st w) (w_cur st w)) es ->
  w_cup st (grun digest md5 digest_eqb csz st st0 app proved_cfg aof ops w es) = true -> w_cup st w = true.
Proof.
  intros digest md5 digest_eqb csz st st0 app aof ops es w HF.
  apply (stale_steps digest md5 digest_eqb csz st st0 app proved_cfg aof ops es w HF); reflexivity.
Qed.
Print Assumptions c06g_stale_flag_inert_run.

(* in general: whenever the two places after the round trips are guarded (c06g_guards_from_source says they are) *)
Theorem c06g_stale_flag_if_guarded :
  forall digest md5 digest_eqb csz st st0 app cfg aof ops (w : world st) e i a,
  c_aofg cfg = true -> c_flagg cfg = true ->
  actor e = Some i -> nth_error (w_atts st w) i = Some a -> a_gen a <> w_cur st w ->
  w_cup st (gstep digest md5 digest_eqb csz st st0 app cfg aof ops w e) = true -> w_cup st w = true.
Proof. exact stale_flag_partial. Qed.
Print Assumptions c06g_stale_flag_if_guarded.

(* followCheckSome of the current generation on a follower without a log: WHATEVER it holds in memory (no premise
   about d_mem), it holds nothing afterwards and resumes at position 0 *)
Theorem c06g_noaof_resync_resets :
  forall digest md5 digest_eqb csz st st0 app, 0 < csz ->
  forall cfg (w : world st) i a sz l,
  nth_error (w_atts st w) i = Some a -> a_gen a = w_cur st w -> a_ph a = PServer sz ->
  noaof_wf st (w_data st w) ->
  let w' := gstep digest md5 digest_eqb csz st st0 app cfg false proved_ops w (GCheck i l) in
  w_data st w' = {| d_file := []; d_mem := st0; d_aofsz := 0 |} /\
  w_cup st w' = w_cup st w /\ w_cur st w' = w_cur st w /\
  nth_error (w_atts st w') i = Some {| a_gen := a_gen a; a_ph := PChecked sz 0 |}.
Proof.
  cbv zeta. intros. erewrite noaof_check_resets by eassumption.
  repeat split. eapply nth_set_nth_eq; eassumption.
Qed.
Print Assumptions c06g_noaof_resync_resets.

(* convergence from ANY dataset: followCheckSome + the AOF handshake of the current generation against a leader whose
   log is l, then any interleaving of deliveries, flag updates and leader appends: when everything handed over has been
   handled, the dataset is the replay of l ++ what the leader logged since, there is still no log and aofsz = 0 *)
Theorem c06g_noaof_converge :
  forall digest md5 digest_eqb csz st st0 app, 0 < csz ->
  forall cfg (w : world st) i a l es,
  nth_error (w_atts st w) i = Some a -> a_gen a = w_cur st w -> a_ph a = PServer (flen l) ->
  noaof_wf st (w_data st w) -> Forall (ses_ev i) es ->
  let w' := grun digest md5 digest_eqb csz st st0 app cfg false proved_ops
              (gstep digest md5 digest_eqb csz st st0 app cfg false proved_ops
                 (gstep digest md5 digest_eqb csz st st0 app cfg false proved_ops w (GCheck i l)) (GAof i l)) es in
  exists s, phase_of st w' i = Some (PStream s) /\
    (gs_rest s = [] ->
     d_mem st (w_data st w') = replay st st0 app (l ++ fed es) /\ gs_done s = l ++ fed es) /\
    noaof_wf st (w_data st w').
Proof. cbv zeta. intros. eapply noaof_inv_drained, noaof_session; eassumption. Qed.
Print Assumptions c06g_noaof_converge.

(* ---- concrete instances (identity "MD5", toy command semantics of Model/Follow.v) ---- *)
Definition idm (b : bytes) : bytes := b.
Definition trun csz cfg aof := grun bytes idm bytes_eqb csz toy_st [] toy_app cfg aof proved_ops.
Definition w0 (f : file) : world toy_st :=
  {| w_data := {| d_file := f; d_mem := replay toy_st [] toy_app f; d_aofsz := flen f |};
     w_cup := false; w_cur := 0; w_atts := [] |}.
Definition drained_att (w : world toy_st) (i : nat) : bool :=
  match phase_of toy_st w i with Some (PStream s) => match gs_rest s with [] => true | _ => false end | _ => false end.

(* the hypotheses of c06g_noaof_converge are satisfiable by a non-trivial state: a follower without a log that holds
   unrelated data (collection 9) ends with the leader's two objects and nothing else *)
Example c06g_noaof_example :
  let l := [[1;7;1;5]; [1;7;2;6]]%N in
  let w := {| w_data := {| d_file := []; d_mem := [(9, [(9, 9)])]%N; d_aofsz := 0 |}; w_cup := false; w_cur := 1;
              w_atts := [{| a_gen := 1; a_ph := PServer (flen l) |}] |} in
  let w' := trun c_checksumsz proved_cfg false w [GCheck 0 l; GAof 0 l; GDeliver 0; GDeliver 0; GFlag 0] in
  noaof_wf toy_st (w_data toy_st w) /\ drained_att w' 0 = true /\ w_cup toy_st w' = true /\
  d_mem toy_st (w_data toy_st w') = [(7, [(1, 5); (2, 6)])]%N /\ d_file toy_st (w_data toy_st w') = [].
Proof. vm_compute. repeat split. Qed.

(* the schedule of c06g_stale_attempts_inert on a concrete state: F follows A and catches up; the connection drops and
   the reconnect attempt of generation 1 waits for A's SERVER reply; FOLLOW B: generation 2 catches up with B; A's reply
   arrives: generation 1 ends in followCheckSome and F still holds exactly B's dataset and log *)
Definition la : file := [[1;7;1;5]; [1;7;2;6]]%N.
Definition lb : file := [[1;8;1;1]; [1;9;1;2]]%N.
Definition repoint_while_held : list gev :=
  [GFollow; GTopCheck 0; GClear 0; GServer 0 la; GCheck 0 la; GAof 0 la; GDeliver 0; GDeliver 0; GFlag 0;
   GFail 0; GTopCheck 0; GClear 0;
   GFollow; GTopCheck 1; GClear 1; GServer 1 lb; GCheck 1 lb; GAof 1 lb; GDeliver 1; GDeliver 1; GFlag 1;
   GServer 0 la; GCheck 0 la; GAof 0 la; GDeliver 0].

Example c06g_repoint_while_held_example :
  let w := trun c_checksumsz proved_cfg true (w0 []) repoint_while_held in
  w_cur toy_st w = 2%nat /\ gens toy_st w = [1; 2]%nat /\ phase_of toy_st w 0 = Some PDead /\
  drained_att w 1 = true /\ w_cup toy_st w = true /\
  d_mem toy_st (w_data toy_st w) = replay toy_st [] toy_app lb /\ d_file toy_st (w_data toy_st w) = lb.
Proof. vm_compute. repeat split. Qed.

(* WITHOUT the generation test in followCheckSome (c_check = false) the same schedule wipes the follower: the stale
   attempt's followCheckSome finds a log that is not A's, starts over, and F - following B, caught up, its current
   attempt drained - is empty.  (This is what the harness scenario corpus-stale-generation-held-at-server runs.) *)
Theorem c06g_no_recheck_refuted :
  let cfg := {| c_top := true; c_check := false; c_cmd := true; c_aofg := true; c_flagg := true |} in
  let w := trun c_checksumsz cfg true (w0 []) repoint_while_held in
  w_cur toy_st w = 2%nat /\ gens toy_st w = [1; 2]%nat /\ drained_att w 1 = true /\ w_cup toy_st w = true /\
  d_mem toy_st (w_data toy_st w) <> replay toy_st [] toy_app lb /\ d_mem toy_st (w_data toy_st w) = [].
Proof. vm_compute. repeat split. discriminate. Qed.
Print Assumptions c06g_no_recheck_refuted.

(* the code before proposed_fixes/C06-stale-generation-flag.diff ([pinned_cfg]): the first caught-up test after AOF was
   not guarded.  Leader A has an empty log; generation 1 passes followCheckSome and waits for A's reply to AOF 0; FOLLOW
   B: generation 2 has handled one of B's two records; A's reply arrives: `pos >= aofSize` (0 >= 0) holds for generation 1
   and the SERVER-wide flag is raised although the current generation has not been handed B's log.  With the repaired
   source (proved_cfg) the same step ends generation 1 and the flag stays off.  Finding
   C06-stale-generation-raises-caught-up (fixed); regression: harness corpus-stale-generation-held-at-aof-empty-leader *)
Theorem c06g_stale_flag_pinned_refuted :
  let es := [GFollow; GTopCheck 0; GClear 0; GServer 0 []; GCheck 0 [];
             GFollow; GTopCheck 1; GClear 1; GServer 1 lb; GCheck 1 lb; GAof 1 lb; GDeliver 1] in
  let w1 := trun c_checksumsz pinned_cfg true (w0 []) es in
  let w2 := gstep bytes idm bytes_eqb c_checksumsz toy_st [] toy_app pinned_cfg true proved_ops w1 (GAof 0 []) in
  let v1 := trun c_checksumsz proved_cfg true (w0 []) es in
  let v2 := gstep bytes idm bytes_eqb c_checksumsz toy_st [] toy_app proved_cfg true proved_ops v1 (GAof 0 []) in
  gens toy_st w1 = [1; 2]%nat /\ w_cur toy_st w1 = 2%nat /\ w_cup toy_st w1 = false /\
  w_cup toy_st w2 = true /\ drained_att w2 1 = false /\
  d_mem toy_st (w_data toy_st w2) <> replay toy_st [] toy_app lb /\
  v1 = w1 /\ w_cup toy_st v2 = false /\ phase_of toy_st v2 0 = Some PDead.
Proof. vm_compute. repeat split. discriminate. Qed.
Print Assumptions c06g_stale_flag_pinned_refuted.

(* the source as it is, ONE generation: the resume position is verified against the leader's log in followCheckSome
   (on a connection of its own) and sent with AOF afterwards; nothing keeps the leader from replacing its log in
   between (AOFSHRINK closes the registered replication connections only).  checksumsz scaled to 4: the follower holds
   the first two records of l; the leader rewrites its log to l' (same record boundaries, object 1 has its latest value);
   AOF 8 is accepted, the next record is streamed, the follower reports caught up and differs from its leader for ever.
   Open finding C06-shrink-between-check-and-aof (harness: corpus-leader-shrink-between-check-and-aof) *)
Theorem c06g_check_then_shrink_refuted :
  let f := [[1;7;1;5]; [1;7;2;6]]%N in
  let l := f ++ [[1;7;1;9]]%N in
  let l' := [[1;7;1;9]; [1;7;2;6]]%N in
  let r := [1;7;3;3]%N in
  let w := trun 4 proved_cfg true (w0 f)
             [GFollow; GTopCheck 0; GClear 0; GServer 0 l; GCheck 0 l; GAof 0 l'; GFeed 0 r; GDeliver 0; GFlag 0] in
  replay toy_st [] toy_app l = replay toy_st [] toy_app l' /\
  w_cur toy_st w = 1%nat /\ gens toy_st w = [1]%nat /\ drained_att w 0 = true /\ w_cup toy_st w = true /\
  d_mem toy_st (w_data toy_st w) <> replay toy_st [] toy_app (l' ++ [r]) /\
  d_mem toy_st (w_data toy_st w) = replay toy_st [] toy_app (f ++ [r]).
Proof. vm_compute. repeat split. discriminate. Qed.
Print Assumptions c06g_check_then_shrink_refuted.
