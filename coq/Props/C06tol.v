(* C06 (continued) — errors of a streamed command.  followHandleCommand skips a record whose command returns an
   error commandErrIsFatal tolerates and carries on with the stream (still claiming, once the stream is consumed,
   to be a copy); any other error fails the attempt (the follower retries and reports not caught up meanwhile).
   A skipped record is harmless only if the leader's own execution of it would have met the same error, i.e. if the
   error depends on dataset + command only.  The tolerated set is read off the source (Gen/ReplayTol.v: commandErrIsFatal
   evaluated on every error sentinel; Gen/FollowSteps.v: followHandleCommand consults it).
   Only theorems here, each closed by a lemma of Proofs/FollowTolProofs.v or by the line or two that prove it. *)
From Coq Require Import List Bool String.
From T38 Require Import Gen.ReplayTol Gen.FollowSteps Model.FollowTol Proofs.FollowTolProofs.
Import ListNotations.

Theorem c06t_tolerated_from_source :
  tolerated_of_table replay_err_table = proved_tolerated /\ replay_err_other_fatal = true.
Proof. exact tolerated_transcribed. Qed.
Print Assumptions c06t_tolerated_from_source.

(* followHandleCommand decides with commandErrIsFatal, right after s.command *)
Theorem c06t_follower_consults_table : consults_table follow_handle_command = true.
Proof. vm_compute. reflexivity. Qed.
Print Assumptions c06t_follower_consults_table.

(* every error the source lets a follower skip depends on dataset + command only (errOOM, which depends on the
   follower's own memory state, is not among them) *)
Theorem c06t_tolerated_state_only :
  forall e, tol_of_table replay_err_table replay_err_other_fatal e = true -> state_only_name e = true.
Proof. exact source_tolerates_state_only. Qed.
Print Assumptions c06t_tolerated_state_only.

(* for ANY command semantics [xapp] in which the state-only errors really are state-only: a follower that starts
   as a copy of its leader and handles the whole stream under the source's table ends as a copy, whatever its local
   conditions (memory pressure, ...) were at each record *)
Theorem c06t_stream_copy :
  forall (st rec loc : Type) (xapp : loc -> rec -> st -> (st * bool) + string),
  (forall l1 l2 r s v w, xapp l1 r s = inl v -> xapp l2 r s = inl w -> v = w) ->
  (forall l1 l2 r s v e, xapp l1 r s = inl v -> xapp l2 r s = inr e -> state_only_name e = false) ->
  forall ts s sL sF,
  lrun st rec loc xapp ts s = Some sL ->
  fstream st rec loc xapp (tol_of_table replay_err_table replay_err_other_fatal) ts s = inl sF ->
  sF = sL.
Proof.
  intros st rec loc xapp H1 H2. eapply tol_sound; eauto. exact source_tolerates_state_only.
Qed.
Print Assumptions c06t_stream_copy.

(* and the record at which the follower's own condition gets in the way fails the attempt (it is not skipped) *)
Theorem c06t_local_error_fails_attempt :
  forall (st rec loc : Type) (xapp : loc -> rec -> st -> (st * bool) + string),
  (forall l1 l2 r s v e, xapp l1 r s = inl v -> xapp l2 r s = inr e -> state_only_name e = false) ->
  forall ll lf r s v e, xapp ll r s = inl v -> xapp lf r s = inr e ->
  fdeliver st rec loc xapp (tol_of_table replay_err_table replay_err_other_fatal) lf r s = Failed st e.
Proof.
  intros st rec loc xapp H2. eapply local_error_fails; eauto. exact source_tolerates_state_only.
Qed.
Print Assumptions c06t_local_error_fails_attempt.

(* the hypotheses are satisfiable by a semantics with a local error: the toy instance of Model/FollowTol.v *)
Example c06t_toy_hypotheses :
  (forall l1 l2 r s v w, toy_xapp l1 r s = inl v -> toy_xapp l2 r s = inl w -> v = w) /\
  (forall l1 l2 r s v e, toy_xapp l1 r s = inl v -> toy_xapp l2 r s = inr e -> state_only_name e = false).
Proof.
  split.
  - intros l1 l2 [n|n] s v w; cbn.
    + destruct l1, l2; try discriminate. congruence.
    + destruct (existsb (Nat.eqb n) s); try discriminate. congruence.
  - intros l1 l2 [n|n] s v e; cbn.
    + destruct l1, l2; try discriminate. intros _ H. inversion H. reflexivity.
    + destruct (existsb (Nat.eqb n) s); discriminate.
Qed.

(* ---- the table with errOOM tolerated: refuted ---- *)
(* the leader acknowledges SET 1, SET 2, DEL 1; the follower (a copy, [] ) is over its maxmemory during the two
   SETs: both are skipped, the DEL is skipped too (errIDNotFound is tolerated - the cooperating entry), the stream
   is handled completely (inl: connected, caught up) and the follower holds nothing while the leader holds [2].
   With the source's table the same stream fails the attempt at the first record. *)
Theorem c06t_oom_tolerated_refuted :
  let table := ("errOOM", "OOM command not allowed when used memory > 'maxmemory'", false)%string ::
               filter (fun r : string * string * bool => negb (String.eqb (fst (fst r)) "errOOM"%string)) replay_err_table in
  let ts := [(false, true, TSet 1); (false, true, TSet 2); (false, false, TDel 1)] in
  table_state_only table = false /\
  lrun (list nat) toy_rec bool toy_xapp ts [] = Some [2] /\
  fstream (list nat) toy_rec bool toy_xapp (tol_of_table table replay_err_other_fatal) ts [] = inl [] /\
  fstream (list nat) toy_rec bool toy_xapp (tol_of_table replay_err_table replay_err_other_fatal) ts [] = inr ("errOOM"%string, []).
Proof. vm_compute. repeat split. Qed.
Print Assumptions c06t_oom_tolerated_refuted.
