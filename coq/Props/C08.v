(* C08 — A write is handed to the log file before its acknowledgement is sent.
   Only the property theorems; each is closed by a lemma of Proofs/PrewriteProofs.v or by the few lines
   that prove it here.
   v_fixed is the statement order /repo's working tree has after proposed_fixes/C08-prewrite-order.diff;
   harness/cmd/c08 re-derives the order from netServe's AST on every run and reports a
   correspondence failure when it is not v_fixed. *)
From Coq Require Import List NArith.
From T38 Require Import Model.Prewrite Proofs.PrewriteProofs.
Import ListNotations.

(* For any number of connections and background flushers, any programs (batches of write commands,
   read-only batches, batches that end by going live) and any schedule of the micro-steps: in the
   state reached, every command whose reply has been written to a socket is in the file.  Schedules
   are prefix-closed, so this is every reachable state, i.e. every kill instant. *)
Theorem c08_acked_flushed : forall progs sched c,
  In c (acked (run_sched v_fixed progs sched)) -> In c (file (run_sched v_fixed progs sched)).
Proof. exact acked_flushed. Qed.
Print Assumptions c08_acked_flushed.

(* ... and it stays there whatever runs afterwards (the file is append-only): a crash after any
   later step loses only unacknowledged commands. *)
Theorem c08_acked_survives : forall progs sched more c,
  In c (acked (run_sched v_fixed progs sched)) ->
  In c (file (run_sched v_fixed progs (sched ++ more))).
Proof.
  intros progs sched more c Hc. unfold run_sched. rewrite run_from_app.
  apply run_from_ind; [intros st t; apply step_file_mono | apply acked_flushed, Hc].
Qed.
Print Assumptions c08_acked_survives.

(* Supporting invariant of DESIGN.md: a non-empty buffer is always announced by the flag.  It holds
   at every reachable state without lock-held exceptions, because writeAOF sets the flag before it
   appends and the repaired pre-write clears it after the flush inside the same critical section. *)
Theorem c08_dirty_covers_buf : forall progs sched,
  buf (run_sched v_fixed progs sched) <> [] -> dirty (run_sched v_fixed progs sched) = true.
Proof.
  intros progs sched Hne. pose proof (inv_dirty _ (reachable_inv progs sched)) as HD.
  destruct (dirty (run_sched v_fixed progs sched)); [reflexivity|]. exfalso. apply Hne. apply HD. reflexivity.
Qed.
Print Assumptions c08_dirty_covers_buf.

(* The order of the pinned commit (flag cleared after the unlock) violates the property: finding F13.
   Witness: A logs and flushes, C logs, A clears the flag, C reads false and acknowledges. *)
Theorem c08_refuted :
  exists progs sched c,
    In c (acked (run_sched (mkVariant false true false true true false) progs sched)) /\
    ~ In c (file (run_sched (mkVariant false true false true true false) progs sched)).
Proof. apply (refuted_by _ f13_progs f13_sched 2%N); vm_compute; reflexivity. Qed.
Print Assumptions c08_refuted.

(* Second defect of the pinned commit (finding F13b): the goingLive branch of netServe writes
   client.out without the pre-write; one connection suffices (SET ... and SUBSCRIBE in one packet). *)
Theorem c08_detach_refuted :
  exists progs sched c,
    In c (acked (run_sched (mkVariant true false false true true false) progs sched)) /\
    ~ In c (file (run_sched (mkVariant true false false true true false) progs sched)).
Proof. apply (refuted_by _ f13b_progs f13b_sched 1%N); vm_compute; reflexivity. Qed.
Print Assumptions c08_detach_refuted.

(* Four other statement orders the source check recognises (none is tile38's): the background flusher
   consuming the flag before it holds the lock ... *)
Theorem c08_flusher_swap_refuted :
  exists progs sched c,
    In c (acked (run_sched (mkVariant true true true true true false) progs sched)) /\
    ~ In c (file (run_sched (mkVariant true true true true true false) progs sched)).
Proof. apply (refuted_by _ fswap_progs fswap_sched 1%N); vm_compute; reflexivity. Qed.
Print Assumptions c08_flusher_swap_refuted.

(* ... and the flag raised by handleInputCommand after writeAOF instead of inside writeAOF: a write made
   by a Lua script (scripts.go calls writeAOF itself) is acknowledged with the flag clear. *)
Theorem c08_flag_in_dispatcher_refuted :
  exists progs sched c,
    In c (acked (run_sched (mkVariant true true false false true false) progs sched)) /\
    ~ In c (file (run_sched (mkVariant true true false false true false) progs sched)).
Proof. apply (refuted_by _ fdisp_progs fdisp_sched 1%N); vm_compute; reflexivity. Qed.
Print Assumptions c08_flag_in_dispatcher_refuted.

(* ... and the goingLive copy of the pre-write releasing the lock right after the flush and clearing
   the flag afterwards (F13 again, in the other copy): [SET][SUBSCRIBE] in one packet on A, a write of C
   between A's unlock and A's clear. *)
Theorem c08_detach_store_unlocked_refuted :
  exists progs sched c,
    In c (acked (run_sched (mkVariant true true false true false false) progs sched)) /\
    ~ In c (file (run_sched (mkVariant true true false true false false) progs sched)).
Proof. apply (refuted_by _ fdet_progs fdet_sched 2%N); vm_compute; reflexivity. Qed.
Print Assumptions c08_detach_store_unlocked_refuted.

(* ... and the background flusher clearing the flag unconditionally at the start of every round, before
   it takes the lock: after one (empty) round, B logs while the flusher sleeps; the next round's store
   clears the flag over B's buffered command; B tests the flag, skips its flush and replies. *)
Theorem c08_flusher_store_refuted :
  exists progs sched c,
    In c (acked (run_sched (mkVariant true true false true true true) progs sched)) /\
    ~ In c (file (run_sched (mkVariant true true false true true true) progs sched)).
Proof. apply (refuted_by _ fstore_progs fstore_sched 1%N); vm_compute; reflexivity. Qed.
Print Assumptions c08_flusher_store_refuted.

(* non-vacuity: a schedule of the repaired order in which both commands are acknowledged (and flushed) *)
Example c08_nonvacuous :
  let st := run_sched v_fixed f13_progs ([0;0;0;0;0;0;0;0;0;0;0; 1;1;1;1;1;1;1;1;1;1;1]%nat) in
  acked st = [1%N; 2%N] /\ file st = [1%N; 2%N] /\ acked_in_file st = true.
Proof. vm_compute. auto. Qed.

(* the refutation schedule run against the repaired order: C is made to flush before it replies *)
Example c08_f13_schedule_repaired :
  let st := run_sched v_fixed f13_progs (f13_sched ++ [1;1;1;1;1;1]%nat) in
  acked st = [2%N] /\ file st = [1%N; 2%N].
Proof. vm_compute. auto. Qed.
