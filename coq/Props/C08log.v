(* C08 (continuation of Props/C08.v) — "that command's bytes have already been written to the
   append-only file" presupposes that the command is handed to the log at all.  Props/C08.v is about
   the order (append, flush, reply) for a command that reaches writeAOF's append; this file is about
   EVERY data-modifying command and variant reaching it:

     * over the tables t38x regenerates from /repo on every run (handleInputCommand's lock switch,
       Server.command's switch, the three tile38.call switches, the mutation sites of every handler);
     * over the keyspace handlers of Model/Keyspace.v (writeAOF's `!d.updated` early return): a command
       that changed the dataset is logged, and the record is its own argument list.

   harness/cmd/c08 (sweep.go) ties both to the server: for every data-modifying command and variant,
   and along random histories, "dump changed => the command's bytes are in appendonly.aof when the
   reply arrives" (oracle, + kill -9 / restart equality) and "Keyspace.exec logs <=> the file grew"
   (correspondence).  Only theorems; each closed by a lemma of Proofs/GateProofs.v or
   Proofs/LoggedProofs.v, or by the line or two that prove it here. *)
From Coq Require Import String List Bool ZArith.
From T38 Require Import Model.Tables Gen.LockTable Gen.Dispatch Gen.ScriptTables Gen.AuthGate Gen.Mutators
  Model.Gate Proofs.GateProofs Proofs.LoggedProofs.
From T38 Require Base.Bytes Model.Spec Model.Keyspace Proofs.KsInv Proofs.KsProgram Proofs.KsReplay.
Import ListNotations.
Open Scope string_scope.

(* every command word c (all strings): if the handler Server.command dispatches c to can modify the
   dataset (collections, objects, hooks, channels — Gen/Mutators.v), then c is listed in an arm of
   handleInputCommand's lock switch that sets write = true, and `if write { s.writeAOF(...) }` follows
   the handler call.  (dev_only = shutdown / massinsert / sleep.) *)
Theorem c08_every_change_logged : forall c, logged_check c = true.
Proof. exact every_change_logged. Qed.
Print Assumptions c08_every_change_logged.

(* ... as a statement about the gate model: whatever the configuration and the credentials, a
   data-modifying command that is let through runs with write = true, in a table that logs on
   write, and the writeAOF call comes after the handler *)
Theorem c08_changing_cmd_reaches_writeaof : forall outer inner e k l w fn,
  gate outer inner e k = VRun l w fn ->
  changes inner = true -> in_strs inner dev_only = false ->
  w = true /\ t_logs_on_write lock_table = true /\ before GCommand GWriteAOF gate_order = true.
Proof. exact changing_cmd_reaches_writeaof. Qed.
Print Assumptions c08_changing_cmd_reaches_writeaof.

(* the same for every sub-command a script may issue through tile38.call (EVAL/EVALSHA: script_rw,
   EVALNA/EVALNASHA: script_na) *)
Theorem c08_script_writes_logged :
  forall t, In t [script_rw; script_na] -> forall c, script_logged_check t c = true.
Proof. exact script_writes_logged. Qed.
Print Assumptions c08_script_writes_logged.

Theorem c08_changing_script_cmd_reaches_writeaof : forall t c e l w fn,
  In t [script_rw; script_na] ->
  script_gate t c e = SRun l w fn -> changes_script c = true ->
  w = true /\ t_logs_on_write t = true.
Proof. exact changing_script_cmd_reaches_writeaof. Qed.
Print Assumptions c08_changing_script_cmd_reaches_writeaof.

(* the write arm is exactly the set of commands whose handler can modify the dataset *)
Theorem c08_write_arm_is_the_changing_set :
  forallb (fun c => Bool.eqb (changes c && negb (in_strs c dev_only)) (in_strs c (write_arm_cmds lock_table)))
          all_command_names = true /\
  a_write (t_default lock_table) = false.
Proof. exact write_arm_is_the_changing_set. Qed.
Print Assumptions c08_write_arm_is_the_changing_set.

(* the lock-table arm Model/Keyspace.v transcribes by hand is the regenerated one (hook and channel
   commands are not keyspace commands) *)
Theorem c08_ks_arm_matches_table :
  forallb (fun c => Bool.eqb (ks_is_write c) (a_write (arm_of lock_table c) && negb (in_strs c hook_chan_cmds)))
          all_command_names = true.
Proof. vm_compute. reflexivity. Qed.
Print Assumptions c08_ks_arm_matches_table.

(* handler level, every keyspace command line and variant (SET NX/XX, FSET XX, DEL, PDEL, DROP,
   RENAME onto a free or an existing key, RENAMENX, FLUSHDB, EXPIRE, PERSIST, JSET/JDEL on strings
   and on GeoJSON objects; any library behaviour O), every well-formed state: if the command changed
   the dataset then writeAOF appended exactly the command's argument list — the handler reported
   updated = true and the command is in the write arm *)
Theorem c08_changed_logged : forall O e s args s' r log,
  KsInv.inv s -> Keyspace.exec O true e s args = Keyspace.Done s' r log -> s' <> s -> log = [args].
Proof.
  intros O e s args s' r log Hi Hx Hne.
  destruct (KsProgram.exec_effect O e s args s' r log Hi Hx) as [[E _]|(_ & _ & L)]; [contradiction | exact L].
Qed.
Print Assumptions c08_changed_logged.
(* along a whole program: the invariant is preserved, so the statement holds at every step *)

Theorem c08_changed_logged_flag : forall O e s args,
  KsInv.inv s -> fst (KsReplay.ks_exec O e s args) <> s -> snd (KsReplay.ks_exec O e s args) = true.
Proof.
  intros O e s args Hi Hne. destruct (snd (KsReplay.ks_exec O e s args)) eqn:E; [reflexivity|]. exfalso. apply Hne.
  apply KsReplay.ks_noupd; assumption.
Qed.
Print Assumptions c08_changed_logged_flag.

(* not vacuous: with two collections k and g stored, RENAME k g (the overwrite variant) and
   RENAMENX k n change the keyspace and are logged with their own argument list; RENAMENX k g
   changes nothing and is not logged *)
Example c08_rename_variants :
  exists s, Keyspace.run KsProgram.toy_oracle true [] two_keys = Some (s, [Spec.ROk Spec.str_OK; Spec.ROk Spec.str_OK]) /\
    (exists s' r, Keyspace.exec KsProgram.toy_oracle true (KsProgram.toy_env 6%Z) s [w_RENAME; KsProgram.w_k; KsProgram.w_g]
                  = Keyspace.Done s' r [[w_RENAME; KsProgram.w_k; KsProgram.w_g]] /\ s' <> s) /\
    (exists s' r, Keyspace.exec KsProgram.toy_oracle true (KsProgram.toy_env 6%Z) s [w_RENAMENX; KsProgram.w_k; w_n]
                  = Keyspace.Done s' r [[w_RENAMENX; KsProgram.w_k; w_n]] /\ s' <> s) /\
    (exists r, Keyspace.exec KsProgram.toy_oracle true (KsProgram.toy_env 6%Z) s [w_RENAMENX; KsProgram.w_k; KsProgram.w_g]
               = Keyspace.Done s r []).
Proof. exact rename_variants_witness. Qed.
