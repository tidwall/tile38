(* C08 (continuation) — Model/Prewrite.v makes acknowledgements visible at ONE step, P6: the socket write
   of netServe's reply block (and its goingLive copy), after the pre-write flush.  That the source has no
   other way of sending a reply is decided here, over the table of every write to a socket / unknown
   writer that t38x regenerates from /repo on every run (Gen/SocketWrites.v: function, destination,
   type, how, what is written, inside a reply block?, on the command path?).  Only theorems, each closed
   by a lemma of Proofs/ReplyPathProofs.v or by computation here.  The allow-list and its justification:
   Model/ReplyPath.v. *)
From Coq Require Import String List Bool.
From T38 Require Import Gen.SocketWrites Model.ReplyPath Proofs.ReplyPathProofs.
Import ListNotations.
Open Scope string_scope.

(* no write on the command path lies outside the two post-flush reply blocks, except writes that carry
   no acknowledgement (protected-mode refusal, read error after the reply block, HTTP/WebSocket
   handshake of the parser, the hand-over to the live loop, the MONITOR feed) *)
Theorem c08_no_early_socket_write : early_writes socket_writes = [].
Proof. exact no_early_socket_write. Qed.
Print Assumptions c08_no_early_socket_write.

Theorem c08_on_path_write_classified : forall w, In w socket_writes -> sw_on_path w = true ->
  sw_reply_block w = true \/ allowed w = true.
Proof. exact on_path_write_classified. Qed.
Print Assumptions c08_on_path_write_classified.

(* the reply buffer is sent by exactly the two writes the pre-write model knows (P6 and its goingLive copy) *)
Theorem c08_reply_writes_are_the_two_blocks :
  reply_blocks = 2 /\ length (reply_writes socket_writes) = 2 /\
  forallb (fun w => String.eqb (sw_fn w) "Server.netServe" && String.eqb (sw_arg w) "client.out" && String.eqb (sw_how w) ".Write")
          (reply_writes socket_writes) = true.
Proof. vm_compute. repeat split. Qed.
Print Assumptions c08_reply_writes_are_the_two_blocks.

Theorem c08_reply_buffer_leaves_through_the_blocks_only : allowed_sends_reply_buffer socket_writes = [].
Proof. vm_compute. reflexivity. Qed.
Print Assumptions c08_reply_buffer_leaves_through_the_blocks_only.

(* the handlers' writes end in Client.Write, which appends to client.out and does nothing else *)
Theorem c08_client_write_only_buffers : client_write_body = client_write_buffers.
Proof. vm_compute. reflexivity. Qed.
Print Assumptions c08_client_write_only_buffers.
