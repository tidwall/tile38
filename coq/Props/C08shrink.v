(* C08 (continuation) — "a crash at any time loses only unacknowledged commands" across an AOFSHRINK:
   a write acknowledged while a rewrite runs is in the old file and in s.shrinklog, and the
   shrinklog is what carries it into the file the server keeps (C09: new file = snapshot ++
   shrinklog).  So nothing but the rewrite's own start and end may reset the shrinklog.  Statements
   are C09's model (Model/Shrink.v); the tie to the source is the statement list of aofshrink()'s
   entry section and epilogue that t38x regenerates on every run (Gen/ShrinkEntry.v).
   Only theorems, each closed by a lemma of Proofs/ShrinkEntryProofs.v / Proofs/ShrinkProofs.v or by the
   line or two that prove it here. *)
From Coq Require Import String List Bool.
From T38 Require Import Model.Shrink Gen.ShrinkEntry Gen.ShrinkFinal Model.ShrinkEntry Proofs.ShrinkProofs Proofs.ShrinkEntryProofs.
Import ListNotations.
Open Scope string_scope.

(* the entry section of aofshrink(), as regenerated from the source, is the model's `request` on the
   flag and the log: guard first, then `s.shrinking = true; s.shrinklog = nil` *)
Theorem c08_shrink_entry_transcribed : forall r,
  exec_section true entry_section r =
  Some (if r_shrinking r then r else mkRun (r_live r) (r_sh r) [] true).
Proof. exact entry_transcribed. Qed.
Print Assumptions c08_shrink_entry_transcribed.

(* a refused AOFSHRINK (one that arrives while a rewrite is running, or on a server without a log
   file) changes nothing: the running rewrite keeps its shrinklog *)
Theorem c08_refused_shrink_changes_nothing : forall r,
  r_shrinking r = true -> exec_section true entry_section r = Some r.
Proof. intros r H. rewrite entry_transcribed, H. reflexivity. Qed.
Print Assumptions c08_refused_shrink_changes_nothing.

Theorem c08_shrink_without_aof_changes_nothing : forall r, exec_section false entry_section r = Some r.
Proof. intros [l sh lg [|]]; vm_compute; reflexivity. Qed.
Print Assumptions c08_shrink_without_aof_changes_nothing.

(* the same in the schedule model of C09 *)
Theorem c08_request_is_noop : forall mk mi r, r_shrinking r = true -> do_ev mk mi r Req = r.
Proof. exact request_is_noop. Qed.
Print Assumptions c08_request_is_noop.

(* any schedule of writer commands, rewrite steps and further AOFSHRINK requests: the shrinklog at
   the end is the one of the same schedule without the requests — no acknowledged command is dropped
   from what the final section appends to the new file *)
Theorem c08_requests_keep_shrinklog : forall mk mi sched r,
  r_shrinking r = true ->
  r_log (run_sched mk mi (filter (fun e => match e with Req => false | _ => true end) sched) r) =
  r_log (run_sched mk mi sched r) /\
  r_shrinking (run_sched mk mi sched r) = true.
Proof.
  intros mk mi sched r H. rewrite (requests_change_nothing mk mi sched r H).
  split; [reflexivity | apply shrinking_run, H].
Qed.
Print Assumptions c08_requests_keep_shrinklog.

(* the deferred epilogue is the model's end_rewrite, and no other statement of the package assigns
   s.shrinking / s.shrinklog (writeAOF appends) — except a reset of the log by a function that also
   raises the abort flag s.shrinkrst, on which the final section gives up before it appends the log
   (the follower's followReset of proposed_fixes/C09-follow-reset-aborts-shrink.diff; Model/ShrinkEntry.v
   write_ok) *)
Theorem c08_shrink_epilogue_transcribed : forall b r, exec_section b epilogue_section r = Some (end_rewrite r).
Proof. intros [|] [l sh lg [|]]; vm_compute; reflexivity. Qed.
Print Assumptions c08_shrink_epilogue_transcribed.

Theorem c08_shrink_state_writes_accounted :
  forallb (write_ok shrink_state_writes final_section) shrink_state_writes = true /\
  forallb (fun w => in_list w shrink_state_writes) expected_state_writes = true.
Proof. vm_compute. split; reflexivity. Qed.
Print Assumptions c08_shrink_state_writes_accounted.

(* the reset moved in front of the guard (a recognised other order) is refuted: the refused request
   empties the running rewrite's log *)
Example c08_reset_before_guard_refuted :
  forall l sh c,
    exec_section true ["s.mu.Lock()"; "s.shrinklog = nil"; "if s.aof == nil || s.shrinking {s.mu.Unlock(); return}";
                       "s.shrinking = true"; "s.mu.Unlock()"] (mkRun l sh [c] true)
    = Some (mkRun l sh [] true).
Proof. intros. vm_compute. reflexivity. Qed.
