(* C09 — AOFSHRINK preserves the dataset.
   This file holds only the property theorems, each closed by a lemma of Proofs/ShrinkProofs.v
   or by the line or two that prove it here, and closed examples showing that the hypotheses are satisfiable by non-trivial states. *)
From Coq Require Import List NArith ZArith Bool.
From T38 Require Import Base.Bytes Base.SMap Model.Shrink Proofs.ShrinkProofs.
Import ListNotations.

(* Writers that do not RENAME may run between any two locked sections of the rewrite: once the
   scan loops are over, snapshot ++ shrinklog replays to the live dataset, for any batch sizes. *)
Theorem c09_concurrent_partial :
  forall mk mi s0 sched, wf s0 -> no_rename sched = true ->
    let r := run_sched mk mi sched (run_init s0) in
    sh_done (r_sh r) = true ->
    same_data (replay (newfile r) []) (r_live r).
Proof. exact concurrent_partial. Qed.
Print Assumptions c09_concurrent_partial.

(* No writer at all: the new file replays to the dataset the rewrite started from. *)
Theorem c09_quiescent :
  forall mk mi s n, wf s ->
    let r := run_sched mk mi (repeat Step n) (run_init s) in
    sh_done (r_sh r) = true -> same_data (replay (newfile r) []) s.
Proof. exact quiescent. Qed.
Print Assumptions c09_quiescent.

(* Known finding (open): with RENAME the property fails, with the real batch sizes.
   Witness "lost collection": after the first keys batch b..i (cursor at m), m is renamed to a;
   the rewrite never visits a, and replaying RENAME m a on the snapshot fails with key-not-found. *)
Theorem c09_rename_refuted :
  exists s0 sched, wf s0 /\ sh_done (r_sh (run_sched maxkeys maxids sched (run_init s0))) = true /\
    exists k i, lookup k i (replay (newfile (run_sched maxkeys maxids sched (run_init s0))) []) <>
                lookup k i (r_live (run_sched maxkeys maxids sched (run_init s0))).
Proof. exact rename_refuted. Qed.
Print Assumptions c09_rename_refuted.

(* Witness "replayed twice": RENAME A B; SET A 1 y logged before the snapshot of A and B is taken:
   the replayed RENAME overwrites the snapshot of B with the new A. *)
Theorem c09_rename_dup_refuted :
  exists s0 sched, wf s0 /\ sh_done (r_sh (run_sched maxkeys maxids sched (run_init s0))) = true /\
    exists k i, lookup k i (replay (newfile (run_sched maxkeys maxids sched (run_init s0))) []) <>
                lookup k i (r_live (run_sched maxkeys maxids sched (run_init s0))).
Proof. exact rename_dup_refuted. Qed.
Print Assumptions c09_rename_dup_refuted.

(* Crash at any point of the final section, repaired start-up: the recovered dataset is the one of
   the flushed live file or the one including the accepted-but-unflushed commands. *)
Theorem c09_crash_points :
  forall fi c,
    same_data (replay (f_snap fi ++ f_slog fi) []) (replay (f_live fi ++ f_pend fi) []) ->
    let d := recover_dir (crash_at fi c) in
    same_data d (replay (f_live fi) []) \/ same_data d (replay (f_live fi ++ f_pend fi) []).
Proof. exact crash_points. Qed.
Print Assumptions c09_crash_points.

(* Pinned start-up: a crash between the two renames leaves an empty database. *)
Theorem c09_crash_orig_refuted :
  exists fi,
    same_data (replay (f_snap fi ++ f_slog fi) []) (replay (f_live fi ++ f_pend fi) []) /\
    (exists k i v, lookup k i (replay (f_live fi) []) = Some v) /\
    recover_dir_orig (crash_at fi CP_after_rename_bak) = [].
Proof. exact crash_orig_refuted. Qed.
Print Assumptions c09_crash_orig_refuted.

(* ... and that is the only bad crash point of the pinned start-up. *)
Theorem c09_crash_orig_partial :
  forall fi c, c <> CP_after_rename_bak ->
    same_data (replay (f_snap fi ++ f_slog fi) []) (replay (f_live fi ++ f_pend fi) []) ->
    let d := recover_dir_orig (crash_at fi c) in
    same_data d (replay (f_live fi) []) \/ same_data d (replay (f_live fi ++ f_pend fi) []).
Proof. exact crash_orig_partial. Qed.
Print Assumptions c09_crash_orig_partial.

(* For ALL schedules (RENAME included): the snapshot records are SET records in strictly increasing
   (key, id) order — rec_lt is the lexicographic order, rec_sorted = all SET + StronglySorted rec_lt —
   hence no object is written twice and no batch repeats an earlier one. *)
Theorem c09_batches_never_repeat :
  forall mk mi s0 sched, wf s0 ->
    let r := run_sched mk mi sched (run_init s0) in rec_sorted (sh_out (r_sh r)).
Proof. exact batches_never_repeat. Qed.
Print Assumptions c09_batches_never_repeat.

(* Quiescent: the snapshot holds exactly the objects of the dataset, each once, in order. *)
Theorem c09_batches_cover :
  forall mk mi s n, wf s ->
    let r := run_sched mk mi (repeat Step n) (run_init s) in
    sh_done (r_sh r) = true ->
    (forall k i v, In (rec_cmd k i v) (sh_out (r_sh r)) <-> lookup k i s = Some v) /\
    rec_sorted (sh_out (r_sh r)).
Proof. exact batches_cover. Qed.
Print Assumptions c09_batches_cover.

(* Quiescent, stronger form: the snapshot IS the flattened dataset (one SET per object, in
   iteration order). *)
Theorem c09_quiescent_snapshot :
  forall mk mi s n, wf s ->
    let r := run_sched mk mi (repeat Step n) (run_init s) in
    sh_done (r_sh r) = true -> sh_out (r_sh r) = map rec_of (flatten s).
Proof. exact quiescent_snapshot. Qed.
Print Assumptions c09_quiescent_snapshot.

(* The quiescent rewrite terminates (batch sizes at least 1). *)
Theorem c09_quiescent_terminates :
  forall mk mi s, (1 <= mk)%nat -> (1 <= mi)%nat -> wf s ->
    exists n, sh_done (r_sh (run_sched mk mi (repeat Step n) (run_init s))) = true.
Proof.
  intros mk mi s Hmk Hmi Hwf.
  apply (terminates_from mk mi s Hmk Hmi Hwf (mu s shrink_init)); [apply le_n | apply top_pos_ok].
Qed.
Print Assumptions c09_quiescent_terminates.

(* An AOFSHRINK request that arrives while a rewrite is running is refused: it changes nothing (so
   c09_concurrent_partial and c09_batches_never_repeat hold with requests anywhere in the schedule). *)
Theorem c09_request_is_noop :
  forall mk mi r, r_shrinking r = true -> do_ev mk mi r Req = r.
Proof. exact request_is_noop. Qed.
Print Assumptions c09_request_is_noop.

(* The flag stays set during the whole schedule whatever requests arrive; after the epilogue of the
   rewrite the next request starts a fresh rewrite with an empty shrinklog. *)
Theorem c09_request_lifecycle :
  forall s0 mk mi sched,
    let r := run_sched mk mi sched (run_init s0) in
    r_shrinking r = true /\ request (end_rewrite r) = run_init (r_live r).
Proof. exact request_lifecycle. Qed.
Print Assumptions c09_request_lifecycle.

(* A rewrite started on any directory whose live file is the expected one ends with exactly
   snapshot ++ shrinklog as the live file and no other file, whatever -bak / -shrink files an
   interrupted rewrite left behind (os.Create truncates, the renames overwrite). *)
Theorem c09_rewrite_ignores_leftovers :
  forall d fi, d_live d = Some (f_live fi) ->
    rewrite_dir d fi = mkDir (Some (f_snap fi ++ f_slog fi)) None None.
Proof. exact rewrite_ignores_leftovers. Qed.
Print Assumptions c09_rewrite_ignores_leftovers.

Theorem c09_crash_points_leftovers :
  forall d fi c, d_live d = Some (f_live fi) ->
    same_data (replay (f_snap fi ++ f_slog fi) []) (replay (f_live fi ++ f_pend fi) []) ->
    let d' := recover_dir (crash_from d fi c) in
    same_data d' (replay (f_live fi) []) \/ same_data d' (replay (f_live fi ++ f_pend fi) []).
Proof. exact crash_points_leftovers. Qed.
Print Assumptions c09_crash_points_leftovers.

(* The repaired start-up changes the directory but not the dataset it recovers to. *)
Theorem c09_startup_keeps_data :
  forall fi c, recover_dir (startup_dir (crash_at fi c)) = recover_dir (crash_at fi c).
Proof. intros fi c. apply startup_keeps_data_gen. Qed.
Print Assumptions c09_startup_keeps_data.

(* A crashed rewrite, a restart, and a second rewrite: the result is the second new file alone. *)
Theorem c09_two_rewrites :
  forall fi1 c fi2, d_live (startup_dir (crash_at fi1 c)) = Some (f_live fi2) ->
    recover_dir (rewrite_dir (startup_dir (crash_at fi1 c)) fi2) = replay (f_snap fi2 ++ f_slog fi2) [].
Proof. intros fi1 c fi2 H. rewrite (rewrite_ignores_leftovers _ _ H). reflexivity. Qed.
Print Assumptions c09_two_rewrites.

(* The record the snapshot writes for an object recreates exactly that object (fields, deadline
   flag, payload) on a dataset that does not hold it. *)
Theorem c09_snapshot_record_exact :
  forall k i o s, wf s -> msorted (o_fields o) -> lookup k i s = None ->
    lookup k i (fst (exec s (rec_cmd k i o))) = Some o.
Proof. exact snapshot_record_exact. Qed.
Print Assumptions c09_snapshot_record_exact.

(* The shrinklog of a run (no RENAME) is idempotent on the states of that run: replaying the whole
   log on the dataset as it was after any prefix l1 of the log gives the final live dataset.  (The
   snapshot holds every object as it was at some such moment.) *)
Theorem c09_log_entries_idempotent :
  forall mk mi s0 sched l1 l2, wf s0 -> no_rename sched = true ->
    let r := run_sched mk mi sched (run_init s0) in
    r_log r = l1 ++ l2 ->
    same_data (replay (r_log r) (replay l1 s0)) (r_live r).
Proof. exact log_replay_idempotent. Qed.
Print Assumptions c09_log_entries_idempotent.

(* Per object: acts l k i is the effect of the command list l on the object (k,i) (act: SET keeps
   the old fields, FSET / EXPIRE / PERSIST only act on an existing object, DEL / PDEL / DROP /
   FLUSHDB reset); okl says every FSET / EXPIRE / PERSIST entry for (k,i) found the object when
   the list ran from x0 — true of a shrinklog, whose entries were all `Updated`. *)
Theorem c09_log_idempotent_object :
  forall k i l1 l2 x0, fsorted x0 -> okl (l1 ++ l2) k i x0 ->
    acts (l1 ++ l2) k i (acts l1 k i x0) = acts (l1 ++ l2) k i x0.
Proof. exact log_idempotent. Qed.
Print Assumptions c09_log_idempotent_object.

(* Hooks and channels, repaired loader (a record that fails with "hooks and channels cannot share
   the same name" is skipped like key-not-found): for ALL schedules of SETHOOK / SETCHAN / DELHOOK /
   DELCHAN / PDELHOOK / PDELCHAN / FLUSHDB between the sections of the hooks phase, names changing
   their kind included, the new file restores the registry. *)
Theorem c09_hooks_preserved :
  forall r0 sched, msorted r0 ->
    let r := hrun_sched sched (hrun_init r0) in
    hs_done (hr_sh r) = true -> forall n, get n (hreplay (hnewfile r) []) = get n (hr_live r).
Proof. exact hooks_preserved. Qed.
Print Assumptions c09_hooks_preserved.

(* The reason, per name: the hook shrinklog is idempotent on the states of its own run.  hacts is
   the exact per-name effect (errors ignored), okh what `logged` tells (a logged SET* found the name
   absent or of its kind, a logged DEL* found it with that kind). *)
Theorem c09_hook_log_idempotent :
  forall n l1 l2 x0, okh (l1 ++ l2) n x0 ->
    hacts (l1 ++ l2) n (hacts l1 n x0) = hacts (l1 ++ l2) n x0.
Proof. exact hlog_idempotent. Qed.
Print Assumptions c09_hook_log_idempotent.

(* Hooks and channels, pinned loader: when every name keeps its kind the new file loads and
   restores the registry. *)
Theorem c09_hooks_orig_partial :
  forall r0 sched kind, msorted r0 -> kind_consistent kind r0 sched = true ->
    let r := hrun_sched sched (hrun_init r0) in
    hs_done (hr_sh r) = true ->
    exists reg, hreplay_orig (hnewfile r) [] = Some reg /\ forall n, get n reg = get n (hr_live r).
Proof. exact hooks_orig_partial. Qed.
Print Assumptions c09_hooks_orig_partial.

(* Known finding: a name that changes its kind during the rewrite (SETHOOK x; DELHOOK x; SETCHAN x
   logged before the hooks phase): the snapshot writes `setchan x`, the log then replays
   `sethook x` and the pinned loader refuses to start. *)
Theorem c09_hook_kind_switch_refuted :
  exists r0 sched, msorted r0 /\ hs_done (hr_sh (hrun_sched sched (hrun_init r0))) = true /\
    hreplay_orig (hnewfile (hrun_sched sched (hrun_init r0))) [] = None.
Proof. exact hook_kind_switch_refuted. Qed.
Print Assumptions c09_hook_kind_switch_refuted.

(* TTL digits (tenths of a second; times in nanoseconds).  Objects: rounded down, at least 0.1 s:
   a reloaded object never outlives its original deadline by rounding, except below 0.1 s. *)
Theorem c09_ttl_floor :
  forall ex now, (100000000 <= ex - now)%Z ->
    let t := (obj_ttl_tenths ex now * 100000000)%Z in (t <= ex - now < t + 100000000)%Z.
Proof. exact ttl_floor. Qed.
Print Assumptions c09_ttl_floor.

Theorem c09_ttl_minimum :
  forall ex now, (ex - now < 100000000)%Z -> obj_ttl_tenths ex now = 1%Z.
Proof. exact ttl_minimum. Qed.
Print Assumptions c09_ttl_minimum.

(* Hooks: rounded to the nearest tenth (half up), no lower bound. *)
Theorem c09_hook_ttl_round :
  forall ex now,
    let t := (hook_ttl_tenths ex now * 100000000)%Z in (t - 50000000 <= ex - now < t + 50000000)%Z.
Proof. exact hook_ttl_round. Qed.
Print Assumptions c09_hook_ttl_round.

(* File names: the three files live under <name>, <name>-bak, <name>-shrink for the configured log
   name.  The repaired start-up (restore under the configured name, open the configured name) is
   the directory-level recover_dir, for every name and whatever unrelated files are around. *)
Theorem c09_recover_fs_is_recover_dir :
  forall n d rest, msorted rest -> recover_fs n n (to_fs n d rest) = recover_dir d.
Proof. exact recover_fs_is_recover_dir. Qed.
Print Assumptions c09_recover_fs_is_recover_dir.

(* Hence every crash point is recovered under EVERY configured log name. *)
Theorem c09_crash_points_named :
  forall n rest fi c, msorted rest ->
    same_data (replay (f_snap fi ++ f_slog fi) []) (replay (f_live fi ++ f_pend fi) []) ->
    let s := recover_fs n n (to_fs n (crash_at fi c) rest) in
    same_data s (replay (f_live fi) []) \/ same_data s (replay (f_live fi ++ f_pend fi) []).
Proof. exact crash_points_named. Qed.
Print Assumptions c09_crash_points_named.

(* A restore that looks under another name than the one the server opens (e.g. the default name
   while --appendfilename is set) comes up empty after a crash between the two renames. *)
Theorem c09_restore_other_name_refuted :
  exists n0 n fi, n0 <> n /\
    same_data (replay (f_snap fi ++ f_slog fi) []) (replay (f_live fi ++ f_pend fi) []) /\
    (exists k i v, lookup k i (replay (f_live fi) []) = Some v) /\
    recover_fs n0 n (to_fs n (crash_at fi CP_after_rename_bak) []) = [].
Proof. exact restore_other_name_refuted. Qed.
Print Assumptions c09_restore_other_name_refuted.

(* ten collections, one with 40 objects (more than maxids = 32, and more keys than maxkeys = 8):
   the rewrite is over after 13 sections and wrote one record per object, in dataset order *)
Example c09_ex_quiescent :
  wfb ex_data = true /\ length ex_data = 10%nat /\ length (flatten ex_data) = 58%nat /\
  (maxkeys, maxids) = (8%nat, 32%nat) /\
  let r := run_sched maxkeys maxids (repeat Step 40) (run_init ex_data) in
  sh_done (r_sh r) = true /\
  sh_done (r_sh (run_sched maxkeys maxids (repeat Step 12) (run_init ex_data))) = false /\
  length (sh_out (r_sh r)) = length (flatten ex_data) /\
  sh_out (r_sh r) = map rec_of (flatten ex_data) /\
  replay (newfile r) [] = ex_data.
Proof. cbv zeta. repeat apply conj; vm_compute; reflexivity. Qed.

(* writers (no RENAME; SET with FIELD updates incl. a zero value, FSET, EXPIRE, PERSIST, DEL, PDEL,
   DROP, on objects behind, at and ahead of the cursor; 8 of the 26 are not `Updated`) between the sections: the hypotheses of c09_concurrent_partial hold, the
   shrinklog is not empty, the live dataset differs from the initial one, and (as the theorem says)
   the new file replays to it *)
Example c09_ex_concurrent :
  wfb ex_data = true /\ no_rename ex_sched = true /\
  let r := run_sched maxkeys maxids ex_sched (run_init ex_data) in
  sh_done (r_sh r) = true /\ length (r_log r) = 18%nat /\
  length (filter (fun e => match e with W _ => true | _ => false end) ex_sched) = 26%nat /\
  lookup [98] [48; 48] ex_data = Some (mkObj [120] [([97], [49]); ([98], [50]); ([99], [51])] false) /\
  lookup [98] [48; 48] (r_live r) = Some (mkObj [122] [([97], [49]); ([99], [51]); ([122], [57])] false) /\
  lookup [97] [48; 49] ex_data = Some (mkObj [120] [([102], [55])] true) /\
  lookup [97] [48; 49] (r_live r) = Some (mkObj [120] [([102], [56]); ([103], [49])] false) /\
  lookup [100] [51; 57] (r_live r) = Some (mkObj [120] [([98], [50]); ([99], [57])] false) /\
  lookup [100] [48; 53] (r_live r) = None /\ lookup [100] [50; 53] (r_live r) = None /\
  lookup [101] [48; 48] (r_live r) = None /\
  replay (newfile r) [] = r_live r.
Proof. cbv zeta. repeat apply conj; vm_compute; reflexivity. Qed.

Example c09_ex_concurrent_flushdb :
  no_rename ex_sched_flush = true /\
  let r := run_sched maxkeys maxids ex_sched_flush (run_init ex_data) in
  sh_done (r_sh r) = true /\ length (r_log r) = 5%nat /\ sh_out (r_sh r) <> [] /\
  length (flatten (r_live r)) = 2%nat /\
  replay (newfile r) [] = r_live r.
Proof. cbv zeta. repeat apply conj; vm_compute; try reflexivity; discriminate. Qed.

(* the hypothesis of the crash theorems, with a live file that is not its own snapshot and an
   unflushed command: the two allowed outcomes are different datasets *)
Example c09_ex_crash_hyp :
  same_data (replay (f_snap ex_final ++ f_slog ex_final) []) (replay (f_live ex_final ++ f_pend ex_final) []) /\
  f_snap ex_final <> f_live ex_final /\
  lookup [98] [48; 49] (replay (f_live ex_final) []) = None /\
  lookup [98] [48; 49] (replay (f_live ex_final ++ f_pend ex_final) []) = Some (mkObj [122] [] false) /\
  recover_dir (crash_at ex_final CP_after_rename_bak) = replay (f_live ex_final ++ f_pend ex_final) [] /\
  recover_dir_orig (crash_at ex_final CP_after_rename_bak) = [].
Proof.
  split; [intros k i; vm_compute; reflexivity|].
  split; [discriminate|]. repeat apply conj; vm_compute; reflexivity.
Qed.

(* the schedule of c09_ex_concurrent with thirteen AOFSHRINK requests inserted (at the start, right
   after each of the first writers, twice in a row, at the very end): same shrinklog
   length, same result *)
Example c09_ex_requests :
  no_rename ex_sched_req = true /\
  length (filter (fun e => match e with Req => true | _ => false end) ex_sched_req) = 13%nat /\
  let r := run_sched maxkeys maxids ex_sched_req (run_init ex_data) in
  let r0 := run_sched maxkeys maxids ex_sched (run_init ex_data) in
  sh_done (r_sh r) = true /\ r_shrinking r = true /\ length (r_log r) = 18%nat /\ r = r0 /\
  replay (newfile r) [] = r_live r.
Proof. cbv zeta. repeat apply conj; vm_compute; reflexivity. Qed.

(* ex_final dies at CP_after_sync and leaves a two-record -shrink file; after the start-up a second
   rewrite whose snapshot has ONE record ends with exactly snapshot ++ shrinklog *)
Example c09_ex_leftovers :
  let d := crash_at ex_final CP_after_sync in
  d_shrink d = Some (f_snap ex_final ++ f_slog ex_final) /\
  length (f_snap ex_final ++ f_slog ex_final) = 2%nat /\
  let d1 := startup_dir d in
  d_shrink d1 = d_shrink d /\ d_live d1 = Some (f_live ex_final2) /\
  length (f_snap ex_final2 ++ f_slog ex_final2) = 1%nat /\
  replay (f_snap ex_final2 ++ f_slog ex_final2) [] = replay (f_live ex_final2 ++ f_pend ex_final2) [] /\
  replay (f_live ex_final2) [] <> replay (f_live ex_final2 ++ f_pend ex_final2) [] /\
  rewrite_dir d1 ex_final2 = mkDir (Some (f_snap ex_final2 ++ f_slog ex_final2)) None None /\
  recover_dir (rewrite_dir d1 ex_final2) = replay (f_live ex_final2 ++ f_pend ex_final2) [].
Proof. cbv zeta. repeat apply conj; vm_compute; try reflexivity; discriminate. Qed.

(* hooks phase: SETHOOK / DELCHAN / DELCHAN of a hook (wrong kind: not updated) / SETHOOK with expiration
   / PDELCHAN / SETCHAN between the sections; every name keeps its kind; both loaders restore the
   registry, which differs from the initial one *)
Example c09_ex_hooks :
  sortedb (keys ex_hooks) = true /\ kind_consistent ex_hkind ex_hooks ex_hsched = true /\
  let r := hrun_sched ex_hsched (hrun_init ex_hooks) in
  hs_done (hr_sh r) = true /\ length (hr_log r) = 5%nat /\ length (hs_out (hr_sh r)) = 3%nat /\
  length (hr_live r) = 4%nat /\ get [98] (hr_live r) = None /\ get [98] ex_hooks <> None /\
  get [97] (hr_live r) = Some (mkHook false [57] true) /\
  hreplay_orig (hnewfile r) [] = Some (hr_live r) /\ hreplay (hnewfile r) [] = hr_live r.
Proof. cbv zeta. repeat apply conj; vm_compute; try reflexivity; discriminate. Qed.

(* the kind-switch schedule: the pinned loader fails, the repaired one restores the registry *)
Example c09_ex_hook_kind_switch :
  let r := hrun_sched hsched_switch (hrun_init []) in
  hs_done (hr_sh r) = true /\ hr_live r = [([120], chanB)] /\ length (hnewfile r) = 4%nat /\
  hreplay_orig (hnewfile r) [] = None /\ hreplay (hnewfile r) [] = hr_live r.
Proof. cbv zeta. repeat apply conj; vm_compute; reflexivity. Qed.

(* a five-byte log name "x.aof" next to an unrelated file: the crash between the two renames is
   recovered from x.aof-bak; looking under another name finds nothing *)
Example c09_ex_named :
  msorted ex_rest /\ length ex_name = 5%nat /\
  let fs := to_fs ex_name (crash_at ex_final CP_after_rename_bak) ex_rest in
  length fs = 3%nat /\ get ex_name fs = None /\ get (bak_name ex_name) fs <> None /\
  recover_fs ex_name ex_name fs = replay (f_live ex_final ++ f_pend ex_final) [] /\
  recover_fs [97] ex_name fs = [] /\ replay (f_live ex_final ++ f_pend ex_final) [] <> [].
Proof.
  split; [repeat constructor|]. cbv zeta. repeat apply conj; vm_compute; try reflexivity; discriminate.
Qed.
