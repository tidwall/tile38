(* C09 — AOFSHRINK and the write buffer (continuation of Props/C09.v).
   Only property theorems, each closed by a lemma of Proofs/ShrinkBufProofs.v or by the lines that prove it here,
   and closed examples. *)
From Coq Require Import String.
From Coq Require Import List NArith ZArith Bool.
From T38 Require Import Base.Bytes Base.SMap Model.Shrink Model.ShrinkBuf Proofs.ShrinkProofs Proofs.ShrinkBufProofs.
Import ListNotations.

(* The statements of the final section of aofshrink(), as t38x reads them from the source on every
   run (Gen/ShrinkFinal.v), are the operations of the model in the model's order — flush s.aofbuf
   into the old file FIRST, then append the shrinklog, sync, close both, rename, rename, reopen,
   remove — every crash point sits after exactly cp_index operations, and there is no statement the
   model does not know. *)
Theorem c09_final_section_transcribed :
  final_ops_src = final_ops /\ final_marks_src = final_marks.
Proof. exact final_section_transcribed. Qed.
Print Assumptions c09_final_section_transcribed.

(* The swap, for every state the rewrite can be in when its scan is over (all schedules, RENAME
   included): afterwards the write buffer is empty and the open log is exactly snapshot ++ shrinklog;
   the epilogue has cleared flag and shrinklog. *)
Theorem c09_swap_log_exact :
  forall mk mi g b, r_shrinking (b_run b) = true -> sh_done (r_sh (b_run b)) = true -> b_reset b = false ->
    let b' := bstep mk mi final_ops g b BFinal in
    b_buf b' = [] /\ b_file b' = newfile (b_run b) /\ b_run b' = end_rewrite (b_run b) /\ b_reset b' = false.
Proof. intros mk mi g b Hs Hd Hr. cbv zeta. rewrite (swap_log_exact mk mi g b Hs Hd Hr). repeat split. Qed.
Print Assumptions c09_swap_log_exact.

(* The same for the operations read from the source: what a restart after the swap replays is
   snapshot ++ shrinklog and nothing else. *)
Theorem c09_swap_log_exact_src :
  forall mk mi b, r_shrinking (b_run b) = true -> sh_done (r_sh (b_run b)) = true -> b_reset b = false ->
    let b' := bstep mk mi final_ops_src final_guard_src b BFinal in
    blog b' = newfile (b_run b) /\ b_buf b' = [].
Proof.
  intros mk mi b Hs Hd Hr. cbv zeta. rewrite (proj1 final_section_transcribed), (swap_log_exact mk mi _ b Hs Hd Hr).
  split; [apply app_nil_r | reflexivity].
Qed.
Print Assumptions c09_swap_log_exact_src.

(* A follower that dropped its dataset to resync with its leader while the rewrite was running
   (followReset: nothing of it reaches the shrinklog): the final section gives up, whatever its
   operations are; the open log stays the one the resync is writing. *)
Theorem c09_reset_aborts :
  forall mk mi ops b, r_shrinking (b_run b) = true -> sh_done (r_sh (b_run b)) = true -> b_reset b = true ->
    let b' := bstep mk mi ops true b BFinal in
    b_file b' = b_file b /\ b_buf b' = b_buf b /\ b_run b' = end_rewrite (b_run b) /\ b_reset b' = false.
Proof. intros mk mi ops b Hs Hd Hr. cbv zeta. rewrite (reset_aborts mk mi ops b Hs Hd Hr). repeat split. Qed.
Print Assumptions c09_reset_aborts.

(* Buffer at the crash points: the directory is the one of c09_crash_points; past the first operation
   the buffer is empty; the file that is moved aside holds everything accepted before the swap, once. *)
Theorem c09_crash_buffer :
  forall fi c, fst (crash_atb fi c) = crash_at fi c /\
    (c <> CP_final_locked -> snd (crash_atb fi c) = []) /\
    d_bak (fst (crash_atb fi CP_after_rename_bak)) = Some (f_live fi ++ f_pend fi).
Proof.
  intros fi c. destruct fi as [lv pd sn sl].
  destruct c; unfold crash_atb, crash_at, dir_start; cbn; (split; [reflexivity | split; [congruence || reflexivity | reflexivity]]).
Qed.
Print Assumptions c09_crash_buffer.

(* Every schedule of writers (no RENAME: see c09_rename_refuted), rewrite steps, AOFSHRINK requests,
   flushes, follower start-overs (BReset) and final sections — any number of rewrites, commands buffered across the swap or not —
   keeps "open log ++ write buffer replays to the live dataset": a restart (after the clean
   shutdown's flush) recovers the live dataset, before, during and after a rewrite.  Partial: the
   alphabet of c09_concurrent_partial. *)
Theorem c09_log_tracks_live_partial :
  forall mk mi s0 f0 sched,
    wf s0 -> forallb nr_cmd f0 = true -> same_data (replay f0 []) s0 -> no_rename_b sched = true ->
    let b := brun mk mi final_ops true sched (binit s0 f0) in
    same_data (replay (blog b) []) (r_live (b_run b)).
Proof. exact log_tracks_live. Qed.
Print Assumptions c09_log_tracks_live_partial.

(* the same for the operations read from the source *)
Theorem c09_log_tracks_live_src_partial :
  forall mk mi s0 f0 sched,
    wf s0 -> forallb nr_cmd f0 = true -> same_data (replay f0 []) s0 -> no_rename_b sched = true ->
    let b := brun mk mi final_ops_src final_guard_src sched (binit s0 f0) in
    same_data (replay (blog b) []) (r_live (b_run b)).
Proof.
  intros mk mi s0 f0 sched. rewrite (proj1 final_section_transcribed), guard_transcribed. apply log_tracks_live.
Qed.
Print Assumptions c09_log_tracks_live_src_partial.

(* The final section without its flush: RENAME a c; SET a 1 y are accepted after the scan is over and
   are still buffered at the swap.  With the flush the log replays to the live dataset; without it
   the two commands follow snapshot ++ shrinklog in the new file, are replayed a second time, and
   c/1 comes back as y instead of x.  (The harness plays this schedule on the server first.) *)
Theorem c09_swap_without_flush_refuted :
  exists s0 f0 sched, wf s0 /\ replay f0 [] = s0 /\
    (let b := brun maxkeys maxids final_ops true sched (binit s0 f0) in
     replay (blog b) [] = r_live (b_run b)) /\
    (let b := brun maxkeys maxids final_ops_noflush true sched (binit s0 f0) in
     exists k i, lookup k i (replay (blog b) []) <> lookup k i (r_live (b_run b))).
Proof.
  exists s0_nf, f0_nf, sched_nf. split; [apply wfb_ok; vm_compute; reflexivity|]. split; [vm_compute; reflexivity|].
  split; [vm_compute; reflexivity|]. exists (b1 99), (b1 49). vm_compute. discriminate.
Qed.
Print Assumptions c09_swap_without_flush_refuted.

(* The final section without the guard: a server with its own data becomes a follower while its
   rewrite is parked before the final section (BReset, then the leader's SET b 1 y); with the guard
   the log replays to the live dataset, without it the stale snapshot is swapped in and a/1 is back. *)
Theorem c09_reset_without_guard_refuted :
  exists s0 f0 sched, wf s0 /\ replay f0 [] = s0 /\ no_rename_b sched = true /\
    (let b := brun maxkeys maxids final_ops true sched (binit s0 f0) in
     replay (blog b) [] = r_live (b_run b) /\ r_live (b_run b) <> []) /\
    (let b := brun maxkeys maxids final_ops false sched (binit s0 f0) in
     exists k i, lookup k i (replay (blog b) []) <> lookup k i (r_live (b_run b))).
Proof. exact reset_without_guard_refuted. Qed.
Print Assumptions c09_reset_without_guard_refuted.

(* ex_data loaded from its own log, the concurrent schedule ex_sched with a flush after every writer,
   two writers whose commands are in the buffer at the final section, a second complete rewrite: the
   hypotheses of c09_log_tracks_live_partial hold; the buffer holds two commands right before the
   first final section and none right after; the log is shorter after the first rewrite *)
Example c09_ex_buffer :
  wfb ex_data = true /\ forallb nr_cmd ex_f0 = true /\ replay ex_f0 [] = ex_data /\
  no_rename_b ex_bsched = true /\
  let pre := firstn (length ex_bsched - 44) ex_bsched in
  let b1 := brun maxkeys maxids final_ops true (firstn (length pre - 1) pre) (binit ex_data ex_f0) in
  let b2 := brun maxkeys maxids final_ops true pre (binit ex_data ex_f0) in
  let b3 := brun maxkeys maxids final_ops true ex_bsched (binit ex_data ex_f0) in
  length (b_buf b1) = 2%nat /\ r_shrinking (b_run b1) = true /\
  b_buf b2 = [] /\ r_shrinking (b_run b2) = false /\ b_file b2 = newfile (b_run b1) /\
  Nat.ltb (length (b_file b2)) (length (blog b1)) = true /\
  b_buf b3 = [] /\ r_shrinking (b_run b3) = false /\ replay (blog b3) [] = r_live (b_run b3) /\
  r_live (b_run b3) <> r_live (b_run b1).
Proof. cbv zeta. repeat apply conj; vm_compute; try reflexivity; discriminate. Qed.
