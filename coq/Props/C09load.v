(* C09 — what a restart makes of the rewritten log (continuation of Props/C09.v).
   Only property theorems, each closed by a lemma of Proofs/ShrinkLoadProofs.v or by the lines that prove it here,
   and closed examples. *)
From Coq Require Import String.
From Coq Require Import List NArith ZArith Bool.
From T38 Require Import Base.Bytes Base.SMap Model.Shrink Model.ShrinkLoad Proofs.ShrinkProofs Proofs.ShrinkLoadProofs.
Import ListNotations.

(* As t38x reads the source on every run (Gen/ShrinkFinal.v): the reserved-field-name checks of cmdSET
   and of cmdFSET — the only two call sites — both compare strings.TrimSpace(name), i.e. the name
   field.Make is going to store, with the reserved names; and Serve completes an interrupted
   AOFSHRINK swap BEFORE it decides whether the legacy "aof" file has to be migrated. *)
Theorem c09_load_checks_transcribed :
  set_txs_src = Some [TTrim] /\ fset_txs_src = Some [TTrim] /\
  check_sites_src = ["cmdFSET"; "cmdSET"]%string /\ startup_src = Some startup_ops.
Proof. exact load_checks_transcribed. Qed.
Print Assumptions c09_load_checks_transcribed.

(* Field names.  "Every record the rewrite emits is accepted by the loader and reproduces the object":
   f_set / f_fset are what SET's / FSET's check compares with the reserved names.  If SET looks at a
   stored name the way it looked at the name as sent (set_of_stored) and the way FSET looked at the
   name it accepted (fset_then_set: whatever FSET lets through, SET lets through on replay), then
   every accepted command keeps "all stored names are trimmed and accepted by SET" ... *)
Theorem c09_names_invariant :
  forall trim f_set f_fset,
    (forall n, f_set (trim n) = f_set n) -> (forall n, f_set (trim n) = f_fset n) ->
    (forall n, trim (trim n) = trim n) ->
  forall s c s' o, names_ok trim f_set s -> exec_n trim f_set f_fset s c = Some (s', o) -> names_ok trim f_set s'.
Proof. intros trim f_set f_fset Hs Hf. apply exec_n_names_ok; intros n; [rewrite Hs | rewrite Hf]; trivial. Qed.
Print Assumptions c09_names_invariant.

(* ... hence the snapshot of every dataset built by any sequence of commands (refused ones included)
   is accepted by the loader record by record, and loads to what the unchecked replay of the other
   C09 theorems gives: the reserved-name check can never stop the server from starting on a
   rewritten log. *)
Theorem c09_names_snapshot_loads :
  forall trim f_set f_fset,
    (forall n, f_set (trim n) = f_set n) -> (forall n, f_set (trim n) = f_fset n) ->
    (forall n, trim (trim n) = trim n) ->
  forall l s0, let s := run_n trim f_set f_fset l [] in
    replay_n trim f_set f_fset (map rec_of (flatten s)) s0 = Some (replay (map rec_of (flatten s)) s0).
Proof. intros trim f_set f_fset Hs Hf. apply reachable_snapshot_loads; intros n; [rewrite Hs | rewrite Hf]; trivial. Qed.
Print Assumptions c09_names_snapshot_loads.

(* the checks as they are written in the source satisfy the hypotheses, for every idempotent trim *)
Theorem c09_names_snapshot_loads_src :
  forall trim fs ff, (forall n, trim (trim n) = trim n) ->
    set_txs_src = Some fs -> fset_txs_src = Some ff ->
  forall l s0, let s := run_n trim (f_of trim fs) (f_of trim ff) l [] in
    replay_n trim (f_of trim fs) (f_of trim ff) (map rec_of (flatten s)) s0 = Some (replay (map rec_of (flatten s)) s0).
Proof.
  intros trim fs ff H Hs Hf. destruct load_checks_transcribed as [T1 [T2 _]]. rewrite T1 in Hs. rewrite T2 in Hf.
  inversion Hs; inversion Hf; subst. exact (snapshot_loads_trim trim H).
Qed.
Print Assumptions c09_names_snapshot_loads_src.

Theorem c09_names_snapshot_record_loads :
  forall trim f_set f_fset s k i o s', names_ok trim f_set s -> lookup k i s = Some o ->
    exec_n trim f_set f_fset s' (rec_cmd k i o) = Some (exec s' (rec_cmd k i o)).
Proof.
  intros trim f_set f_fset s k i o s' Hs Hl. destruct (lookup_some _ _ _ _ Hl) as [col [G1 G2]].
  apply exec_n_plain, rec_cmd_plain, (col_get trim f_set _ _ _ (names_get trim f_set _ _ _ Hs G1) G2).
Qed.
Print Assumptions c09_names_snapshot_record_loads.

(* The check on the name as sent (pinned tree): SET k id FIELD " z" 5 ... is accepted and stored as z;
   the snapshot record is refused: the server does not start.  The repaired check refuses the SET. *)
Theorem c09_names_check_as_sent_refuted :
  exists c s', exec_n trim_ws f_id f_id [] c = Some (s', Updated) /\
    (exists k i o, lookup k i s' = Some o) /\
    replay_n trim_ws f_id f_id (map rec_of (flatten s')) [] = None /\
    exec_n trim_ws trim_ws trim_ws [] c = None.
Proof.
  exists c_padded. eexists. split; [vm_compute; reflexivity|].
  split; [exists [107%N], [105%N; 100%N]; eexists; vm_compute; reflexivity|]. split; vm_compute; reflexivity.
Qed.
Print Assumptions c09_names_check_as_sent_refuted.

(* SET stricter than FSET (SET lower-cases the name before the check, FSET does not): the log
   SET k id ...; FSET k id LON 7 loads, its snapshot "set k id field LON 7 ..." does not; LON is a name
   FSET accepts and SET refuses. *)
Theorem c09_names_set_stricter_refuted :
  exists l, let s := run_n trim_ws f_set_lower trim_ws l [] in
    replay_n trim_ws f_set_lower trim_ws l [] = Some s /\
    (exists k i o, lookup k i s = Some o /\ o_fields o <> []) /\
    replay_n trim_ws f_set_lower trim_ws (map rec_of (flatten s)) [] = None /\
    (exists n, reserved (trim_ws n) = false /\ reserved (f_set_lower (trim_ws n)) = true).
Proof. exact names_set_stricter_refuted. Qed.
Print Assumptions c09_names_set_stricter_refuted.

(* Coordinates the GeoJSON text cannot carry.  The repaired snapshot writer (shrinkGeoArgs), with or
   without REQUIREVALID (rv): every point and rectangle POINT / BOUNDS can create (NaN, +Inf, -Inf,
   positions outside -180..180 / -90..90 included), and every other object the same server accepted
   through the GeoJSON reader (finite coordinates; valid ones under REQUIREVALID), is read back with
   the same type and coordinates.  Partial: other geometries with an infinite coordinate
   (c09_geo_other_nonfinite_refuted). *)
Theorem c09_geo_roundtrip_partial :
  forall rv g,
    match g with
    | GOther k cs => bytes_eqb k k_point = false /\ forallb finite cs = true /\ (rv = true -> forallb valid cs = true)
    | _ => True
    end ->
    option_map coords (dec rv (enc g)) = Some (coords g).
Proof. exact geo_roundtrip. Qed.
Print Assumptions c09_geo_roundtrip_partial.

(* pinned writer: POINT 1 inf comes back as POINT 1 NaN; BOUNDS 1 2 nan 4 is refused at load *)
Theorem c09_geo_orig_refuted :
  (exists g g', dec false (enc_orig g) = Some g' /\ coords g' <> coords g) /\
  (exists g, dec false (enc_orig g) = None).
Proof. exact geo_orig_refuted. Qed.
Print Assumptions c09_geo_orig_refuted.

(* the writer that only looks for non-finite coordinates, under REQUIREVALID: POINT 100 200 is accepted,
   written as a GeoJSON Point and refused at load (the server does not start); the repaired writer
   gives it back *)
Theorem c09_geo_requirevalid_refuted :
  exists g, dec true (enc_finite g) = None /\ option_map coords (dec false (enc_finite g)) = Some (coords g) /\
            option_map coords (dec true (enc g)) = Some (coords g).
Proof. exists (GPoint (Fin t100 false) (Fin t200 false)). repeat split; vm_compute; reflexivity. Qed.
Print Assumptions c09_geo_requirevalid_refuted.

(* open finding C09-object-overflow-coordinate: a LineString with an infinite coordinate *)
Theorem c09_geo_other_nonfinite_refuted :
  exists k cs, bytes_eqb k k_point = false /\ dec false (enc (GOther k cs)) = None.
Proof. exists k_line, [PInf; Fin t5 true; Fin t1 true; Fin t2 true]. split; vm_compute; reflexivity. Qed.
Print Assumptions c09_geo_other_nonfinite_refuted.

(* Start-up order.  With restore before migrate, every crash point of the final section is recovered
   whatever legacy file and other files the directory holds, under every log name (dflt = the name
   migrateAOF looks at, n = the configured name) ... *)
Theorem c09_crash_points_legacy :
  forall dflt legacy n rest fi c, msorted rest ->
    same_data (replay (f_snap fi ++ f_slog fi) []) (replay (f_live fi ++ f_pend fi) []) ->
    exists s, startup startup_ops dflt legacy n (to_fs n (crash_at fi c) rest) = Some s /\
      (same_data s (replay (f_live fi) []) \/ same_data s (replay (f_live fi ++ f_pend fi) [])).
Proof. exact crash_points_legacy. Qed.
Print Assumptions c09_crash_points_legacy.

(* ... also for the order read from the source *)
Theorem c09_crash_points_legacy_src :
  forall dflt legacy n rest fi c ops, startup_src = Some ops -> msorted rest ->
    same_data (replay (f_snap fi ++ f_slog fi) []) (replay (f_live fi ++ f_pend fi) []) ->
    exists s, startup ops dflt legacy n (to_fs n (crash_at fi c) rest) = Some s /\
      (same_data s (replay (f_live fi) []) \/ same_data s (replay (f_live fi ++ f_pend fi) [])).
Proof.
  intros dflt legacy n rest fi c ops Ho. rewrite (proj2 (proj2 (proj2 load_checks_transcribed))) in Ho.
  inversion Ho; subst. apply crash_points_legacy.
Qed.
Print Assumptions c09_crash_points_legacy_src.

(* migrate before restore: after a crash between the two renames the legacy file is migrated into
   the live name, the backup is ignored, and the server serves the legacy data *)
Theorem c09_startup_migrate_first_refuted :
  exists fi, crash_hyp fi /\
    startup startup_ops_orig n_dflt n_legacy n_dflt (to_fs n_dflt (crash_at fi CP_after_rename_bak) [(n_legacy, f_old)])
      = Some (replay f_old []) /\
    (exists k i, lookup k i (replay f_old []) <> lookup k i (replay (f_live fi) [])) /\
    startup startup_ops n_dflt n_legacy n_dflt (to_fs n_dflt (crash_at fi CP_after_rename_bak) [(n_legacy, f_old)])
      = Some (replay (f_live fi) []).
Proof.
  exists fi_small. split; [intros k i; reflexivity|]. split; [vm_compute; reflexivity|].
  split; [|vm_compute; reflexivity]. exists [111%N], [49%N]. vm_compute. discriminate.
Qed.
Print Assumptions c09_startup_migrate_first_refuted.

(* trim_ws on samples: idempotent; padded reserved names are refused, padded ordinary names are stored
   trimmed; a dataset built through such commands has names_ok-style snapshot records that load *)
Example c09_ex_names :
  forallb (fun n => bytes_eqb (trim_ws (trim_ws n)) (trim_ws n))
    [[32; 122]; [122; 9; 10]; [194; 160; 108; 97; 116; 194; 133]; [32; 32]; []; [97; 32; 98]; [194; 97]; [160; 194; 160]]%N = true /\
  exec_n trim_ws trim_ws trim_ws [] (CSet [107] [49] [([32; 122]%N, Some [53%N])] false [120]%N) = None /\
  exec_n trim_ws trim_ws trim_ws [] (CSet [107] [49] [([108; 97; 116; 9]%N, Some [53%N])] false [120]%N) = None /\
  let l := [CSet [107] [49] [([32; 115; 32]%N, Some [53%N]); ([90]%N, Some [54%N])] false [120]%N;
            CFset [107] [49] [([9; 108; 111; 110]%N, Some [55%N])];
            CFset [107] [49] [([32; 97; 32]%N, Some [56%N])]] in
  let s := run_n trim_ws trim_ws trim_ws l [] in
  lookup [107%N] [49%N] s = Some (mkObj [120%N] [([90%N], [54%N]); ([97%N], [56%N]); ([115%N], [53%N])] false) /\
  replay_n trim_ws trim_ws trim_ws (map rec_of (flatten s)) [] = Some s.
Proof. vm_compute. repeat split; reflexivity. Qed.

(* payloads: what the repaired writer emits and what comes back *)
Example c09_ex_geo :
  enc (GPoint (Fin t1 true) PInf) = PPoint [Fin t1 true; PInf] /\
  enc (GRect NInf NInf PInf PInf) = PBounds [NInf; NInf; PInf; PInf] /\
  enc (GPointZ (Fin t1 true) (Fin t2 true) NaN) = PPoint [Fin t1 true; Fin t2 true; NaN] /\
  enc (GPoint (Fin t100 false) (Fin t200 false)) = PPoint [Fin t100 false; Fin t200 false] /\
  enc (GPoint (Fin t1 true) (Fin t2 true)) = PObject k_point [JNum t2 true; JNum t1 true] /\
  dec true (enc (GRect (Fin t1 true) (Fin t2 true) (Fin t4 true) (Fin t5 true))) =
    Some (GOther k_polygon [Fin t2 true; Fin t1 true; Fin t5 true; Fin t1 true; Fin t5 true; Fin t4 true;
                            Fin t2 true; Fin t4 true; Fin t2 true; Fin t1 true]).
Proof. vm_compute. repeat split; reflexivity. Qed.
