(* C10 — Notifications and pub/sub: nothing lost, nothing duplicated, in write order.
   Only the property theorems; each is closed by a lemma of Proofs/Queues*.v or by the lines that prove it here. *)
From Coq Require Import List NArith ZArith Lia.
From T38 Require Import Model.Queues Proofs.QueuesHookProofs Proofs.QueuesFifoProofs.
Import ListNotations.

(* Webhooks.  For every interleaving of writes (each enqueuing any messages for any hooks) with the
   two halves of Hook.proc of every hook's manager, and every endpoint outcome list, as long as the
   history stays inside the 30 s retention: the messages generated for hook h by the writes, in
   write order, are exactly  delivered ++ being-sent ++ still-queued.  So what has been delivered
   is a prefix of what was generated: in order, nothing skipped, nothing twice.  The history may
   contain process restarts (queue.db survives, Server.qidx is read back from "hook:idx"); `quiet`
   restricts them to instants at which no manager is between its two transactions (what a manager
   has deleted and not yet sent or re-inserted when the process is killed is lost: stated limit). *)
Theorem c10_hook_order : forall evs h, in_retention evs -> quiet hq_init evs ->
  let q := qrun hq_init evs in
  enq_msgs h evs = map e_msg (q_delivered q h) ++ map e_msg (pending q h).
Proof. exact hook_order. Qed.
Print Assumptions c10_hook_order.

(* ... and once the endpoint answers again, the manager's next rounds deliver all of it. *)
Theorem c10_hook_eventually_all : forall evs h t1 t2 t3,
  in_retention (evs ++ [Mgr h t1 []; Mgr h t2 []; Mgr h t3 []]) -> quiet hq_init evs ->
  let q := qrun hq_init (evs ++ [Mgr h t1 []; Mgr h t2 []; Mgr h t3 []]) in
  map e_msg (q_delivered q h) = enq_msgs h evs /\ q_db q h = [] /\ taken_list q h = [].
Proof. exact hook_eventually_all. Qed.
Print Assumptions c10_hook_eventually_all.

(* Without any assumption on time: the keys of the delivered entries are strictly increasing
   (so: in queue order and never twice), whatever expires. *)
Theorem c10_hook_no_duplicate_in_order : forall evs h,
  incr (idxs (q_delivered (qrun hq_init evs) h)).
Proof. exact delivered_increasing. Qed.
Print Assumptions c10_hook_no_duplicate_in_order.

(* An entry owed to a hook leaves the queue only by being delivered or by one of the two TTL tests
   (expired when proc reads the queue; remaining TTL <= 0 when proc re-inserts after a failure). *)
Theorem c10_ttl_only_loss : forall q ev h e, HInv q ->
  (forall now, ev = Restart now -> q_taken q h = None) ->
  In e (pending q h) ->
  In e (pending (qstep q ev) h) \/ In e (q_delivered (qstep q ev) h) \/ (e_exat e <= qtime ev)%Z.
Proof.
  intros q ev h e H HR Hin. destruct (qstep_line q ev h H HR) as (news & L & _).
  destruct (lose_In _ _ _ e L) as [Hl|Hx]; [unfold line; auto using in_or_app | apply in_app_or in Hl; tauto | auto].
Qed.
Print Assumptions c10_ttl_only_loss.

(* (HInv is an invariant of every reachable queue state, so the hypothesis above is satisfiable
   and always satisfied.) *)
Theorem c10_hook_invariant : forall evs, HInv (qrun hq_init evs).
Proof. exact qrun_hinv. Qed.
Print Assumptions c10_hook_invariant.

(* The counter a restarted process reads back ("hook:idx" in queue.db) is the counter the dead process
   had in memory, after every enqueue: keys are never reused across a restart (c10_hook_order relies
   on it: with a lagging persisted counter the first batch after a restart would overwrite, or be
   overwritten by, the entries still queued from before). *)
Theorem c10_qidx_persisted : forall evs, q_pidx (qrun hq_init evs) = q_idx (qrun hq_init evs).
Proof. exact qidx_persisted. Qed.
Print Assumptions c10_qidx_persisted.

(* Pub/sub.  For publishes that do not overlap (geofence events are published under the write lock)
   interleaved arbitrarily with (un)subscriptions of any targets, the second phase of Publish and
   the subscriber goroutines: what target t has on its socket, in its msgs slice or in the pending
   snapshot is exactly, in order, one copy per matching subscription of every publish whose
   snapshot was taken while t was registered (registration precedes the subscribe reply). *)
Theorem c10_pubsub_fifo : forall pm evs t,
  serialised pm ps_init evs = true ->
  ps_view (prun pm ps_init evs) t = expected pm t (mkTsubs [] []) evs.
Proof. exact pubsub_fifo. Qed.
Print Assumptions c10_pubsub_fifo.

(* In particular the (un)subscriptions of other connections -- including UNSUBSCRIBE / PUNSUBSCRIBE of
   names the sender never subscribed to, which liveSubscription passes to unregister all the same --
   change nothing for t: a subscriber acknowledged before a publish, and that has not itself
   unsubscribed, receives it whatever the others do. *)
Theorem c10_pubsub_foreign_unsubscribe : forall pm evs t,
  serialised pm ps_init evs = true ->
  ps_view (prun pm ps_init evs) t = expected pm t (mkTsubs [] []) (own_history t evs).
Proof. intros pm evs t H. rewrite <- expected_own. apply pubsub_fifo. exact H. Qed.
Print Assumptions c10_pubsub_foreign_unsubscribe.

(* example: Y (target 0) is the only subscriber of channel 7; X (target 1) unsubscribes from 7 and from
   pattern 0 without ever having subscribed; the publish still reaches Y *)
Example c10_foreign_unsubscribe_example :
  let pm := fun p c : N => N.eqb (N.div c 100) p in
  let evs := [PReg false 7%N 0%nat; PReg true 0%N 2%nat; PUnreg false 7%N 1%nat; PUnreg true 0%N 1%nat;
              PSnap 7%N 42%N; PAppend; PAppend; PDrain 0%nat] in
  map pm_body (ps_out (prun pm ps_init evs) 0%nat) = [42%N].
Proof. vm_compute. reflexivity. Qed.

(* after the publish completes and the subscriber goroutine has run, everything expected is on the socket *)
Theorem c10_pubsub_drained : forall pm evs t,
  serialised pm ps_init evs = true -> ps_snap (prun pm ps_init evs) = [] ->
  ps_out (prun pm ps_init (evs ++ [PDrain t])) t = expected pm t (mkTsubs [] []) evs.
Proof.
  intros pm evs t H Hs. rewrite <- (pubsub_fifo pm evs t H). unfold ps_view. rewrite Hs. unfold prun.
  rewrite fold_left_app. cbn [fold_left pstep ps_out filter map]. rewrite updt_same, app_nil_r. reflexivity.
Qed.
Print Assumptions c10_pubsub_drained.

(* Live fences: lstack -> liveBuffer.details -> socket is a composition of FIFO stages; a live
   connection registered on key k receives every later write on k in write order, exactly once. *)
Theorem c10_live_fifo : forall pre evs b k,
  let s0 := lstep (lrun (mkLV [] [] (fun _ => []) (fun _ => [])) pre) (LReg b k) in
  untouched b pre = true -> untouched b evs = true ->
  lv_view (lrun s0 evs) b k = lv_view s0 b k ++ writes_on k evs.
Proof. exact live_fifo. Qed.
Print Assumptions c10_live_fifo.

(* non-vacuity: two writes, a failing endpoint in between, then recovery *)
Example c10_nonvacuous :
  let evs := [Enq 0 [(1, 10); (2, 20); (1, 11)]; Mgr 1 5 []; Enq 6 [(1, 12)]; Mgr 1 7 [true; false];
              Mgr 1 600 []; Mgr 1 601 []]%N%Z in
  in_retention evs /\ quiet hq_init evs /\ enq_msgs 1%N evs = [10; 11; 12]%N /\
  map e_msg (q_delivered (qrun hq_init evs) 1%N) = [10; 11; 12]%N /\
  map e_msg (q_delivered (qrun hq_init (firstn 4 evs)) 1%N) = [10]%N /\
  map e_msg (pending (qrun hq_init (firstn 4 evs)) 1%N) = [11; 12]%N.
Proof.
  cbv zeta. split; [|split].
  - unfold in_retention. repeat (apply Forall_cons; [cbn [qtime]; unfold hook_ttl; lia|]). apply Forall_nil.
  - cbn [quiet]. tauto.
  - vm_compute. auto.
Qed.

(* a restart while the endpoint is failing: the batch queued before it and the one queued after it both
   arrive, in order, once the endpoint recovers *)
Example c10_restart_while_failing :
  let evs := [Enq 0 [(1, 10); (1, 11)]; Mgr 1 1 []; Mgr 1 2 [false]; Restart 500; Enq 600 [(1, 12); (1, 13)];
              Mgr 1 700 []; Mgr 1 701 []]%N%Z in
  in_retention evs /\ quiet hq_init evs /\
  map e_msg (q_delivered (qrun hq_init evs) 1%N) = [10; 11; 12; 13]%N /\
  map e_idx (q_delivered (qrun hq_init evs) 1%N) = [1; 2; 3; 4]%N.
Proof.
  cbv zeta. split; [|split].
  - unfold in_retention. repeat (apply Forall_cons; [cbn [qtime]; unfold hook_ttl; lia|]). apply Forall_nil.
  - cbn [quiet]. repeat split. intros h. cbn. unfold updf. destruct (N.eqb h 1); reflexivity.
  - vm_compute. auto.
Qed.

(* TTL expiry really loses: the same history with the retry after 31 s delivers only the first *)
Example c10_ttl_loss_example :
  let evs := [Enq 0 [(1, 10); (1, 11)]; Mgr 1 5 []; Mgr 1 7 [true; false]; Mgr 1 31000 []; Mgr 1 31001 []]%N%Z in
  map e_msg (q_delivered (qrun hq_init evs) 1%N) = [10]%N /\ pending (qrun hq_init evs) 1%N = [].
Proof. vm_compute. auto. Qed.
