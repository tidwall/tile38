(* C10 (continued) — "a webhook endpoint that fails temporarily receives every message queued meanwhile after
   it recovers (within the 30 s retention)": the retention of a freshly queued message.

   Props/C10.v counts the 30 s from the start of the history (in_retention) and its model writes `now + 30 s`
   for a fresh entry.  In the code the 30 s are a field of ONE options record shared through a pointer
   (hookLogSetDefaults) that queueHooks reads at every write.  Here that record is part of the state
   (Model/HookRetention.v), the way Hook.proc's retry obtains its options is the one t38x reads from the
   source (Gen/HookRetention.v), and the statements are per message: 30 s from the instant IT was queued.
   Only the property theorems; each is closed by a lemma of Proofs/HookRetentionProofs.v or by the lines that
   prove it here. *)
From Coq Require Import String List NArith ZArith Lia.
From T38 Require Import Model.Queues Proofs.QueuesHookProofs Gen.HookRetention Model.HookRetention
  Proofs.HookRetentionProofs.
Import ListNotations.

(* With the retry path of the source: a message queued at time t for hook h is owed to h -- delivered, being
   sent or queued -- at every later instant before t + 30 s, whatever the history before the write was (any
   number of failed deliveries of any hook, outages of any length, restarts, expired entries) and whatever
   happens afterwards (restarts only at quiet instants: stated limit of C10.v).  With c10_hook_eventually_all:
   once the endpoint answers again before t + 30 s the message is delivered. *)
Theorem c10_queued_message_retained_30s : forall pre t msgs post h m,
  let s1 := rrun source_retry source_default (rq_init source_default) (pre ++ [Enq t msgs]) in
  let q := r_q (rrun source_retry source_default s1 post) in
  quiet (r_q s1) post ->
  Forall (fun ev => (qtime ev < t + hook_ttl)%Z) post ->
  In (h, m) msgs ->
  exists e, e_hook e = h /\ e_msg e = m /\ e_exat e = (t + hook_ttl)%Z /\
            (In e (q_delivered q h) \/ In e (pending q h)).
Proof. rewrite source_retry_own, source_default_30s. exact own_queued_retained. Qed.
Print Assumptions c10_queued_message_retained_30s.

(* The source has a shape the model covers (one shared options record, Expires = true; queueHooks stores with it;
   one re-insert in Hook.proc with TTL = ttls[i] - time.Since(start); no write to the record and no escape of
   the pointer outside Hook.proc); the record holds 30 s at every instant of every history; and the queue with
   the record as state is the queue of Model/Queues.v, so every theorem of C10.v speaks about it. *)
Theorem c10_retention_default_constant : forall evs,
  source_shape_ok = true /\
  r_def (rrun source_retry source_default (rq_init source_default) evs) = hook_ttl /\
  r_q (rrun source_retry source_default (rq_init source_default) evs) = qrun hq_init evs.
Proof.
  intros evs. rewrite source_retry_own, source_default_30s. split; [exact source_shape|].
  unfold rq_init. rewrite rrun_own. split; reflexivity.
Qed.
Print Assumptions c10_retention_default_constant.

(* No statement of internal/server writes to a package-level options record, through a field of it or through
   a local alias of the pointer, and the pointer is handed to nothing but the options argument of Tx.Set. *)
Theorem c10_nothing_writes_retention_default : setopts_writes = [].
Proof. vm_compute. reflexivity. Qed.
Print Assumptions c10_nothing_writes_retention_default.

(* Refuted for the retry path that takes the shared pointer and assigns the remaining TTL through it
   (`opts := hookLogSetDefaults; opts.TTL = ttl`): one failed delivery 29 s after a write leaves 1 s in the
   record; the next message gets 1 s instead of 30 s and is gone 1.5 s after it was queued. *)
Theorem c10_retry_through_shared_default_refuted : exists pre t msgs post h m,
  let s1 := rrun RetryThroughDefault hook_ttl (rq_init hook_ttl) (pre ++ [Enq t msgs]) in
  let q := r_q (rrun RetryThroughDefault hook_ttl s1 post) in
  quiet (r_q s1) post /\
  Forall (fun ev => (qtime ev < t + hook_ttl)%Z) post /\
  In (h, m) msgs /\
  ~ In m (map e_msg (q_delivered q h ++ pending q h)) /\
  r_def s1 = 1000%Z.
Proof. exact through_default_loses. Qed.
Print Assumptions c10_retry_through_shared_default_refuted.

(* non-vacuity: an outage with four failed deliveries, a message queued late in it, a second outage with
   messages queued before and in it; everything inside 30 s of the respective write; all four delivered in order, and
   each message had 30 s when it was queued *)
Example c10_retention_nonvacuous :
  let pre := [Enq 0 [(1, 10)]; Mgr 1 1 []; Mgr 1 2 [false]; Mgr 1 500 []; Mgr 1 501 [false];
              Mgr 1 1000 []; Mgr 1 1001 [false]; Mgr 1 1500 []; Mgr 1 1501 [false]]%N%Z in
  let post := [Mgr 1 2500 []; Mgr 1 2501 []; Enq 3000 [(1, 12)]; Mgr 1 3100 []; Mgr 1 3101 [false];
               Enq 3200 [(1, 13)]; Mgr 1 3600 []; Mgr 1 3601 []]%N%Z in
  let s1 := rrun source_retry source_default (rq_init source_default) (pre ++ [Enq 2000 [(1, 11)]%N]) in
  quiet (r_q s1) post /\
  map e_msg (q_delivered (r_q (rrun source_retry source_default s1 post)) 1%N) = [10; 11; 12; 13]%N /\
  map snd (fresh_ttls source_retry source_default (rq_init source_default) (pre ++ Enq 2000 [(1, 11)]%N :: post))
    = [30000; 30000; 30000; 30000]%Z /\
  map snd (fresh_ttls RetryThroughDefault hook_ttl (rq_init hook_ttl) (pre ++ Enq 2000 [(1, 11)]%N :: post))
    = [30000; 28499; 28499; 28398]%Z.
Proof. cbv zeta. split; [cbn [quiet]; tauto | vm_compute; auto]. Qed.
