(* C11 — Cursor pagination is complete and duplicate-free.
   Only the property theorems, each closed by a lemma of Proofs/CursorProofs.v or by the lines that prove
   it here.
   `src`  = the index order of the unchanging collection (any list),
   `test` = the query's filters, `stop` = the iterator's early exit (range end / radius). *)
From Coq Require Import List NArith ZArith Sorted.
From T38 Require Import Base.Bytes Model.Cursor Proofs.CursorProofs.
Import ListNotations.
Open Scope N_scope.

(* Re-issuing the query with the returned cursor until it is 0 terminates (the fuel
   length src + 1 suffices) and the pages, concatenated, are exactly the reply of one unlimited
   query: nothing skipped, nothing repeated, same order.  All sources, filters, early exits,
   all LIMIT >= 1. *)
Theorem c11_pages : forall (A : Type) (test stop : A -> bool) (src : list A) (limit : N),
  1 <= limit ->
  exists ps, pages test stop src limit = Pages ps /\ concat ps = unlimited test stop src.
Proof. exact @pages_complete. Qed.
Print Assumptions c11_pages.

(* LIMIT 0 / no LIMIT is the default of 100 items, so the hypothesis holds for every request *)
Theorem c11_effective_limit_positive : forall limit, 1 <= eff_limit limit.
Proof.
  intros limit. unfold eff_limit, limit_items. destruct (limit =? 0) eqn:E; [lia|]. apply N.eqb_neq in E. lia.
Qed.
Print Assumptions c11_effective_limit_positive.

(* no index entry is delivered twice *)
Theorem c11_no_duplicates : forall (A : Type) (test stop : A -> bool) (src : list A) (limit : N) ps,
  1 <= limit -> NoDup src -> pages test stop src limit = Pages ps -> NoDup (concat ps).
Proof.
  intros A test stop src limit ps Hl Hnd Hp. rewrite (pages_concat _ _ _ _ _ Hl Hp). exact (unlimited_nodup _ _ _ Hnd).
Qed.
Print Assumptions c11_no_duplicates.

(* a 0 cursor only when nothing remains (from any start cursor c) *)
Theorem c11_zero_cursor : forall (A : Type) (test stop : A -> bool) (src : list A) (c limit : N),
  1 <= limit -> snd (page test stop src c limit) = 0 ->
  fst (page test stop src c limit) = unlimited test stop (rest_at src c).
Proof. exact @zero_cursor. Qed.
Print Assumptions c11_zero_cursor.

(* a non-zero cursor c' is a position c < c' <= |src|, the page holds exactly LIMIT items, they
   are the accepted entries of positions [c, c'), and what remains is what the unlimited query
   returns from c' on *)
Theorem c11_nonzero_cursor : forall (A : Type) (test stop : A -> bool) (src : list A) (c limit : N),
  1 <= limit -> snd (page test stop src c limit) <> 0 ->
  let c' := snd (page test stop src c limit) in
  c < c' /\ c' <= N.of_nat (length src) /\
  N.of_nat (length (fst (page test stop src c limit))) = limit /\
  fst (page test stop src c limit) = filter test (firstn (N.to_nat (c' - c)) (rest_at src c)) /\
  unlimited test stop (rest_at src c) =
    fst (page test stop src c limit) ++ unlimited test stop (rest_at src c').
Proof. exact @nonzero_cursor. Qed.
Print Assumptions c11_nonzero_cursor.

(* instances.  SCAN, SEARCH, SEARCH with a value range (SearchValuesRange cuts the range before
   counting), WITHIN, INTERSECTS: iterators without an early exit after the count *)
Theorem c11_scan_search_within_intersects : forall (A : Type) (test : A -> bool) (src : list A) (limit : N),
  1 <= limit ->
  exists ps, pages test (fun _ => false) src limit = Pages ps /\ concat ps = filter test src.
Proof. intros A test src limit Hl. apply pages_when; [exact Hl | apply unlimited_no_stop]. Qed.
Print Assumptions c11_scan_search_within_intersects.

(* ASC / DESC: the DESC pages concatenate to the reverse of the ASC pages, for any two LIMITs *)
Theorem c11_asc_desc : forall test ids limit1 limit2 ps1 ps2,
  1 <= limit1 -> 1 <= limit2 ->
  pages test (fun _ => false) (scan_src false ids) limit1 = Pages ps1 ->
  pages test (fun _ => false) (scan_src true ids) limit2 = Pages ps2 ->
  concat ps2 = rev (concat ps1).
Proof.
  intros test ids limit1 limit2 ps1 ps2 H1 H2 P1 P2.
  rewrite (pages_concat _ _ _ _ _ H1 P1), (pages_concat _ _ _ _ _ H2 P2), !unlimited_no_stop. apply ListFacts.filter_rev.
Qed.
Print Assumptions c11_asc_desc.

(* range-limited SCAN (MATCH with a literal prefix -> ScanRange), both directions: the pages are
   exactly the accepted ids of the range, in scan order *)
Theorem c11_scan_range : forall test desc start end_ ids limit,
  asc_sorted ids -> 1 <= limit ->
  exists ps, pages test (scan_range_stop desc end_) (scan_range_src desc start ids) limit = Pages ps /\
             concat ps = filter test (scan_src desc (filter (in_range desc start end_) ids)).
Proof. exact scan_range_pages. Qed.
Print Assumptions c11_scan_range.

(* NEARBY with a radius over a distance-sorted order (C13 provides the sortedness): the pages are
   exactly the accepted entries within the radius *)
Theorem c11_nearby_radius : forall test max_dist order limit,
  StronglySorted (fun a b : bytes * Z => (snd a <= snd b)%Z) order -> 1 <= limit ->
  exists ps, pages test (nearby_stop max_dist) order limit = Pages ps /\
             concat ps = filter test (filter (fun e => negb (nearby_stop max_dist e)) order).
Proof.
  intros test max_dist order limit Hs Hl. apply pages_when; [exact Hl|]. unfold unlimited. f_equal. apply (until_stop_monotone _ _ _ Hs). unfold nearby_stop. intros x y Hxy Hx. lia.
Qed.
Print Assumptions c11_nearby_radius.

(* COUNT output goes through the same iteration but never touches numberItems / hitLimit: with the
   same cursor and LIMIT it answers the number of items the item outputs (IDS, OBJECTS, POINTS,
   BOUNDS, HASHES) put on that page.  The output kind takes no part in pagination. *)
Theorem c11_count_eq_items : forall (A : Type) (test stop : A -> bool) (src : list A) (c limit : N),
  1 <= limit ->
  count_query test stop src c limit = N.of_nat (length (fst (page test stop src c limit))).
Proof. exact @count_eq_items. Qed.
Print Assumptions c11_count_eq_items.

(* the COUNT shortcut of cmdScan / cmdSearch (no filter) capped by LIMIT — the repaired form of
   proposed_fixes/C12-count-shortcut-limit.diff — never changes the result *)
Theorem c11_count_shortcut_capped : forall (A : Type) (src : list A) (cursor limit : N),
  1 <= limit ->
  count_shortcut src cursor limit = count_query (fun _ => true) (fun _ => false) src cursor limit.
Proof. exact @count_shortcut_exact. Qed.
Print Assumptions c11_count_shortcut_capped.

(* the shortcut of the pinned tree ignores LIMIT: SCAN k LIMIT 2 COUNT on 6 objects answers 6, the
   counting iteration (any filter that accepts everything) and IDS give 2.  Property C12's "count
   shortcuts never change results"; recorded by the C11 harness as an observation. *)
Theorem c11_count_shortcut_unpatched_refuted :
  exists (src : list N) cursor limit, 1 <= limit /\
    count_shortcut_unpatched src cursor <> count_query (fun _ => true) (fun _ => false) src cursor limit.
Proof. exists [1; 2; 3; 4; 5; 6], 0, 2. split; [discriminate | vm_compute; discriminate]. Qed.
Print Assumptions c11_count_shortcut_unpatched_refuted.

(* non-vacuity: 7 entries, a filter that rejects two of them, an early exit at the 7th, LIMIT 2:
   three pages with cursors 2, 5 (limit hit on the last accepted entry) and 0 *)
Example c11_nonvacuous :
  let test := fun x : N => negb (x mod 3 =? 0) in
  let stop := fun x : N => 7 <=? x in
  pages test stop [1; 2; 3; 4; 5; 6; 7] 2 = Pages [[1; 2]; [4; 5]; []] /\
  page test stop [1; 2; 3; 4; 5; 6; 7] 0 2 = ([1; 2], 2) /\
  page test stop [1; 2; 3; 4; 5; 6; 7] 2 2 = ([4; 5], 5) /\
  page test stop [1; 2; 3; 4; 5; 6; 7] 5 2 = ([], 0) /\
  unlimited test stop [1; 2; 3; 4; 5; 6; 7] = [1; 2; 4; 5].
Proof. vm_compute. repeat split. Qed.

Example c11_range_nonvacuous :
  asc_sorted [[97]; [98]; [98; 1]; [99]] /\
  scan_range_page (fun _ => true) false [98] [99] [[97]; [98]; [98; 1]; [99]] 0 1 = ([[98]], 1) /\
  scan_range_page (fun _ => true) false [98] [99] [[97]; [98]; [98; 1]; [99]] 1 1 = ([[98; 1]], 2) /\
  scan_range_page (fun _ => true) false [98] [99] [[97]; [98]; [98; 1]; [99]] 2 1 = ([], 0).
Proof. split; [repeat constructor | vm_compute; repeat split]. Qed.
