(* C12 — Filters mean what they say; range and count shortcuts never change results.
   This file holds only the property theorems. *)
From T38 Require Import Base.Bytes Base.ListFacts Model.Glob Proofs.GlobProofs.
From T38 Require Import Model.Where Proofs.WhereProofs.

(* A name accepted by the matcher lies inside the range Parse hands to the range-limited
   iterations (KEYS, PDEL, HOOKS/CHANS, PDELHOOK/PDELCHAN, SCAN/SEARCH MATCH), in both directions. *)
Theorem c12_limits_sound : forall p d s,
  glob_match p s = WTrue -> prefix_ends_ff p = false ->
  unlimited (parse p d) = true \/ in_limits (parse p d) d s = true.
Proof. exact limits_sound. Qed.
Print Assumptions c12_limits_sound.

(* Hence iterating only that range over the sorted names and filtering with Match selects
   exactly the names that match: the shortcut never changes the result. *)
Theorem c12_range_scan_exact : forall p incl names,
  sorted names -> prefix_ends_ff p = false ->
  range_select p incl names = filter (matches p) names.
Proof. exact range_select_exact. Qed.
Print Assumptions c12_range_scan_exact.

(* Known finding C12-ff (open): the hypothesis prefix_ends_ff p = false cannot be dropped. *)
Theorem c12_limits_ff_refuted :
  exists p s d, glob_match p s = WTrue /\ unlimited (parse p d) = false /\ in_limits (parse p d) d s = false.
Proof. exists [97; 255; STAR], [97; 255; 1], false. vm_compute. auto. Qed.
Print Assumptions c12_limits_ff_refuted.

(* non-vacuity: a glob with a literal prefix, a matching name, a limited range *)
Example c12_nonvacuous :
  glob_match [104; 101; STAR; 111] [104; 101; 108; 108; 111] = WTrue /\
  prefix_ends_ff [104; 101; STAR; 111] = false /\
  unlimited (parse [104; 101; STAR; 111] false) = false.
Proof. vm_compute. auto. Qed.

(* The transcribed Value.Less is the documented order (vcompare: kinds Null < False < Number <
   String < True < JSON, numbers numeric, strings ASCII case-insensitive, the rest byte-wise). *)
Theorem c12_less_is_documented_order : forall a b,
  is_nan a = false -> is_nan b = false -> value_less a b = is_lt (vcompare a b).
Proof. intros a b _ _. apply value_less_spec. Qed.
Print Assumptions c12_less_is_documented_order.

(* WHERE field min max keeps exactly the values with  min <(=) v <(=) max, each bound exclusive
   iff it was written with "(" — for values and bounds of every kind (NaN apart). *)
Theorem c12_where_spec : forall w v,
  is_op (v_data (w_min w)) = false ->
  is_nan (w_min w) = false -> is_nan (w_max w) = false -> is_nan v = false ->
  match_field w v = in_interval (w_minx w) (w_min w) (w_maxx w) (w_max w) v.
Proof. intros w v Hop _ _ _. apply where_range_spec, Hop. Qed.
Print Assumptions c12_where_spec.

(* WHERE field OP operand is the plain comparison, for the six operators. *)
Theorem c12_where_ops_spec : forall w v,
  is_nan (w_max w) = false -> is_nan v = false ->
  (v_data (w_min w) = OP_LT -> match_field w v = is_lt (vcompare v (w_max w))) /\
  (v_data (w_min w) = OP_LE -> match_field w v = is_le (vcompare v (w_max w))) /\
  (v_data (w_min w) = OP_GT -> match_field w v = is_gt (vcompare v (w_max w))) /\
  (v_data (w_min w) = OP_GE -> match_field w v = is_ge (vcompare v (w_max w))) /\
  (v_data (w_min w) = OP_EQ -> match_field w v = is_eq (vcompare v (w_max w))) /\
  (v_data (w_min w) = OP_NE -> match_field w v = negb (is_eq (vcompare v (w_max w)))).
Proof. intros w v _ _. apply where_ops_spec. Qed.
Print Assumptions c12_where_ops_spec.

(* WHEREIN keeps exactly the values equal to a listed one. *)
Theorem c12_wherein_spec : forall vals v,
  wherein_match vals v = existsb (fun val => value_equals val v) vals.
Proof.
  intros vals v. induction vals as [|x vals IH]; cbn; [reflexivity|]. unfold mEQ.
  destruct (value_equals x v); [reflexivity | exact IH].
Qed.
Print Assumptions c12_wherein_spec.

(* The value order is a strict weak order: irreflexive, transitive, asymmetric, "neither is less"
   (Equals) is transitive through any non-NaN value, and any two values are ordered or Equal. *)
Theorem c12_less_strict_order :
  (forall a, value_less a a = false) /\
  (forall a b c, value_less a b = true -> value_less b c = true -> value_less a c = true) /\
  (forall a b, value_less a b = true -> value_less b a = false) /\
  (forall a b c, is_nan b = false ->
     value_equals a b = true -> value_equals b c = true -> value_equals a c = true) /\
  (forall a b, value_less a b = true \/ value_equals a b = true \/ value_less b a = true).
Proof.
  repeat split.
  - exact value_less_irrefl.
  - exact value_less_trans.
  - exact value_less_asym.
  - exact value_equals_trans.
  - exact value_trichotomy.
Qed.
Print Assumptions c12_less_strict_order.

(* The hypothesis is_nan b = false cannot be dropped (float64 NaN is unordered): 1 == NaN == 2. *)
Theorem c12_equals_nan_intransitive :
  exists a b c, value_equals a b = true /\ value_equals b c = true /\ value_equals a c = false.
Proof.
  exists {| v_kind := KNumber; v_data := [49]; v_num := Fin 1000 |},
         {| v_kind := KNumber; v_data := [78; 97; 78]; v_num := NaN |},
         {| v_kind := KNumber; v_data := [50]; v_num := Fin 2000 |}.
  vm_compute. auto.
Qed.
Print Assumptions c12_equals_nan_intransitive.

(* The lower-casing of the two WHERE bounds by the command parser does not change the interval
   for String / Number bounds and for bounds whose data is lower-case already.  Partial: it does
   change it for a JSON bound containing an upper-case letter (c12_where_json_bound_case). *)
Theorem c12_where_bound_lowercase_partial : forall minx lo maxx hi v,
  lower_safe lo -> lower_safe hi ->
  in_interval minx (lower_value lo) maxx (lower_value hi) v = in_interval minx lo maxx hi v.
Proof.
  intros minx lo maxx hi v Hlo Hhi. unfold in_interval. rewrite vcompare_lower_l, vcompare_lower_r; auto.
Qed.
Print Assumptions c12_where_bound_lowercase_partial.

(* ... and it does change the verdict for a JSON bound with an upper-case letter:
   WHERE f == {"A":1} does not keep the object whose f is {"A":1} *)
Theorem c12_where_json_bound_case :
  let j := {| v_kind := KJSON; v_data := [123; 34; 65; 34; 58; 49; 125]; v_num := Fin 0 |} in
  let op := {| v_kind := KString; v_data := OP_EQ; v_num := Fin 0 |} in
  match_field (where_make false op false j) j = false /\ value_equals j j = true.
Proof. vm_compute. auto. Qed.
Print Assumptions c12_where_json_bound_case.

(* An object is kept iff every WHERE and every WHEREIN accepts the value of its field, a missing
   field reading as ZeroValue (Number 0). *)
Theorem c12_field_match_spec : forall ws wis fs,
  field_match ws wis fs =
  forallb (fun nw => match_field (snd nw) (get_field fs (fst nw))) ws &&
  forallb (fun nv => wherein_match (snd nv) (get_field fs (fst nv))) wis.
Proof. exact field_match_spec. Qed.
Print Assumptions c12_field_match_spec.

Theorem c12_missing_field_reads_zero : forall fs name,
  (forall n v, In (n, v) fs -> n <> name) -> get_field fs name = ZeroValue.
Proof. exact get_field_missing. Qed.
Print Assumptions c12_missing_field_reads_zero.

(* COUNT = number of IDS, in both directions, and DESC only reverses. *)
Theorem c12_count_is_ids : forall desc objs ws wis,
  scan_count desc objs ws wis = length (scan_ids desc objs ws wis).
Proof. intros desc objs ws wis. unfold scan_count, scan_ids. rewrite map_length. reflexivity. Qed.
Print Assumptions c12_count_is_ids.

Theorem c12_desc_only_reverses : forall objs ws wis,
  scan_ids true objs ws wis = rev (scan_ids false objs ws wis).
Proof. intros objs ws wis. unfold scan_ids. rewrite filter_rev, map_rev. reflexivity. Qed.
Print Assumptions c12_desc_only_reverses.

(* non-vacuity: 5 is outside [1,(5 and inside [1,5]; a missing field is outside [0,(0;
   "aB" == "Ab"; false < 0 < "a" < true < {} *)
Example c12_where_nonvacuous :
  let n z := {| v_kind := KNumber; v_data := []; v_num := Fin z |} in
  let s d := {| v_kind := KString; v_data := d; v_num := Fin 0 |} in
  let k kd d := {| v_kind := kd; v_data := d; v_num := Fin 0 |} in
  match_field (where_make false (n 1000%Z) true (n 5000%Z)) (n 5000%Z) = false /\
  match_field (where_make false (n 1000%Z) false (n 5000%Z)) (n 5000%Z) = true /\
  match_field (where_make false (n 0%Z) true (n 0%Z)) (get_field [] [102]) = false /\
  is_op (v_data (n 1000%Z)) = false /\
  value_equals (s [97; 66]) (s [65; 98]) = true /\
  value_less (k KFalse [102]) (n 0%Z) = true /\ value_less (n 0%Z) (s [97]) = true /\
  value_less (s [97]) (k KTrue [116]) = true /\ value_less (k KTrue [116]) (k KJSON [123; 125]) = true.
Proof. vm_compute. repeat split. Qed.

(* WHERE "<expr>": the expression form of the field filter (Model/WhereExpr.v transcribes
   github.com/tidwall/expr's Eval with tile38's extender, Model/WhereExprTree.v is the tree a
   filter is meant to be, Model/WhereExprScan.v the expression arm of fieldMatch). *)
From T38 Require Import Model.Float32 Model.WhereExpr Model.WhereExprF64 Model.WhereExprScan Model.WhereExprTree.
From T38 Require Import Proofs.WhereExprSafe Proofs.WhereExprSem Proofs.WhereExprProps.

(* The evaluator never panics and always terminates: on every byte string, for every object and
   every behaviour of the opaque libraries, expr.Eval (and matchExpr on top of it) returns a value
   or an error; none of the index / slice expressions of the Go code can go out of range and none
   of the fuelled loops of the model runs dry.  detectExprToken never panics either. *)
Theorem c12_expr_never_panics_terminates :
  forall (F : Type) (O : oracle F) (obj : eobj F) (e : bytes),
    (eval F O obj e <> Panic /\ eval F O obj e <> NoFuel) /\
    (match_expr F O obj e <> Panic /\ match_expr F O obj e <> NoFuel).
Proof. exact (fun F O obj e => conj (eval_safe F O obj e) (match_expr_safe F O obj e)). Qed.
Print Assumptions c12_expr_never_panics_terminates.

Theorem c12_expr_detect_token_total : forall vs, exists b, detect_expr_token vs = Ok b.
Proof.
  intros vs. unfold detect_expr_token.
  repeat match goal with | |- exists b, Ok _ = Ok b => eexists; reflexivity | |- exists b, match ?x with _ => _ end = Ok b => destruct x end.
Qed.
Print Assumptions c12_expr_detect_token_total.

(* readGroup (the bracket / quote skipper every level relies on) returns a prefix of its input of
   at least two bytes, or an error. *)
Theorem c12_expr_group_is_prefix : forall data g,
  read_group data = Ok g -> (2 <= length g)%nat /\ exists r, data = g ++ r.
Proof.
  intros data g H. destruct data as [|c t]; [discriminate|].
  exact (yields_ok (read_group_y (c :: t) (Nat.lt_0_succ _)) H).
Qed.
Print Assumptions c12_expr_group_is_prefix.

(* Evaluating the printed text of a well-formed filter tree is the denotation of the tree: the
   string splitter finds exactly the structure the printer wrote (precedence levels, parentheses,
   quoted literals, the operators == != < <= > >= && || !), for every tree, object and oracle.
   This is the round trip of the (tree-less) parser: print, then evaluate = denote. *)
Theorem c12_expr_print_eval :
  forall (F : Type) (O : oracle F) (obj : eobj F) (e : bexpr),
    wf e = true -> eval F O obj (print e) = den F O obj e.
Proof. exact (fun F O obj => eval_print O obj). Qed.
Print Assumptions c12_expr_print_eval.

Theorem c12_expr_print_match :
  forall (F : Type) (O : oracle F) (obj : eobj F) (e : bexpr),
    wf e = true -> match_expr F O obj (print e) = den_match F O obj e.
Proof. exact (fun F O obj => match_print O obj). Qed.
Print Assumptions c12_expr_print_match.

(* && || ! are the Boolean connectives of the truth values of their operands whenever both
   operands evaluate to something that has one; evaluating both operands (there is no short
   circuit in the evaluator) gives what a short-circuiting reading gives; double negation,
   De Morgan and commutativity hold. *)
Theorem c12_expr_bool_semantics :
  forall (F : Type) (O : oracle F) (obj : eobj F) a b ba bb,
    holds O obj a ba -> holds O obj b bb ->
    den_match F O obj (BAnd a b) = Ok (sc_and ba bb) /\
    den_match F O obj (BOr a b) = Ok (sc_or ba bb) /\
    den_match F O obj (BNot a) = Ok (negb ba) /\
    den_match F O obj (BNot (BNot a)) = Ok ba /\
    den_match F O obj (BNot (BAnd a b)) = den_match F O obj (BOr (BNot a) (BNot b)) /\
    den_match F O obj (BNot (BOr a b)) = den_match F O obj (BAnd (BNot a) (BNot b)) /\
    den_match F O obj (BAnd a b) = den_match F O obj (BAnd b a) /\
    den_match F O obj (BOr a b) = den_match F O obj (BOr b a).
Proof. exact (fun F O obj => bool_semantics O obj). Qed.
Print Assumptions c12_expr_bool_semantics.

(* ... but an operand that fails rejects the object whatever the other operand says: with a
   short circuit, true || <error> would keep the object.  Witness (float64 instance): a string
   object with f = 5 and the filter (f > 1) || (type == "Point"). *)
Theorem c12_expr_or_short_circuit_refuted :
  exists (o : sobj) (e1 e2 : bexpr),
    wf (BOr e1 e2) = true /\
    den_match f64 f64_plain (f64_obj o) e1 = Ok true /\
    (exists x, den f64 f64_plain (f64_obj o) e2 = Err x) /\
    match_expr f64 f64_plain (f64_obj o) (print (BOr e1 e2)) = Ok false.
Proof.
  exists witness_str_obj, (BCmp CGt (AField s_f) (ANum 1)), (BCmp CEq (AField s_type) (AStr s_Point)).
  vm_compute. repeat split. exists EUndef. reflexivity.
Qed.
Print Assumptions c12_expr_or_short_circuit_refuted.

(* A scan filtered by WHERE clauses (expression and field clauses mixed) keeps exactly the objects
   every clause accepts, in iteration order; DESC only reverses; with one expression clause that
   is the printed text of a tree it keeps exactly the objects on which the tree holds. *)
Theorem c12_expr_scan_exact :
  forall (F : Type) (O : oracle F) mt desc objs cs (k : wclause -> sobj -> bool),
    (forall c o, In c cs -> In o objs -> clause_match F O mt c o = Ok (k c o)) ->
    scan_expr_ids F O mt desc objs cs =
      Ok (map so_id (filter (fun o => forallb (fun c => k c o) cs) (if desc then rev objs else objs))).
Proof. exact (fun F O mt => scan_expr_exact O mt). Qed.
Print Assumptions c12_expr_scan_exact.

Theorem c12_expr_scan_desc_reverses :
  forall (F : Type) (O : oracle F) mt objs cs ids,
    scan_expr_ids F O mt false objs cs = Ok ids ->
    (forall c o, In c cs -> In o objs -> exists b, clause_match F O mt c o = Ok b) ->
    scan_expr_ids F O mt true objs cs = Ok (rev ids).
Proof. intros F O mt objs cs ids H _. exact (scan_expr_desc O mt objs cs ids H). Qed.
Print Assumptions c12_expr_scan_desc_reverses.

Theorem c12_expr_scan_keeps_what_the_tree_says :
  forall (F : Type) (O : oracle F) mt desc objs e (keep : sobj -> bool),
    wf e = true ->
    (forall o, In o objs -> den_match F O (to_eobj F O (mt (so_id o)) o) e = Ok (keep o)) ->
    scan_expr_ids F O mt desc objs [WExpr (print e)] =
      Ok (map so_id (filter keep (if desc then rev objs else objs))).
Proof. exact (fun F O mt => scan_print_exact O mt). Qed.
Print Assumptions c12_expr_scan_keeps_what_the_tree_says.

(* WHERE f a b and WHERE "(f >= a) && (f <= b)" (with > / < for a bound written "(a") agree on
   every object whose field f is missing or a finite number, for integer bounds (negative ones
   written (-a) in the expression), under every oracle that compares stored numbers and integer
   literals as the numbers they are.  Partial: not for the other kinds of field values (next
   theorem); fractional bounds are outside the tree type. *)
Theorem c12_expr_range_agrees_partial :
  forall (F : Type) (O : oracle F) (o : sobj) mt f minx a maxx b,
    num_agree O -> wf_name f = true -> not_pseudo f ->
    (-1000000000000 < a < 1000000000000)%Z -> (-1000000000000 < b < 1000000000000)%Z ->
    numeric_field (so_fields o) f ->
    den_match F O (to_eobj F O mt o) (range_tree f minx a maxx b) =
      Ok (match_field (where_make minx (num_value (1000 * a)) maxx (num_value (1000 * b)))
            (get_field (so_fields o) f)).
Proof. intros F O o mt f minx a maxx b Hn Hwf Hp _ _. apply range_tree_agrees; assumption. Qed.
Print Assumptions c12_expr_range_agrees_partial.

(* Outside finite numbers the two forms differ: f = +Inf is inside WHERE f 5 +inf but fails
   WHERE "f >= 5" (the evaluator is handed the JSON string "+Inf"); t = true is outside
   WHERE t 0 10 but passes (t >= 0) && (t <= 10) (true counts as 1). *)
Theorem c12_expr_range_vs_expr_refuted :
  exists (o : sobj),
    match_field (where_make false (num_value 5000) false v_inf) (get_field (so_fields o) s_f) = true /\
    den_match f64 f64_plain (f64_obj o) (BCmp CGe (AField s_f) (ANum 5)) = Ok false /\
    match_expr f64 f64_plain (f64_obj o) (print (BCmp CGe (AField s_f) (ANum 5))) = Ok false /\
    match_field (where_make false (num_value 0) false (num_value 10000)) (get_field (so_fields o) s_t) = false /\
    den_match f64 f64_plain (f64_obj o) (range_tree s_t false 0 false 10) = Ok true.
Proof. exists witness_obj. vm_compute. repeat split. Qed.
Print Assumptions c12_expr_range_vs_expr_refuted.

(* Two spellings are not read the way they are meant (open findings C12-expr-ident-e-sign and
   C12-expr-sign-after-factor): an identifier ending in e / E directly followed by + or - is taken
   for scientific notation, and a sign directly after * / % is refused; both are syntax errors,
   the error is swallowed by matchExpr and no object is kept.   price-10 > 0   vs   price - 10 > 0,
   price*-1 < 3   vs   price * (-1) < 3   on an object with price = 25. *)
Theorem c12_expr_spelling_refuted :
  exists (o : sobj),
    eval f64 f64_plain (f64_obj o) txt_price_minus = Err ESyntax /\
    match_expr f64 f64_plain (f64_obj o) txt_price_minus = Ok false /\
    match_expr f64 f64_plain (f64_obj o) txt_price_minus_sp = Ok true /\
    eval f64 f64_plain (f64_obj o) txt_mul_neg = Err ESyntax /\
    match_expr f64 f64_plain (f64_obj o) txt_mul_neg = Ok false /\
    match_expr f64 f64_plain (f64_obj o) txt_mul_neg_par = Ok true.
Proof. exists witness_obj. vm_compute. repeat split. Qed.
Print Assumptions c12_expr_spelling_refuted.

(* non-vacuity: (price < 30) && (!(t == false)) is well formed, prints as expected and holds on
   the witness object; num_agree is satisfiable (exact arithmetic on thousandths). *)
Example c12_expr_nonvacuous :
  (wf sample_tree = true /\
   print sample_tree = [40; 112; 114; 105; 99; 101; 32; 60; 32; 51; 48; 41; 32; 38; 38; 32; 40; 33; 40; 116; 32; 61; 61; 32;
                        102; 97; 108; 115; 101; 41; 41]%N /\
   match_expr f64 f64_plain (f64_obj witness_obj) (print sample_tree) = Ok true /\
   den_match f64 f64_plain (f64_obj witness_obj) sample_tree = Ok true) /\
  num_agree toy_oracle.
Proof. split; [vm_compute; repeat split | exact toy_num_agree]. Qed.
