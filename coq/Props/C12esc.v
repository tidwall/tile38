(* C12 (continuation) — PDEL selects exactly the ids matching its pattern for EVERY
   pattern, escapes included; a filter means the same over every transport: a command sent as
   one text line (HTTP, native framing) reaches the command as the words between the blanks,
   also when a MATCH pattern opens with '['.
   Only property theorems, each closed by a lemma of Proofs/GlobSelEscProofs.v or by the lines that
   prove it here. *)
From T38 Require Import Base.Bytes Model.Glob Proofs.GlobProofs Model.Roam Proofs.RoamPatProofs.
From T38 Require Import Model.Resp Model.GlobSel Proofs.GlobSelProofs Model.GlobSelEsc Proofs.GlobSelEscProofs.
Import ListNotations.

(* cmdPDEL as written (Parse's range + Scan / ScanRange + Match on every visited id) deletes
   exactly the ids glob.Match accepts — no hypothesis on the shape of the pattern beyond the open
   finding C12-ff: escape-only patterns (CORP\\alice), escape + wildcard, anything. *)
Theorem c12_pdel_select_exact : forall pattern ids,
  bsorted ids -> prefix_ends_ff pattern = false ->
  pdel_select pattern ids = filter (gmatches pattern) ids.
Proof. exact pdel_select_exact. Qed.
Print Assumptions c12_pdel_select_exact.

(* A literal lookup (col.Get(pattern)) guarded by glob.IsGlob would be right only for patterns
   without an escape (C20's c20_isglob_false_shortcut_exact is the reason) ... *)
Theorem c12_pdel_plain_lookup_needs_no_escape : forall pattern ids,
  bsorted ids -> is_glob pattern = false -> glob_ok pattern -> ~ In BSL pattern ->
  pdel_select_plain pattern ids = filter (gmatches pattern) ids.
Proof.
  intros pattern ids Hs Hg Hok Hesc. unfold pdel_select_plain. rewrite Hg. cbn [negb]. symmetry. apply filter_singleton; [exact Hs|]. intros s. rewrite <- (roam_shortcut_exact pattern Hg Hok Hesc s). unfold gmatches. destruct (glob_match pattern s); split; congruence.
Qed.
Print Assumptions c12_pdel_plain_lookup_needs_no_escape.

(* ... and is refuted with one: IsGlob is false for a\b, glob.Match a\b accepts "ab" and rejects
   "a\b"; the lookup deletes "a\b" and leaves "ab" while cmdPDEL as written does the opposite. *)
Theorem c12_pdel_plain_lookup_refuted :
  exists pattern ids, bsorted ids /\ prefix_ends_ff pattern = false /\ is_glob pattern = false /\
    pdel_select pattern ids = filter (gmatches pattern) ids /\
    pdel_select_plain pattern ids <> filter (gmatches pattern) ids.
Proof.
  exists [97; 92; 98], [[97; 92; 98]; [97; 98]]. split; [repeat constructor|]. split; [reflexivity|].
  split; [reflexivity|]. split; [vm_compute; reflexivity|]. vm_compute. discriminate.
Qed.
Print Assumptions c12_pdel_plain_lookup_refuted.

(* readNativeMessageLine (Model/Resp.v native_tok): a line of plain words (non-empty, no blank
   inside, not opening with '{' or a double quote) arrives as exactly those words ... *)
Theorem c12_transport_words_split : forall ws,
  ws <> [] -> forallb plain_word ws = true -> transport_words (join_sp ws) = TOk ws.
Proof. intros ws _. apply transport_words_split. Qed.
Print Assumptions c12_transport_words_split.

(* ... in particular a pattern opening with a character class is split at the blank like any
   other word, wherever it stands in the command (SCAN fleet MATCH [ab]* IDS) *)
Theorem c12_bracket_pattern_split : forall pre w post,
  forallb plain_word pre = true -> ~ In 32%N w -> post <> [] -> forallb plain_word post = true ->
  transport_words (join_sp (pre ++ (LBR :: w) :: post)) = TOk (pre ++ (LBR :: w) :: post).
Proof.
  intros pre w post Hpre Hw _ Hpost. apply transport_words_split.
  rewrite forallb_app, Hpre. cbn [forallb andb]. rewrite (bracket_word_plain w Hw). exact Hpost.
Qed.
Print Assumptions c12_bracket_pattern_split.

(* the '{' exclusion cannot be dropped: a word opening with '{' runs to the end of the line (the
   documented JSON rule of the line protocols) — extending that rule to '[' would make
   c12_bracket_pattern_split false in the same way *)
Theorem c12_transport_brace_first_refuted :
  exists ws, ws <> [] /\ (forall w, In w ws -> w <> [] /\ ~ In 32%N w) /\ transport_words (join_sp ws) <> TOk ws.
Proof.
  exists [[115]; [123; 97]; [98]]%N. split; [discriminate|]. split; [|vm_compute; discriminate].
  intros w [<-|[<-|[<-|[]]]]; (split; [discriminate|]); intros H; cbn in H; intuition discriminate.
Qed.
Print Assumptions c12_transport_brace_first_refuted.

(* non-vacuity: SCAN fleet MATCH [ab]* IDS *)
Example c12_esc_nonvacuous :
  let ws := [[83;67;65;78]; [102;108;101;101;116]; [77;65;84;67;72]; [LBR;97;98;RBR;STAR]; [73;68;83]] in
  forallb plain_word ws = true /\ transport_words (join_sp ws) = TOk ws /\
  pdel_select [67;92;92;97] [[67;92;97]; [67;97]] = [[67;92;97]] /\
  pdel_select [67;92;97] [[67;92;97]; [67;97]] = [[67;97]].
Proof. vm_compute. repeat split. Qed.
