(* C13 — NEARBY returns nearest neighbours in distance order.
   Only the property theorems, each closed by a lemma of Proofs/KnnProofs.v or Proofs/KnnHeap.v, or
   proved where it stands.

   d  : the distance of an item (geodeticDistAlgo on the object's own rectangle; what DISTANCE prints)
   lb : the queue key of a node rectangle (the same formula on the node rectangle clamped to
        [-180,180] x [-90,90], scaled by 1 - 1e-7: geodeticDistAlgo's branch for item = false)
   Hypotheses (trusted, sampled by the harness through verifapi):
     root_ok d lb root  — Hlb: for every node entry (rect, subtree) of the R-tree and every item
                          under that subtree, lb rect <= d item  (R-tree containment invariant +
                          monotonicity of the geodesic point-to-rectangle bound, in floating point)
     forall i, 0 <= d i — distances are not negative (the root enters the queue with key 0)
     queue_ok qinv qpush qpop — the queue discipline, with an invariant qinv of its representation:
                          push adds the entry, pop returns an entry of minimal key and leaves the
                          others.  Proved for the list queue (c13_list_queue) and for the transcribed
                          binary heap of tidwall/rtree (c13_heap_queue, invariant heap_inv).
   No theorem depends on the order inside a group of equal keys: they hold for every such queue. *)
From Coq Require Import List NArith ZArith Sorted Permutation Lia.
From T38 Require Import Model.Cursor Model.Knn Proofs.CursorProofs Proofs.KnnProofs Proofs.KnnHeap.
Import ListNotations.

Theorem c13_list_queue : forall (I R : Type), @queue_ok I R (fun _ => True) list_push pop_min.
Proof. exact @list_queue_ok. Qed.
Print Assumptions c13_list_queue.

(* the library's binary min-heap as transcribed (sift_up / sift_down over a slice) is a correct
   min-queue on every queue it can reach *)
Theorem c13_heap_queue : forall (I R : Type), @queue_ok I R heap_inv heap_push heap_pop.
Proof. exact @heap_queue_ok. Qed.
Print Assumptions c13_heap_queue.

(* The traversal terminates within its fuel, emits every indexed item exactly once (a permutation
   of the items), reports for each its own distance, in non-decreasing order.  All trees. *)
Theorem c13_sorted : forall (I R : Type) (d : I -> Z) (lb : R -> Z) qinv qpush qpop,
  queue_ok qinv qpush qpop -> (forall i, (0 <= d i)%Z) ->
  forall root : option (@tree I R), root_ok d lb root ->
  exists l, knn d lb qpush qpop root = Done l /\
            Permutation (map fst l) (root_items root) /\
            emitted_ok d l /\ dist_sorted l.
Proof. exact @knn_sorted. Qed.
Print Assumptions c13_sorted.

(* the instance the server runs: the binary heap *)
Theorem c13_sorted_binary_heap : forall (I R : Type) (d : I -> Z) (lb : R -> Z),
  (forall i, (0 <= d i)%Z) ->
  forall root : option (@tree I R), root_ok d lb root ->
  exists l, knn d lb heap_push heap_pop root = Done l /\
            Permutation (map fst l) (root_items root) /\
            emitted_ok d l /\ dist_sorted l.
Proof. intros I R d lb. exact (knn_sorted d lb heap_inv heap_push heap_pop heap_queue_ok). Qed.
Print Assumptions c13_sorted_binary_heap.

(* One NEARBY request (Collection.Nearby's cursor skeleton + cmdNearby's radius cut + pushObject,
   run as the traversal's iterator) is the C11 page function over that order: every C11 theorem
   (complete duplicate-free pagination, exact LIMIT) applies to NEARBY with any filter. *)
Theorem c13_query_is_page : forall (I R : Type) (d : I -> Z) (lb : R -> Z) qpush qpop test
    (root : option (@tree I R)) max_dist cursor limit l,
  knn d lb qpush qpop root = Done l ->
  nearby_query d lb qpush qpop test root max_dist cursor limit =
  Done (page test (radius_stop max_dist) l cursor limit).
Proof. exact @nearby_query_page. Qed.
Print Assumptions c13_query_is_page.

(* LIMIT k, no radius (absent or 0), no filter: the reply is k items (all of them if fewer), in
   non-decreasing distance, and no item left out is closer than any item returned. *)
Theorem c13_k_closest : forall (I R : Type) (d : I -> Z) (lb : R -> Z),
  (forall i, (0 <= d i)%Z) ->
  forall qpush qpop qinv, queue_ok qinv qpush qpop ->
  forall (root : option (@tree I R)) k max_dist,
  root_ok d lb root -> (1 <= k)%N -> (max_dist <= 0)%Z ->
  exists l res c,
    knn d lb qpush qpop root = Done l /\
    nearby_query d lb qpush qpop (fun _ => true) root max_dist 0 k = Done (res, c) /\
    Permutation (map fst l) (root_items root) /\ emitted_ok d l /\
    res = firstn (N.to_nat k) l /\
    dist_sorted res /\
    (forall x y, In x res -> In y (skipn (N.to_nat k) l) -> (snd x <= snd y)%Z).
Proof. intros I R d lb Hnn qpush qpop qinv Hq. exact (k_closest d lb qinv qpush qpop Hq Hnn). Qed.
Print Assumptions c13_k_closest.

(* A positive radius r: the early stop at the first distance above r loses nothing — the reply is
   exactly the items with d <= r (as a set: a permutation of the filtered item list), in
   distance order; a single request with a LIMIT above the item count returns them with cursor 0. *)
Theorem c13_radius : forall (I R : Type) (d : I -> Z) (lb : R -> Z),
  (forall i, (0 <= d i)%Z) ->
  forall qpush qpop qinv, queue_ok qinv qpush qpop ->
  forall (root : option (@tree I R)) r limit,
  root_ok d lb root -> (0 < r)%Z ->
  exists l,
    knn d lb qpush qpop root = Done l /\
    unlimited (fun _ => true) (radius_stop r) l = filter (fun e => (snd e <=? r)%Z) l /\
    Permutation (map fst (unlimited (fun _ => true) (radius_stop r) l))
                (filter (fun i => (d i <=? r)%Z) (root_items root)) /\
    ((N.of_nat (length l) < limit)%N ->
     nearby_query d lb qpush qpop (fun _ => true) root r 0 limit =
     Done (filter (fun e => (snd e <=? r)%Z) l, 0%N)).
Proof. intros I R d lb Hnn qpush qpop qinv Hq. exact (radius_exact d lb qinv qpush qpop Hq Hnn). Qed.
Print Assumptions c13_radius.

(* non-vacuity: a two-level tree whose keys are lower bounds; items are their own distances *)
Definition ex_tree : @tree Z Z :=
  Node [(2%Z, Leaf [(0%Z, 5%Z); (0%Z, 2%Z); (0%Z, 9%Z)]);
        (1%Z, Node [(1%Z, Leaf [(0%Z, 1%Z); (0%Z, 7%Z)]); (3%Z, Leaf [(0%Z, 3%Z); (0%Z, 3%Z)])])].

Example c13_nonvacuous :
  root_ok (fun i : Z => i) (fun r : Z => r) (Some ex_tree) /\
  knn (fun i : Z => i) (fun r : Z => r) list_push pop_min (Some ex_tree) =
    Done [(1, 1); (2, 2); (3, 3); (3, 3); (5, 5); (7, 7); (9, 9)]%Z /\
  nearby_query (fun i : Z => i) (fun r : Z => r) list_push pop_min (fun _ => true) (Some ex_tree) 4 0 10 =
    Done ([(1, 1); (2, 2); (3, 3); (3, 3)]%Z, 0%N) /\
  nearby_query (fun i : Z => i) (fun r : Z => r) list_push pop_min (fun _ => true) (Some ex_tree) 0 2 3 =
    Done ([(3, 3); (3, 3); (5, 5)]%Z, 5%N).
Proof.
  split; [|vm_compute; repeat split].
  cbn [root_ok ex_tree].
  repeat (first [apply lb_leaf | apply lb_node | constructor | split
                | (cbn; intros i Hi; repeat (destruct Hi as [<-|Hi]; [lia|]); destruct Hi)]).
Qed.

(* the transcribed binary heap on the same tree: the same distance sequence (the two items at
   distance 3 may come in either order) *)
Example c13_heap_nonvacuous :
  knn (fun i : Z => i) (fun r : Z => r) heap_push heap_pop (Some ex_tree) =
    Done [(1, 1); (2, 2); (3, 3); (3, 3); (5, 5); (7, 7); (9, 9)]%Z.
Proof. vm_compute. reflexivity. Qed.

(* Finding C13-rounding-noise (repaired by proposed_fixes/C13-nearby-node-key-margin.diff): the
   hypothesis root_ok cannot be dropped, and before the repair the real key function violated it by
   floating-point rounding (two formulas for the same quantity): a node whose key is above the
   distance of an item under it lets an item of another node out first.  Witness in units of one
   float64 step at 5003771.699 m, as observed on the unrepaired server
   (corpus/C13/rounding-noise-order-65pts.txt): a node key above an item under it (6 over 4; the
   server's heap needs only a tie, the list queue's first-minimum pop needs one step more), other
   item at 5. *)
Theorem c13_order_without_hlb_refuted :
  exists (d lb : Z -> Z) (root : option (@tree Z Z)) l,
    (forall i, (0 <= d i)%Z) /\ knn d lb list_push pop_min root = Done l /\ ~ dist_sorted l.
Proof.
  exists (fun i => Z.abs i), (fun r => r),
         (Some (Node [(6%Z, Leaf [(0%Z, 4%Z)]); (5%Z, Leaf [(0%Z, 5%Z)])])), [(5, 5); (4, 4)]%Z.
  split; [intros i; lia|]. split; [vm_compute; reflexivity|].
  intros H. inversion H as [|? ? _ Hf]; subst. inversion Hf as [|? ? Hle _]; subst. cbn in Hle. lia.
Qed.
Print Assumptions c13_order_without_hlb_refuted.
