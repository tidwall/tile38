(* C13, continued — the theorems of Props/C13.v describe rtree.Nearby on ONE tree.  NEARBY runs
   while other connections, the expiry sweep, a follower's replication stream and scripts write to
   the same collection; Collection.Set / Delete rewrite R-tree nodes in place.  That the traversal
   nevertheless runs on one tree is an obligation of C13, discharged here over the tables t38x
   regenerates from /repo on every run (Gen/LockTable.v, Dispatch.v, ScriptTables.v, Mutators.v):

     every site that mutates a collection (Collection.Set / Delete, the collection map) is reached
     only under the EXCLUSIVE server lock; every traversal site (Collection.Nearby / Within /
     Intersects / Scan* / Search* / Get) only under at least the SHARED lock; and the lock is held
     from before the handler is entered until after it returned: where the lock of the caller is
     relied upon, neither the handler nor anything it calls contains a server lock call.

   `exact`s of lemmas of Proofs/KnnIsoProofs.v and evaluations of the tables (definitions: Model/KnnIso.v). *)
From Coq Require Import String List Bool ZArith Sorted Permutation.
From T38 Require Import Model.Tables Gen.LockTable Gen.Dispatch Gen.ScriptTables Gen.Mutators Model.Gate Model.KnnIso
  Proofs.KnnIsoProofs.
From T38 Require Import Model.Knn Proofs.KnnProofs Proofs.KnnHeap Model.Conc.
Import ListNotations.
Open Scope string_scope.

(* (a) every command string a connection can send *)
Theorem c13_traversal_isolated_cmds : forall c, cmd_isolated c = true.
Proof. exact cmd_isolated_all. Qed.
Print Assumptions c13_traversal_isolated_cmds.

(* ... site by site: a mutation of a collection under the exclusive lock, a traversal under at least
   the shared lock, for the whole handler *)
Theorem c13_sites_isolated : forall c h m,
  find_handler dispatch c = Some h -> In m (fn_effects (h_fn h)) ->
  let held := held_throughout (a_lock (arm_of lock_table c)) (h_fn h) in
  (is_index_mut m = true -> is_excl (ctx_max held (m_ctx m)) = true) /\
  (is_traversal m = true -> at_least_shared (ctx_max held (m_ctx m)) = true).
Proof. exact cmd_sites_isolated. Qed.
Print Assumptions c13_sites_isolated.

(* ... and by name: NEARBY, WITHIN, INTERSECTS, SCAN, SEARCH do traverse, run under the shared lock
   and contain no lock call; SET, FSET, DEL, PDEL, EXPIRE, PERSIST, JSET, JDEL, DROP, FLUSHDB,
   RENAME, RENAMENX do mutate, run under the exclusive lock and contain no lock call *)
Theorem c13_searches_shared_writes_exclusive :
  forallb (fun c => traverses c &&
                    match find_handler dispatch c with
                    | Some h => negb (fn_takes_lock (h_fn h)) | None => false end &&
                    at_least_shared (ctx_of_lock (a_lock (arm_of lock_table c)))) search_cmds = true /\
  forallb (fun c => mutates_index c &&
                    match find_handler dispatch c with
                    | Some h => negb (fn_takes_lock (h_fn h)) | None => false end &&
                    is_excl (ctx_of_lock (a_lock (arm_of lock_table c)))) object_write_cmds = true.
Proof. vm_compute. split; reflexivity. Qed.
Print Assumptions c13_searches_shared_writes_exclusive.

(* (b) every goroutine started anywhere in the package (expiry sweep, follower, AOF sync, shrink,
   live connections, hook managers ...), with nothing held when it starts *)
Theorem c13_traversal_isolated_goroutines : forallb entry_isolated go_entries = true.
Proof. vm_compute. reflexivity. Qed.
Print Assumptions c13_traversal_isolated_goroutines.

(* (c) every sub-command of every script variant, under the lock of the outer command (EVAL exclusive,
   EVALRO shared, EVALNA none) joined with the lock the variant's table takes around the call *)
Theorem c13_traversal_isolated_scripts :
  forall t outer, In (t, outer) script_variants_held -> forall c, script_cmd_isolated t outer c = true.
Proof. exact script_cmd_isolated_all. Qed.
Print Assumptions c13_traversal_isolated_scripts.

Theorem c13_script_run_isolated : forall t outer c e l w fn,
  In (t, outer) script_variants_held -> script_gate t c e = SRun l w fn ->
  handler_isolated (lock_max outer l) fn = true.
Proof. exact script_run_isolated. Qed.
Print Assumptions c13_script_run_isolated.

(* (d) what it buys.  Writers = sequences of single-object updates inside one exclusive section,
   NEARBYs = any number of visits of the tree inside one shared section, any number of threads, any
   schedule: every completed NEARBY visited ONE tree, the tree after a complete prefix of the log,
   and its reply is that tree's items, each once, with their own distances, in non-decreasing order
   (c13_sorted on that tree).  Hlb is assumed of the initial tree and preserved by every update
   (the R-tree's containment invariant, trusted and sampled as before). *)
Theorem c13_concurrent_nearby_one_tree :
  forall (I R : Type) (d : I -> Z) (lb : R -> Z) qinv qpush qpop,
  queue_ok qinv qpush qpop -> (forall i, (0 <= d i)%Z) ->
  forall (micro : Type) (apply : option (@tree I R) -> micro -> option (@tree I R)) (s0 : option (@tree I R)),
  root_ok d lb s0 -> (forall s m, root_ok d lb s -> root_ok d lb (apply s m)) ->
  forall prog sched,
  let g := Conc.run _ micro apply (Conc.init _ micro s0 prog) sched in
  forall seen, In seen (Conc.finished _ _ g) ->
  exists k, (k <= length (Conc.log _ _ g))%nat /\
    let t := seq_state _ micro apply s0 (firstn k (Conc.log _ _ g)) in
    (forall x, In x seen -> x = t) /\
    exists l, knn d lb qpush qpop t = Done l /\
              Permutation (map fst l) (root_items t) /\ emitted_ok d l /\ dist_sorted l.
Proof. exact concurrent_nearby_one_tree. Qed.
Print Assumptions c13_concurrent_nearby_one_tree.

(* the tables do contain what the statements range over *)
Example c13iso_tables_nonvacuous :
  mutates_index "persist" = true /\ mutates_index "set" = true /\ traverses "nearby" = true /\
  cmd_isolated "persist" = true /\ a_lock (arm_of lock_table "persist") = LExcl /\
  a_lock (arm_of lock_table "nearby") = LShared /\
  existsb is_index_mut (fn_effects "backgroundExpiring") = true /\ existsb is_index_mut (fn_effects "follow") = true.
Proof. vm_compute. repeat split. Qed.

(* the check is not trivially true: the same handler under the shared lock is rejected (this is the
   shape of a write command that fell out of the write list of handleInputCommand), so is a
   traversal with no lock at all *)
Example c13iso_check_discriminates :
  handler_isolated LShared "cmdPERSIST" = false /\ handler_isolated LShared "cmdSET" = false /\
  handler_isolated LNone "cmdNearby" = false /\ handler_isolated LShared "cmdNearby" = true.
Proof. vm_compute. repeat split. Qed.

(* (d) on a concrete run: a two-update writer (insert item 7, then item 3) interleaved with a NEARBY
   of three visits; the NEARBY is blocked until the writer is done and sees the complete tree *)
Definition ex_apply (s : option (@tree nat Z)) (m : nat) : option (@tree nat Z) :=
  match s with
  | None => Some (Leaf [(Z.of_nat m, m)])
  | Some (Leaf l) => Some (Leaf ((Z.of_nat m, m) :: l))
  | Some t => Some t
  end.

Example c13iso_concurrent_example :
  let prog := fun t => match t with 0 => [W nat [7; 3]] | 1 => [R nat 3] | _ => [] end in
  let g := Conc.run _ nat ex_apply (Conc.init _ nat None prog) [0; 1; 0; 1; 0; 0; 1; 1; 1; 1; 1] in
  Conc.finished _ _ g = [[Some (Leaf [(3%Z, 3); (7%Z, 7)]); Some (Leaf [(3%Z, 3); (7%Z, 7)]); Some (Leaf [(3%Z, 3); (7%Z, 7)])]] /\
  knn (fun i => Z.of_nat i) (fun r : Z => r) heap_push heap_pop (Some (Leaf [(3%Z, 3); (7%Z, 7)])) = Done [(3, 3%Z); (7, 7%Z)].
Proof. vm_compute. split; reflexivity. Qed.
