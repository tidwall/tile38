(* C14 — Expiration is never early, always eventual, and visible as a delete everywhere.
   The statements are about every sweep that runs; that a sweep runs every 100 ms (the ticker
   acquiring the low-priority lock) is scheduler fairness and is checked by the harness only. *)
From Coq Require Import ZArith List Bool String.
From T38 Require Import Base.Bytes Base.ListFacts Model.Expire Proofs.ExpireProofs.
From T38 Require Import Model.Tables Gen.Mutators Gen.LockTable Gen.Dispatch Model.Gate.
Import ListNotations.
Local Open Scope Z_scope.

(* after any history of SET [EX] / EXPIRE / PERSIST / DEL the expiry index holds exactly the objects
   with a deadline, each under its current deadline, sorted by (deadline, id) *)
Theorem c14_index_exact : forall ops, Wf (fold_left apply ops cnew).
Proof. exact wf_reachable. Qed.
Print Assumptions c14_index_exact.

(* never early: a sweep at time now keeps every object without deadline or with a future deadline *)
Theorem c14_never_early : forall now c id o, Wf c ->
  lookup id (objs c) = Some o -> (o_ex o = 0 \/ now < o_ex o) ->
  lookup id (objs (fst (sweep now c))) = Some o.
Proof. intros now c id o Hwf Ho Hfut. apply sweep_lookup; auto. Qed.
Print Assumptions c14_never_early.

(* complete, despite the early stop of the scan: after a sweep at now nothing expired is left *)
Theorem c14_sweep_complete : forall now c id o, Wf c ->
  lookup id (objs (fst (sweep now c))) = Some o -> o_ex o = 0 \/ now < o_ex o.
Proof. intros now c id o Hwf H. apply sweep_lookup in H as [_ H]; assumption. Qed.
Print Assumptions c14_sweep_complete.

(* each expiry is one logged DEL: the records are exactly the ids whose deadline passed, once each *)
Theorem c14_logged_as_del : forall now c, Wf c ->
  NoDup (snd (sweep now c)) /\
  forall id, In id (snd (sweep now c)) <-> exists o, lookup id (objs c) = Some o /\ o_ex o <> 0 /\ o_ex o <= now.
Proof. exact sweep_logged. Qed.
Print Assumptions c14_logged_as_del.

(* no stale timer: after any history, (over)writing an id leaves only its own deadline in force *)
Theorem c14_no_stale_timer : forall ops id v ex now,
  let c := apply (fold_left apply ops cnew) (OSet id v ex) in
  (ex = 0 \/ now < ex) -> lookup id (objs (fst (sweep now c))) = Some (mkObj v ex).
Proof.
  intros ops id v ex now c H. apply sweep_lookup; [apply wf_apply, wf_reachable|].
  split; [cbn; rewrite bytes_eqb_refl; reflexivity | exact H].
Qed.
Print Assumptions c14_no_stale_timer.

(* re-declaration moves the deadline: after any history, OSet id v ex2 following OSet id v ex1 (same
   payload, other deadline) leaves exactly one index entry for id, the one with ex2 — none if
   ex2 = 0 — and no repeated entries. This is the statement for objects AND, under the
   correspondence hook/channel name = id, definition = payload, hookExpires = expires,
   cmdSetHook = cset, backgroundExpireHooks = sweep, for hooks and channels (docs/notes/C14.md);
   the harness scenarios hook-stale-timer / hook-expired-early / hook-not-expired are the tie. *)
Theorem c14_redeclare_moves_deadline : forall ops id v ex1 ex2,
  let c := apply (apply (fold_left apply ops cnew) (OSet id v ex1)) (OSet id v ex2) in
  NoDup (expires c) /\
  lookup id (objs c) = Some (mkObj v ex2) /\
  forall e, snd e = id -> (In e (expires c) <-> ex2 <> 0 /\ e = (ex2, id)).
Proof.
  intros ops id v ex1 ex2 c. assert (Hwf : Wf c) by apply wf_apply, wf_apply, wf_reachable.
  assert (Hl : lookup id (objs c) = Some (mkObj v ex2)) by (cbn; rewrite bytes_eqb_refl; reflexivity).
  exact (conj (sorted_NoDup _ (proj1 Hwf)) (conj Hl (own_entry_only c id _ Hwf Hl))).
Qed.
Print Assumptions c14_redeclare_moves_deadline.

Theorem c14_persist : forall ops id p now,
  let c0 := fold_left apply ops cnew in
  lookup id (objs c0) = Some p ->
  lookup id (objs (fst (sweep now (apply c0 (OPersist id))))) = Some (mkObj (o_val p) 0).
Proof.
  intros ops id p now c0 Hl. apply sweep_lookup; [apply wf_apply, wf_reachable|].
  split; [cbn; rewrite Hl; cbn; rewrite bytes_eqb_refl; reflexivity | left; reflexivity].
Qed.
Print Assumptions c14_persist.

Theorem c14_sweep_keeps_wf : forall now c, Wf c -> Wf (fst (sweep now c)).
Proof. intros now c H. unfold sweep; cbn [fst]. apply fold_left_inv; [intros c1 e _; apply wf_cdel | exact H]. Qed.
Print Assumptions c14_sweep_keeps_wf.

(* TTL reports the remaining time of the object's own deadline, -1 without one *)
Theorem c14_ttl_reply : forall now c id o, lookup id (objs c) = Some o ->
  ttl now c id = Some (if o_ex o =? 0 then -1 else o_ex o - now).
Proof. intros now c id o H. unfold ttl. rewrite H. reflexivity. Qed.
Print Assumptions c14_ttl_reply.

Open Scope string_scope.
(* in the source (tables regenerated by t38x): both sweepers delete through the command
   path and reach writeAOF (so fences, followers and restarts see a DEL / DELHOOK / DELCHAN), and they
   run under the exclusive lock taken by backgroundExpiring *)
Theorem c14_sweepers_log_and_lock :
  touches ["aofbuf"] (fn_effects "backgroundExpireObjects") = true /\
  touches ["aofbuf"] (fn_effects "backgroundExpireHooks") = true /\
  touches ["hooks"; "hookExpires"] (fn_effects "backgroundExpireHooks") = true /\
  entry_lock_sound "backgroundExpiring" = true /\
  fn_takes_lock "backgroundExpireObjects" = false /\ fn_takes_lock "backgroundExpireHooks" = false.
Proof. vm_compute. repeat split. Qed.
Print Assumptions c14_sweepers_log_and_lock.

Close Scope string_scope.
(* non-vacuity: b expires at 30, a at 50, c never; EXPIRE moves c to 40, PERSIST frees b; sweep at 45 *)
Example c14_nonvacuous :
  let c := fold_left apply [OSet [97%N] 1 50; OSet [98%N] 2 30; OSet [99%N] 3 0; OExpire [99%N] 40; OPersist [98%N]] cnew in
  snd (sweep 45 c) = [[99%N]] /\ lookup [97%N] (objs (fst (sweep 45 c))) = Some (mkObj 1 50) /\
  lookup [98%N] (objs (fst (sweep 45 c))) = Some (mkObj 2 0).
Proof. vm_compute. repeat split. Qed.

(* non-vacuity of c14_redeclare_moves_deadline: a declared with deadline 50 then identically with 500
   is not a victim at 100 (the old entry is gone); p permanent then with deadline 50 is the only
   victim at 100; declared permanent once more it survives every sweep *)
Example c14_redeclare_nonvacuous :
  let a := [97%N] in let p := [112%N] in
  let c := fold_left apply [OSet a 1 50; OSet a 1 500; OSet p 2 0; OSet p 2 50] cnew in
  expires c = [(50, p); (500, a)] /\ snd (sweep 100 c) = [p] /\
  let c' := apply (fst (sweep 100 c)) (OSet p 2 0) in
  expires c' = [(500, a)] /\ snd (sweep 400 c') = [] /\ lookup p (objs (fst (sweep 400 c'))) = Some (mkObj 2 0).
Proof. vm_compute. repeat split. Qed.

(* Hooks and channels created with EX expire the same way — stated for the life-cycle model of
   hooks and channels itself (Model/HookLife.v: cmdSetHook, cmdDELHOOKop, cmdPDelHook, FLUSHDB,
   backgroundExpireHooks and the hookExpires B-tree ordered by (expires, name)), which the harness
   compares with the server command by command (harness/internal/hooklife: replies, listings with
   ttl, the sweeper's DELHOOK / DELCHAN records in the AOF, restart).  [HookLifeProofs.Inv s]:
   names sorted, unique and non-empty, hookExpires sorted and exact. *)
From T38 Require Base.SMap Model.Spec Model.HookLife Proofs.HookLifeProofs.

(* toy instance for the example at the end *)
Module C14hk_toy.
  Import HookLife.
  Definition toyO : oracle :=
    mkOracle (fun b => b) (fun _ => true) (fun b => Some (Z.of_nat (List.length b) * 1000000000))
             (fun c r => match r with k :: _ => FOk k | [] => FErr [] end).
  Definition nc : bytes := [99%N].  Definition nh : bytes := [104%N].  Definition np : bytes := [112%N].
  Definition kF : bytes := [70%N].  (* "F" *)
  Definition cC := [Spec.bs "SETCHAN"; nc; Spec.bs "EX"; Spec.bs "12345"; Spec.bs "NEARBY"; kF; Spec.bs "FENCE"].
  Definition cH := [Spec.bs "SETHOOK"; nh; Spec.bs "http://x"; Spec.bs "EX"; Spec.bs "abcde"; Spec.bs "WITHIN"; kF; Spec.bs "FENCE"].
  Definition cP := [Spec.bs "SETCHAN"; np; Spec.bs "NEARBY"; kF; Spec.bs "FENCE"].
End C14hk_toy.

(* after ANY history of hook / channel commands and sweeper passes (commands at arbitrary clock
   readings) hookExpires is sorted by (deadline, name) and holds an entry (d, n) iff the hook or
   channel registered under n has the deadline d: nothing stale, nothing missing *)
Theorem c14_hook_index_exact : forall O p,
  let s := HookLife.prun O p HookLife.empty in
  sorted (HookLife.hexp s) /\
  forall e, In e (HookLife.hexp s) <->
            exists h, SMap.get (snd e) (HookLife.hooks s) = Some h /\ HookLife.h_ex h = Some (fst e).
Proof.
  intros O p s. pose proof (HookLifeProofs.reachable_inv O p) as H.
  split; [exact (HookLifeProofs.inv_isorted _ H) | exact (HookLifeProofs.inv_exact _ H)].
Qed.
Print Assumptions c14_hook_index_exact.

Theorem c14_hook_reachable_inv : forall O p, HookLifeProofs.Inv (HookLife.prun O p HookLife.empty).
Proof. exact HookLifeProofs.reachable_inv. Qed.
Print Assumptions c14_hook_reachable_inv.

(* an accepted SETHOOK / SETCHAN (h = the hook the command declares, of the kind of whatever holds
   the name) leaves exactly h under its name, and for that name the index holds exactly h's deadline:
   a re-declaration with another EX MOVES the entry, one without EX removes it *)
Theorem c14_hook_redeclare_moves_deadline : forall s h,
  HookLifeProofs.Inv s -> HookLife.h_name h <> [] ->
  (forall p, SMap.get (HookLife.h_name h) (HookLife.hooks s) = Some p -> HookLife.h_chan p = HookLife.h_chan h) ->
  let s1 := fst (fst (HookLife.reg_sethook s h)) in
  SMap.get (HookLife.h_name h) (HookLife.hooks s1) = Some h /\
  (forall e, snd e = HookLife.h_name h -> (In e (HookLife.hexp s1) <-> HookLife.h_ex h = Some (fst e))).
Proof. exact HookLifeProofs.declare_spec. Qed.
Print Assumptions c14_hook_redeclare_moves_deadline.

(* the hook cmdSetHook builds carries the command's name (non-empty) and kind
   (the hypothesis of the theorem above is about this h) *)
Theorem c14_hook_declared : forall O now args c h, HookLife.parse_sethook O now args c = inl h ->
  HookLife.h_name h <> [] /\ HookLife.h_chan h = c /\ tl args <> [] /\ HookLife.h_name h = hd [] (tl args).
Proof. exact HookLifeProofs.parse_sethook_name. Qed.
Print Assumptions c14_hook_declared.

(* no stale timer: whatever entries earlier declarations, deletions and expirations of the name left
   behind, the declared hook is removed by no sweep before its own deadline, never if it has none *)
Theorem c14_hook_no_stale_timer : forall s h now,
  HookLifeProofs.Inv s -> HookLife.h_name h <> [] ->
  (forall p, SMap.get (HookLife.h_name h) (HookLife.hooks s) = Some p -> HookLife.h_chan p = HookLife.h_chan h) ->
  (HookLife.h_ex h = None \/ exists d, HookLife.h_ex h = Some d /\ now < d) ->
  SMap.get (HookLife.h_name h)
           (HookLife.hooks (fst (HookLife.sweep now (fst (fst (HookLife.reg_sethook s h)))))) = Some h.
Proof.
  intros s h now Hi Hnn Hkind Hfut. apply HookLifeProofs.sweep_get; [apply HookLifeProofs.inv_reg_sethook; assumption|].
  split; [apply (HookLifeProofs.declare_spec s h Hi Hnn Hkind) | exact Hfut].
Qed.
Print Assumptions c14_hook_no_stale_timer.

(* DELHOOK / DELCHAN that deletes: the hook is gone with every index entry of its name, nothing else moves *)
Theorem c14_hook_delete_removes_entry : forall s n c,
  HookLifeProofs.Inv s -> snd (HookLife.delhook_op s n c) = true ->
  let s1 := fst (HookLife.delhook_op s n c) in
  SMap.get n (HookLife.hooks s1) = None /\ (forall e, snd e = n -> ~ In e (HookLife.hexp s1)) /\
  (forall n', n' <> n -> SMap.get n' (HookLife.hooks s1) = SMap.get n' (HookLife.hooks s)).
Proof. exact HookLifeProofs.delete_spec. Qed.
Print Assumptions c14_hook_delete_removes_entry.

(* PDELHOOK / PDELCHAN: every hook of that kind the pattern selects is gone with its entries, every
   other name keeps its hook;  FLUSHDB empties registry and index *)
Theorem c14_hook_pdel_removes_entries : forall s pat c x,
  HookLifeProofs.Inv s -> HookLife.isnil pat = false ->
  let s1 := fst (fst (HookLife.cmd_pdelhook s [x; pat] c)) in
  (forall h, In h (HookLife.by_pattern pat c (HookLife.hooks s)) ->
     SMap.get (HookLife.h_name h) (HookLife.hooks s1) = None /\
     forall e, snd e = HookLife.h_name h -> ~ In e (HookLife.hexp s1)) /\
  (forall n, ~ In n (map HookLife.h_name (HookLife.by_pattern pat c (HookLife.hooks s))) ->
     SMap.get n (HookLife.hooks s1) = SMap.get n (HookLife.hooks s)).
Proof. exact HookLifeProofs.pdel_spec. Qed.
Print Assumptions c14_hook_pdel_removes_entries.

Theorem c14_hook_flushdb_clears : forall s x, HookLife.cmd_flushdb s [x] = (HookLife.empty, HookLife.ROk, true).
Proof. reflexivity. Qed.
Print Assumptions c14_hook_flushdb_clears.

(* never early: a sweep at `now` keeps every hook / channel without deadline or with a future one *)
Theorem c14_hook_never_early : forall now s n h,
  HookLifeProofs.Inv s -> SMap.get n (HookLife.hooks s) = Some h ->
  (HookLife.h_ex h = None \/ exists d, HookLife.h_ex h = Some d /\ now < d) ->
  SMap.get n (HookLife.hooks (fst (HookLife.sweep now s))) = Some h.
Proof. intros now s n h Hi Hg Hfut. apply HookLifeProofs.sweep_get; auto. Qed.
Print Assumptions c14_hook_never_early.

(* complete despite the early stop of the Ascend: what a sweep leaves was there before, unchanged,
   and has no deadline or a future one *)
Theorem c14_hook_sweep_complete : forall now s n h,
  HookLifeProofs.Inv s -> SMap.get n (HookLife.hooks (fst (HookLife.sweep now s))) = Some h ->
  SMap.get n (HookLife.hooks s) = Some h /\
  (HookLife.h_ex h = None \/ exists d, HookLife.h_ex h = Some d /\ now < d).
Proof. intros now s n h Hi. apply HookLifeProofs.sweep_get, Hi. Qed.
Print Assumptions c14_hook_sweep_complete.

(* visible as a delete: the records a sweep appends to the log are, without repetition, exactly one
   DELCHAN n per channel and one DELHOOK n per hook whose deadline has passed — in index order, i.e.
   the messages of the leading index entries (second statement) *)
Theorem c14_hook_logged_as_delhook_delchan : forall now s, HookLifeProofs.Inv s ->
  NoDup (snd (HookLife.sweep now s)) /\
  (forall m, In m (snd (HookLife.sweep now s)) <->
     exists n h d, SMap.get n (HookLife.hooks s) = Some h /\ HookLife.h_ex h = Some d /\ d <= now /\
                   m = [if HookLife.h_chan h then HookLife.c_delchan else HookLife.c_delhook; n]).
Proof. exact HookLifeProofs.sweep_logged. Qed.
Print Assumptions c14_hook_logged_as_delhook_delchan.

Theorem c14_hook_sweep_log_order : forall now s, HookLifeProofs.Inv s ->
  snd (HookLife.sweep now s) = map (HookLife.victim_msg s) (victims now (HookLife.hexp s)).
Proof. intros now s Hi. rewrite (HookLifeProofs.sweep_spec now s Hi). reflexivity. Qed.
Print Assumptions c14_hook_sweep_log_order.

Theorem c14_hook_sweep_keeps_inv : forall now s, HookLifeProofs.Inv s -> HookLifeProofs.Inv (fst (HookLife.sweep now s)).
Proof.
  intros now s Hi. rewrite (HookLifeProofs.sweep_spec now s Hi).
  apply fold_left_inv; [intros s1 e _; apply HookLifeProofs.inv_drop | exact Hi].
Qed.
Print Assumptions c14_hook_sweep_keeps_inv.

(* the ttl HOOKS / CHANS report: -1 exactly without deadline, otherwise not negative (the whole seconds left, 0 once over) *)
Theorem c14_hook_ttl : forall now h,
  (HookLife.ttl_of now h = -1 <-> HookLife.h_ex h = None) /\ (HookLife.h_ex h <> None -> 0 <= HookLife.ttl_of now h).
Proof.
  intros now h. unfold HookLife.ttl_of. destruct (HookLife.h_ex h) as [d|]; [|split; [tauto | congruence]].
  (* whatever the quotient is *)
  generalize (Z.quot (d - now) 1000000000). intros t. destruct (Z.ltb_spec t 0); split; try (split; [lia | discriminate]); intros _; lia.
Qed.
Print Assumptions c14_hook_ttl.

(* non-vacuity: channel c declared with 5 s at clock 10 and re-declared with 5 s at clock 3 s (the
   entry moves), hook h with 5 s at clock 20, permanent channel p; the sweep at 5.5 s removes h only,
   logs DELHOOK h, keeps c under its new deadline and p *)
Example c14_hook_nonvacuous :
  let O := C14hk_toy.toyO in
  let s := HookLife.prun O [HookLife.PCmd 10 C14hk_toy.cC; HookLife.PCmd 20 C14hk_toy.cH;
                            HookLife.PCmd 30 C14hk_toy.cP; HookLife.PCmd 3000000000 C14hk_toy.cC] HookLife.empty in
  HookLife.hexp s = [(5000000020, C14hk_toy.nh); (8000000000, C14hk_toy.nc)] /\
  snd (HookLife.sweep 5500000000 s) = [[HookLife.c_delhook; C14hk_toy.nh]] /\
  SMap.keys (HookLife.hooks (fst (HookLife.sweep 5500000000 s))) = [C14hk_toy.nc; C14hk_toy.np] /\
  HookLife.hexp (fst (HookLife.sweep 5500000000 s)) = [(8000000000, C14hk_toy.nc)].
Proof. vm_compute. repeat split. Qed.
