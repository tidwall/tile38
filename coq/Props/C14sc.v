(* C14, continued — deadlines moved or removed through tile38.call in a script.
   "EXPIRE / PERSIST / SET without EX move or remove the deadline", and restarts and followers see
   only the log: a deadline-changing command that a script variant lets run must be appended to the
   log, else the old `SET .. EX n` re-arms the deadline at the next start-up and the sweeper deletes an
   object that had no deadline any more.  Over the script tables regenerated by t38x
   (Gen/ScriptTables.v) and the expiry model (Model/Expire.v); keyspace counterpart with the real
   command grammar and clocks: c03ks_deadline_kept / c03ks_restart_deadline_kept (Props/C03ks.v).
   Tie: harness/cmd/c14/seeds_r4.go (the same deadline commands directly and through EVAL / EVALSHA /
   EVALNA / EVALNASHA, then kill -9 + restart, and on a follower). *)
From Coq Require Import ZArith String List Bool.
From T38 Require Import Base.Bytes Model.Expire Proofs.ExpireProofs Model.Tables Gen.ScriptTables Gen.Dispatch Model.Gate.
From T38 Require Import Model.ScriptExpire Proofs.ScriptExpireProofs.
Import ListNotations.

(* in the source: for all six script variants, each of set, expire, persist, del, pdel,
   drop, flushdb, rename, renamenx and the hook / channel commands is refused or stands in a logging
   arm; the keyspace ones do change the dataset (lockset table) and do run under EVAL and EVALNA on a
   leader — with write = true (flushdb passes the tables but commandInScript has no case for it) *)
Theorem c14_script_deadline_tables :
  dl_check_all = true /\
  forallb changes_script ["set"; "expire"; "persist"; "del"; "pdel"; "drop"; "rename"; "renamenx"]%string = true /\
  forallb (fun t => forallb (fun c => match script_gate t c (mkEnv false false true false false) with
                                      | SRun _ true _ => true | _ => false end)
                            ["set"; "expire"; "persist"; "del"]%string) [script_rw; script_na] = true /\
  t_logs_on_write script_rw = true /\ t_logs_on_write script_na = true.
Proof. vm_compute. repeat split. Qed.
Print Assumptions c14_script_deadline_tables.

(* every script variant, every deadline-changing command, every server condition: a call that runs is
   in a write arm of a dispatcher that logs its writes *)
Theorem c14_script_deadline_call_logged : forall v t c e l w fn,
  In (v, t) script_variant -> In c deadline_cmds ->
  script_gate t c e = SRun l w fn -> w = true /\ t_logs_on_write t = true.
Proof.
  intros v t c e l w fn Hv Hc Hg. apply andb_true_iff.
  exact (gate_logged t c e l w fn (variant_check v t c (proj1 c14_script_deadline_tables) Hv Hc) Hg).
Qed.
Print Assumptions c14_script_deadline_call_logged.

(* a script (any variant, any calls among SET [EX] / EXPIRE / PERSIST / DEL, each under any server
   condition) after any logged history: replaying the log reproduces the live collection — id index
   and expiry index, hence every deadline and every future sweep *)
Theorem c14_script_log_replays : forall v t, In (v, t) script_variant ->
  forall calls pre,
  let r := script_run t calls (fold_left apply pre cnew, pre) in
  fold_left apply (snd r) cnew = fst r.
Proof. intros v t Hv calls pre. exact (script_log_replays v t (proj1 c14_script_deadline_tables) Hv calls cnew _ pre eq_refl). Qed.
Print Assumptions c14_script_log_replays.

(* ... and replayed record by record at OTHER clocks (a restart, a follower: each `EX n` re-armed from
   the moment it is replayed) it yields for every id the same payload and the same has-deadline status *)
Theorem c14_script_restart_deadline_status : forall v t, In (v, t) script_variant ->
  forall calls pre log',
  let r := script_run t calls (fold_left apply pre cnew, pre) in
  Forall2 op_sim (snd r) log' ->
  forall id,
  match lookup id (objs (fst r)), lookup id (objs (fold_left apply log' cnew)) with
  | Some o, Some o' => o_val o = o_val o' /\ ((o_ex o =? 0)%Z = (o_ex o' =? 0)%Z)
  | None, None => True
  | _, _ => False
  end.
Proof.
  intros v t Hv calls pre log' r Hsim id.
  exact (lookup_sim id _ _ (script_restart_status v t (proj1 c14_script_deadline_tables) Hv calls pre log' Hsim)).
Qed.
Print Assumptions c14_script_restart_deadline_status.

(* PERSIST through a script that ran, then a restart at whatever clocks: the object is there, without
   deadline, and no sweep of the restarted server removes it *)
Theorem c14_script_persist_survives_restart : forall v t, In (v, t) script_variant ->
  forall calls pre e id p l w fn log' now,
  let r0 := script_run t calls (fold_left apply pre cnew, pre) in
  lookup id (objs (fst r0)) = Some p ->
  script_gate t "persist"%string e = SRun l w fn ->
  let r := call t r0 (e, OPersist id) in
  Forall2 op_sim (snd r) log' ->
  exists o', lookup id (objs (fst (sweep now (fold_left apply log' cnew)))) = Some o' /\
             o_val o' = o_val p /\ o_ex o' = 0%Z.
Proof. intros v t Hv. exact (script_persist_survives_restart v t (proj1 c14_script_deadline_tables) Hv). Qed.
Print Assumptions c14_script_persist_survives_restart.

(* non-vacuity: SET a EX (deadline 50) is in the log; an EVAL script on a leader persists a and moves b;
   the log is [set a; set b; persist a; expire b]; replayed 1000 later the sweep at 1200 — past a's old
   re-armed deadline 1050 — keeps a.  On a table whose read arm holds "persist" (write = false) the
   check is false. *)
Example c14_script_nonvacuous :
  let a := [97%N] in let b := [98%N] in let ld := mkEnv false false true false false in
  let r := script_run script_rw [(ld, OPersist a); (ld, OExpire b 70%Z)] (fold_left apply [OSet a 1 50%Z; OSet b 2 0%Z] cnew, [OSet a 1 50%Z; OSet b 2 0%Z]) in
  snd r = [OSet a 1 50%Z; OSet b 2 0%Z; OPersist a; OExpire b 70%Z] /\
  let c' := fold_left apply [OSet a 1 1050%Z; OSet b 2 0%Z; OPersist a; OExpire b 1070%Z] cnew in
  snd (sweep 1200%Z c') = [b] /\ lookup a (objs (fst (sweep 1200%Z c'))) = Some (mkObj 1 0%Z) /\
  dl_check (mkTable [mkArm ["set"; "expire"]%string LNone true true true false RNo;
                     mkArm ["ttl"; "persist"]%string LNone false false false true RNo]
                    (mkArm [] LNone false false false false RNotSupported) true) "persist"%string = false.
Proof. vm_compute. repeat split. Qed.
