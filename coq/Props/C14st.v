(* C14, continued — "always eventual" needs a sweeper in every server process.
   The theorems of Props/C14.v are about every sweep that runs; these say that sweeps do run in
   every process: Serve starts backgroundExpiring under no condition (in particular not under the
   configured role), nothing else starts it, and every round of it calls both sweeps before any
   branch.  Over Gen/Startup.v, regenerated by t38x from /repo on every check run.  Tie: the
   role-history scenarios of harness/cmd/c14/seeds_r3.go (boot as leader / as follower, FOLLOW,
   FOLLOW no one, leader lost, restart; after every step an object and a channel with EX must be
   gone within the bound on the server under test). *)
From Coq Require Import String List Bool.
From T38 Require Import Model.Tables Gen.Mutators Gen.Startup Model.Startup Proofs.StartupProofs.
Import ListNotations.
Open Scope string_scope.

Theorem c14_sweeper_started_unconditionally :
  started_always go_starts "Serve" "backgroundExpiring" = true /\
  starters_of go_starts "backgroundExpiring" = ["Serve"] /\
  each_round "backgroundExpiring" "loopUntilServerStops" ["backgroundExpireObjects"; "backgroundExpireHooks"] = true /\
  (* the table names the same goroutine roots as the lockset table of Gen/Mutators.v *)
  forallb (fun g => in_strs (gs_root g) go_entries) go_starts = true.
Proof. vm_compute. repeat split. Qed.
Print Assumptions c14_sweeper_started_unconditionally.

(* every process of every role history — configured as leader or as follower at its first boot, then
   any sequence of FOLLOW, FOLLOW no one, loss of the leader, restart — runs the sweeper *)
Theorem c14_sweeper_in_every_role : forall following0 h, p_sweeper (run following0 h) = true.
Proof. intros following0 h. rewrite run_sweeper. exact (proj1 c14_sweeper_started_unconditionally). Qed.
Print Assumptions c14_sweeper_in_every_role.

(* non-vacuity: the history of a follower that is restarted, loses its leader and is promoted ends as
   a leader with a sweeper; and on a table whose start is guarded by the role the same definitions say
   "not started" (the start is then not counted for any role) *)
Example c14_sweeper_nonvacuous :
  run false [EFollow; ERestart; ELeaderLost; EFollowNoOne] = mkProc false true /\
  started_always [("Serve", "backgroundExpiring", ["s.config.followHost() == """""], 0)] "Serve" "backgroundExpiring" = false /\
  started_always [("Serve", "backgroundExpiring", [], 1)] "Serve" "backgroundExpiring" = false.
Proof. vm_compute. repeat split. Qed.
