(* C15, continued — the ROLE the gates consult: it cannot change between a gate's test and the
   handler, it is left only by the command that says so, and "caught up" means the leader's log was
   consumed. Only property theorems; every one is closed by a lemma of Proofs/RoleStateProofs.v or by
   the few lines that prove it here, and is about the tables t38x regenerated from /repo for this run
   (coq/Gen/RoleGates.v). *)
From Coq Require Import String List Bool ZArith.
From T38 Require Import Model.Tables Model.RoleTypes Gen.LockTable Gen.Dispatch Gen.ScriptTables Gen.Mutators
  Gen.RoleGates Model.Gate Model.RoleState Proofs.GateProofs Proofs.RoleStateProofs.
Import ListNotations.
Open Scope string_scope.

(* the regenerated statement orders describe the same arms as the regenerated arm records the other
   C15 theorems are about (same locks, same tests, same write flags, same refusals) *)
Theorem c15_step_tables_agree :
  steps_agree lock_table lock_table_steps lock_table_default_steps = true /\
  steps_agree script_rw script_rw_steps script_rw_default_steps = true /\
  steps_agree script_ro script_ro_steps script_ro_default_steps = true /\
  steps_agree script_na script_na_steps script_na_default_steps = true.
Proof. vm_compute. repeat split. Qed.
Print Assumptions c15_step_tables_agree.

(* a command whose handler can modify the dataset, sent directly (or TIMEOUT-wrapped): whatever other
   connections do in between (READONLY yes, FOLLOW ..., at any point where this goroutine does not
   hold the server lock), the handler only ever runs at a moment when the server is a leader and not
   read-only: the two tests are made under the lock the handler runs under *)
Theorem c15_write_role_under_lock : forall c sched r r',
  changes c = true -> in_strs c dev_only = false ->
  run_arm (direct_steps c) false sched r = AHandler r' ->
  r_follower r' = false /\ r_readonly r' = false.
Proof.
  intros c sched r r' Hc Hd. apply writer_role.
  pose proof (touching_all dispatch _ changing (Q := fun c => in_strs c dev_only || writer_facts (direct_steps c)) changing_eq ltac:(vm_compute; reflexivity) c Hc) as H.
  cbv beta in H. rewrite Hd in H. exact H.
Qed.
Print Assumptions c15_write_role_under_lock.

(* the same for tile38.call(c, ...) from every script command: the script command's own arm followed
   by the arm of its script table *)
Theorem c15_write_role_under_lock_scripts : forall outer c sched r r',
  In outer ["eval"; "evalsha"; "evalro"; "evalrosha"; "evalna"; "evalnasha"] -> changes_script c = true ->
  run_arm (script_steps outer c) false sched r = AHandler r' ->
  r_follower r' = false /\ r_readonly r' = false.
Proof. exact script_write_role. Qed.
Print Assumptions c15_write_role_under_lock_scripts.

(* a command whose handler hands out stored objects only ever runs while the server is a leader or a
   follower that has caught up at least once — directly and from every script command *)
Theorem c15_read_role_under_lock : forall c sched r r',
  reads_objects c = true -> in_strs c dev_only = false ->
  run_arm (direct_steps c) false sched r = AHandler r' ->
  r_follower r' = false \/ r_caughtup r' = true.
Proof.
  intros c sched r r' Hc Hd. apply reader_role.
  pose proof (touching_all dispatch _ reading (Q := fun c => in_strs c dev_only || reader_facts (direct_steps c)) reading_eq ltac:(vm_compute; reflexivity) c Hc) as H.
  cbv beta in H. rewrite Hd in H. exact H.
Qed.
Print Assumptions c15_read_role_under_lock.

Theorem c15_read_role_under_lock_scripts : forall outer c sched r r',
  In outer ["eval"; "evalsha"; "evalro"; "evalrosha"; "evalna"; "evalnasha"] -> reads_objects_script c = true ->
  run_arm (script_steps outer c) false sched r = AHandler r' ->
  r_follower r' = false \/ r_caughtup r' = true.
Proof. exact script_read_role. Qed.
Print Assumptions c15_read_role_under_lock_scripts.

(* READONLY <a>, any argument string: read-only mode is switched off only by an argument that is
   "no" up to letter case; Config.setReadOnly has no other caller *)
Theorem c15_readonly_left_only_by_no : forall a ro,
  readonly_set_sites = ["Server.cmdREADONLY"] /\
  (snd (readonly_cmd a ro) = false -> ro = false \/ lower a = "no").
Proof. intros a ro. split; [vm_compute; reflexivity | apply readonly_off]. Qed.
Print Assumptions c15_readonly_left_only_by_no.

(* ... so a read-only server stays read-only through every sequence of READONLY commands none of which
   says "no" (and then refuses every changing command: c15_follower_readonly, c15_write_role_under_lock) *)
Theorem c15_readonly_sticky : forall args,
  Forall (fun a => lower a <> "no") args -> readonly_after args true = true.
Proof. exact readonly_sticky. Qed.
Print Assumptions c15_readonly_sticky.

(* protected mode: starting from the default, through every sequence of CONFIG SET protected-mode v /
   CONFIG REWRITE / restart in which no v is "no" up to letter case, the test Server.isProtected makes
   on the stored value succeeds (the field has no other writer) ... *)
Theorem c15_protected_kept : forall es,
  Forall (fun e => match e with PSet v => lower v <> "no" | _ => True end) es ->
  protected_mode_writes = 2%nat /\
  mode_test protected_test (p_mode (prun es pstate0)) = true.
Proof.
  intros es H. split; [vm_compute; reflexivity|].
  rewrite (proj1 (protected_kept es H)). vm_compute. reflexivity.
Qed.
Print Assumptions c15_protected_kept.

(* ... hence a server started without --protected-mode no, without -h <address> and without a
   password is protected after such a history (and refuses a non-loopback peer before its first
   read: c15_protected) *)
Theorem c15_protected_after : forall es,
  Forall (fun e => match e with PSet v => lower v <> "no" | _ => True end) es ->
  is_protected false false (p_mode (prun es pstate0)) false = true.
Proof.
  intros es H. unfold is_protected. rewrite (proj2 (c15_protected_kept es H)). reflexivity.
Qed.
Print Assumptions c15_protected_after.

(* followStep: setCaughtUp(true) — the only way the caughtUpOnce bit consulted by the read gates
   gets set — is called only when the records of the leader's LOG consumed in this session reach the
   size the leader reported; messages the leader's publish queue writes onto the replication
   connection (not part of the log: hypothesis stream_wf) do not count *)
Theorem c15_caught_up_means_log_consumed : forall pos aofsize ms,
  stream_wf ms -> follow_session pos aofsize ms = true ->
  caughtup_true_calls = 2%nat /\ caughtup_flag_writers = ["Server.setCaughtUp"] /\
  (aofsize <= pos + logged_bytes ms)%Z.
Proof. exact caught_up_means_log_consumed. Qed.
Print Assumptions c15_caught_up_means_log_consumed.

Example c15rs_nonvacuous :
  (* SET from EVALNA while another connection sends READONLY yes before the lock is taken: refused *)
  run_arm (script_steps "evalna" "set") false [nomove; mkMove (Some (false, true)) false] (mkRole false false true) = ARefused /\
  (* without interference the handler runs on a writable leader *)
  run_arm (script_steps "evalna" "set") false [] (mkRole false false true) = AHandler (mkRole false false true) /\
  (* READONLY: canonical arguments work, other spellings are invalid and change nothing *)
  readonly_cmd "yes" false = (RoOK, true) /\ readonly_cmd "no" true = (RoOK, false) /\
  readonly_cmd "YES" true = (RoInvalid, true) /\ readonly_after ["YES"; "yes"; "No"] true = true /\
  (* protected mode: Yes keeps it on, no switches it off *)
  mode_test protected_test (p_mode (prun [PSet "Yes"; PRewrite; PRestart] pstate0)) = true /\
  mode_test protected_test (p_mode (prun [PSet "no"] pstate0)) = false /\
  (* follow: 65 log bytes and 21000 bytes of PUBLISH do not reach aof_size 20000; 20000 log bytes do *)
  follow_session 0 20000 [mkFmsg "SET" 65 true; mkFmsg "PUBLISH" 21000 false] = false /\
  follow_session 0 20000 [mkFmsg "SET" 65 true; mkFmsg "publish" 21000 false; mkFmsg "SET" 19935 true] = true /\
  stream_wf [mkFmsg "SET" 65 true; mkFmsg "PUBLISH" 21000 false].
Proof.
  repeat split; try (vm_compute; reflexivity).
  unfold stream_wf. repeat (apply Forall_cons || apply Forall_nil); split;
    try (vm_compute; discriminate); intros H; try discriminate H; vm_compute; reflexivity.
Qed.
