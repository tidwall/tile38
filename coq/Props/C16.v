(* C16 — Replies depend on the bytes sent, not on packetisation; bad input is contained.
   Only the property theorems, each closed by a lemma of Proofs/ or by the line or two that prove it here. *)
From T38 Require Import Base.Bytes Model.Resp Model.Pipeline Proofs.RespProofs Proofs.PipelineProofs.
Local Open Scope Z_scope.

(* redcon.ReadNextCommand (RESP, native $, telnet): a command found in d is the command found in
   d ++ e, with the leftover extended by e; an error found in d is the same error in d ++ e; a run-time
   panic on d is a panic on d ++ e (buffers shorter than 2^62).  Incomplete puts no constraint. *)
Theorem c16_complete_stable : forall d e a k r,
  read_next d = Complete a k r -> read_next (d ++ e) = Complete a k (r ++ e).
Proof. intros d e a k r H. pose proof (read_next_app d e) as X. rewrite H in X. exact (proj2 X). Qed.
Print Assumptions c16_complete_stable.

Theorem c16_err_stable : forall d e x, read_next d = Err x -> read_next (d ++ e) = Err x.
Proof. intros d e x H. pose proof (read_next_app d e) as X. rewrite H in X. exact X. Qed.
Print Assumptions c16_err_stable.

Theorem c16_panic_stable : forall d e, len (d ++ e) < BIG -> read_next d = Panic -> read_next (d ++ e) = Panic.
Proof. intros d e Hbig P. pose proof (read_next_app d e) as H. rewrite P in H. exact (H Hbig). Qed.
Print Assumptions c16_panic_stable.

(* the tile38-level entry point readNextCommand: HTTP sniff on G/P/O, the modelled readNextHTTPCommand
   (request line, headers up to Content-Length / Authorization / websocket upgrade, body), else redcon.
   No hypothesis about the HTTP parser. *)
Theorem c16_cmd_stable : forall d e, cext e (t38_parse d) (t38_parse (d ++ e)).
Proof. exact t38_parse_stable. Qed.
Print Assumptions c16_cmd_stable.

(* every Complete consumes at least one byte and the parser never runs out of its fuel: ReadMessages'
   loop terminates within its own fuel *)
Theorem c16_progress : forall d,
  match t38_parse d with CComplete _ _ rest => len rest < len d | CFuel => False | _ => True end.
Proof. exact t38_parse_good. Qed.
Print Assumptions c16_progress.

(* k-way chunking, pinned entry point: feeding ANY segmentation of a stream through the ReadMessages
   accumulation (one call per chunk, leftover carried over, stop at the first error) yields the same
   connection outcome — same messages in the same order, same error point, same leftover — as feeding
   the stream in one piece; for every stream no prefix of which makes the pinned parser panic (F6).
   (ReadMessages is modelled with the repair proposed_fixes/C16-http-empty-path-drops-pipeline: an HTTP
   request without a command is an error like any other instead of `return nil, errInvalidHTTP`.) *)
Theorem c16_chunking : forall chunks,
  (forall k, rm_all t38_parse (firstn k (concat chunks)) <> RMPanic) ->
  conn_run t38_parse chunks [] [] = conn_run t38_parse [concat chunks] [] [].
Proof.
  intros chunks.
  apply (conn_run_chunking t38_parse (len (concat chunks) + 1)); [intros; apply t38_parse_stable|exact t38_parse_good|lia].
Qed.
Print Assumptions c16_chunking.

(* the same for the REPAIRED entry point (recover around readNextCommand): NO hypothesis but the length is left —
   a malformed frame is reported as the same protocol error after the same messages whatever the
   segmentation; streams shorter than 2^62 bytes. *)
Theorem c16_chunking_fixed : forall chunks,
  len (concat chunks) < BIG ->
  conn_run t38_parse_fixed chunks [] [] = conn_run t38_parse_fixed [concat chunks] [] [].
Proof. exact t38_fixed_chunking. Qed.
Print Assumptions c16_chunking_fixed.

(* netServe hands each socket read to ONE ReadMessages call, whose single Read takes at most the pipeline
   buffer; what does not fit is parked in client.in (InputStream) until the NEXT socket read.  As long as the
   socket read size does not exceed the pipeline buffer size nothing is ever parked and netServe's loop is
   exactly the conn_run of the chunking theorems.  The hypothesis is explicit; the source's two constants
   (Model/Pipeline.v sock_read_size, pipeline_buf_size; compared with the literals of server.go by the
   harness on every run) satisfy it. *)
Theorem c16_in_b_dead : forall parse rsz psz reads buf acc,
  (rsz <= psz)%nat -> Forall (fun r => (length r <= rsz)%nat) reads ->
  serve_reads parse psz reads [] buf acc = of_conn (conn_run parse reads buf acc).
Proof.
  intros parse rsz psz reads buf acc Hle Hf. apply serve_reads_dead. eapply Forall_impl; [|exact Hf]. cbn.
  intros; lia.
Qed.
Print Assumptions c16_in_b_dead.

Theorem c16_source_read_size_fits : (N.to_nat sock_read_size <= N.to_nat pipeline_buf_size)%nat.
Proof. unfold sock_read_size, pipeline_buf_size. lia. Qed.
Print Assumptions c16_source_read_size_fits.

(* the hypothesis is needed: a read one byte larger than the buffer leaves a complete command unparsed *)
Theorem c16_oversized_read_refuted :
  let r := [80; 73; 78; 71; 13; 10]%N in
  serve_reads t38_parse_fixed 5 [r] [] [] [] = SOpen [] [80; 73; 78; 71; 13]%N [10%N] /\
  conn_run t38_parse_fixed [r] [] [] = Open [{| m_args := [[80; 73; 78; 71]%N]; m_kind := KTelnet |}] [].
Proof. vm_compute. split; reflexivity. Qed.
Print Assumptions c16_oversized_read_refuted.

(* F6: on the pinned code "never panics" is false — a negative bulk length indexes / slices out of
   range in redcon, and nothing recovers on the connection goroutine. *)
Theorem c16_no_panic_refuted :
  read_next [42; 49; 13; 10; 36; 45; 49; 48; 48; 13; 10]%N = Panic /\
  read_next [42; 49; 13; 10; 36; 45; 50; 13; 10]%N = Panic /\
  (forall http, conn_run (read_cmd http) [[42; 49; 13; 10; 36; 45; 50; 13; 10]%N] [] [] = Crashed).
Proof. repeat split; intros; vm_compute; reflexivity. Qed.
Print Assumptions c16_no_panic_refuted.

(* With the repair no byte string makes the tile38-level entry point panic — RESP, native, telnet and
   HTTP paths alike (the panics of redcon and of readNativeMessageLine are the outcome the recover
   produces, CErr EPanicRecovered) — and no chunk sequence crashes the connection reader. *)
Theorem c16_no_panic : (forall d, t38_parse_fixed d <> CPanic) /\
  (forall chunks buf acc, conn_run t38_parse_fixed chunks buf acc <> Crashed).
Proof. split; [exact t38_fixed_no_panic|exact (conn_run_no_crash t38_parse_fixed t38_fixed_no_panic)]. Qed.
Print Assumptions c16_no_panic.

(* the crash inputs of the pinned build, through the repaired entry point: a protocol error *)
Example c16_recovered_inputs :
  t38_parse_fixed [42; 49; 13; 10; 36; 45; 50; 13; 10]%N = CErr EPanicRecovered /\                       (* *1\r\n$-2\r\n *)
  t38_parse_fixed [36;49;55;32;83;69;84;32;107;32;105;100;32;83;84;82;73;78;71;32;34;13;10]%N = CErr EPanicRecovered /\  (* $17 SET k id STRING <one double quote> *)
  t38_parse_fixed [71;69;84;32;47;83;69;84;43;107;43;105;100;43;83;84;82;73;78;71;43;34;32;72;84;84;80;47;49;46;49;13;10;13;10]%N
    = CErr EPanicRecovered.                                                                               (* GET /SET+k+id+STRING+<one double quote> HTTP/1.1 *)
Proof. vm_compute. repeat split; reflexivity. Qed.

(* non-vacuity: a pipeline of two commands and a malformed frame, cut in three different ways *)
Example c16_nonvacuous :
  let s1 := [42; 49; 13; 10; 36; 49; 13; 10; 97; 13; 10; 42; 49; 13]%N in
  let s2 := [10; 36; 49; 13; 10; 98; 13; 10; 42; 49; 13; 10; 36; 45]%N in
  let s3 := [50; 13; 10]%N in
  let whole := conn_run t38_parse_fixed [s1 ++ s2 ++ s3] [] [] in
  whole = Closed [{| m_args := [[97%N]]; m_kind := KRedis |}; {| m_args := [[98%N]]; m_kind := KRedis |}] EPanicRecovered /\
  conn_run t38_parse_fixed [s1; s2; s3] [] [] = whole /\
  conn_run t38_parse_fixed [s1 ++ s2; s3] [] [] = whole /\
  conn_run t38_parse [s1; s2] [] [] = conn_run t38_parse [s1 ++ s2] [] [].
Proof. vm_compute. repeat split; reflexivity. Qed.
