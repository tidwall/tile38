(* C16, continued — the connection ACROSS the hand-over to live mode (SUBSCRIBE / PSUBSCRIBE / a live FENCE
   search): replies depend on the bytes sent, not on where the stream was cut, also when the cut falls
   around or inside the commands that follow the mode-switching command.
   Only the property theorems, each closed by a lemma of Proofs/PipelineLiveProofs.v or by the line that
   proves it here.
   Model: Model/PipelineLive.v (live_run = netServe's loop up to the hand-over, then the live loop on the
   SAME PipelineReader); source facts: Gen/LiveHandover.v (t38x/livehandover.go). *)
From T38 Require Import Base.Bytes Model.Resp Model.Pipeline Model.PipelineLive Model.HandoverFacts
  Proofs.RespProofs Proofs.PipelineProofs Proofs.PipelineLiveProofs.
From T38 Require Gen.LiveHandover.
Local Open Scope Z_scope.

(* the source's hand-over keeps the reader: goLive is given the very reader netServe called ReadMessages
   on, every live loop reads from the reader it is given, and no statement of the hand-over block assigns
   the reader as a whole or its carry-over buffer (only the fields rd / wr are re-pointed at the socket) *)
Theorem c16_handover_keeps_reader :
  reader_survives Gen.LiveHandover.handover_read_reader Gen.LiveHandover.handover_golive_reader
    Gen.LiveHandover.handover_assigns Gen.LiveHandover.handover_reader_calls Gen.LiveHandover.live_readers = true.
Proof. exact handover_keeps_reader. Qed.
Print Assumptions c16_handover_keeps_reader.

(* the general statement behind it: segmentation independence across the hand-over, for EVERY classifier of live commands, every chunk list
   (empty chunks, cuts inside the live command, inside the commands after it, k-way) and every hand-over
   that keeps the carry-over buffer: a run in which nothing that was parsed stayed unhandled has the outcome
   the specification reads off the concatenated bytes — the same messages handled in normal mode, the same
   messages handled by the live loop, the same error point, the same leftover. *)
Theorem c16_live_chunking : forall h golive chunks,
  ho_keep_buf h = true -> len (concat chunks) < BIG ->
  acted_all (t38_live_run h golive chunks) = true ->
  t38_live_run h golive chunks = t38_live_spec golive (concat chunks).
Proof. exact t38_live_chunking. Qed.
Print Assumptions c16_live_chunking.

(* the two other facts the model's hand-over is read from: the messages of the hand-over read that follow the
   live command, and that read's error, are handed back to the reader (unreadAfter) and returned by the first
   ReadMessages of the live loop; liveSubscription handles the messages of a read before it acts on its error *)
Theorem c16_handover_keeps_rest :
  rest_kept Gen.LiveHandover.handover_read_reader Gen.LiveHandover.handover_loop_var
    Gen.LiveHandover.handover_reader_method_calls Gen.LiveHandover.reader_methods
    Gen.LiveHandover.readmessages_head Gen.LiveHandover.readmessages_tail = true.
Proof. exact handover_keeps_rest. Qed.
Print Assumptions c16_handover_keeps_rest.

Theorem c16_live_loop_msgs_before_error :
  live_err_after_msgs Gen.LiveHandover.live_subscription_loop = true.
Proof. exact live_loop_msgs_before_error. Qed.
Print Assumptions c16_live_loop_msgs_before_error.

(* FULL segmentation independence across the hand-over for the SOURCE (all three flags of the hand-over computed
   from Gen/LiveHandover.v): for every classifier of live commands and every chunk list the outcome is the
   specification read off the concatenated bytes, hence the outcome of the stream sent in one piece.  No
   excluding hypothesis; streams shorter than 2^62 bytes. *)
Theorem c16_live_chunking_source : forall golive chunks,
  len (concat chunks) < BIG ->
  t38_live_run ho_source golive chunks = t38_live_spec golive (concat chunks) /\
  t38_live_run ho_source golive chunks = t38_live_run ho_source golive [concat chunks].
Proof. intros golive chunks. rewrite ho_source_repaired. apply t38_live_chunking_repaired. Qed.
Print Assumptions c16_live_chunking_source.

(* the same stated for the explicit flags ho_repaired = (true, true, true) *)
Theorem c16_live_chunking_repaired : forall golive chunks,
  len (concat chunks) < BIG ->
  t38_live_run ho_repaired golive chunks = t38_live_spec golive (concat chunks) /\
  t38_live_run ho_repaired golive chunks = t38_live_run ho_repaired golive [concat chunks].
Proof. exact t38_live_chunking_repaired. Qed.
Print Assumptions c16_live_chunking_repaired.

(* malformed input is contained across the switch too: no chunk sequence crashes the reader or exhausts
   the model's fuel, whatever the hand-over does *)
Theorem c16_live_no_crash : forall h golive chunks,
  t38_live_run h golive chunks <> LCrashed /\ t38_live_run h golive chunks <> LNoFuel.
Proof. intros h golive chunks. apply (left_alive h), normal_phase_left; [exact t38_fixed_no_panic|exact t38_fixed_good]. Qed.
Print Assumptions c16_live_no_crash.

(* the hypothesis ho_keep_buf is needed: a hand-over that gives the live loop a fresh reader parses the
   rest of a partially received command as a command of its own ("SUBSCRIBE ch\r\nPI" | "NG x\r\n" yields
   the command NG; cut between the two commands it yields PING) *)
Theorem c16_lost_buffer_refuted :
  let h := {| ho_keep_buf := false; ho_pass_rest := false; ho_live_err_keeps := false |} in
  t38_live_run h is_sub [w_sub ++ w_ping1; w_ping2] = LOpen true [m_sub] [m_ng] [] None [] [] /\
  t38_live_run h is_sub [w_sub; w_ping1 ++ w_ping2] = LOpen true [m_sub] [m_ping] [] None [] [] /\
  t38_live_spec is_sub (w_sub ++ w_ping1 ++ w_ping2) = LOpen true [m_sub] [m_ping] [] None [] [].
Proof. vm_compute. repeat split; reflexivity. Qed.
Print Assumptions c16_lost_buffer_refuted.

(* the two defects of the hand-over BEFORE the repair (ho_pinned; reproduced on the real server at d289b20,
   docs/notes/C16.md, repaired by proposed_fixes/C16-live-handover-drops-rest and C16-live-error-drops-read):
   "SUBSCRIBE ch\r\nPING x\r\n" in ONE read never answers PING; the same bytes cut after SUBSCRIBE or inside
   PING do.  In live mode "PING x\r\n*x\r\n" in one read closes without answering PING; in two reads PING is
   answered first. *)
Theorem c16_live_drop_pinned_refuted :
  (t38_live_run ho_pinned is_sub [w_sub ++ w_ping1 ++ w_ping2] = LOpen true [m_sub] [] [m_ping] None [] [] /\
   t38_live_run ho_pinned is_sub [w_sub; w_ping1 ++ w_ping2] = LOpen true [m_sub] [m_ping] [] None [] [] /\
   t38_live_run ho_pinned is_sub [w_sub ++ w_ping1; w_ping2] = LOpen true [m_sub] [m_ping] [] None [] []) /\
  (t38_live_run ho_pinned is_sub [w_sub; w_ping1 ++ w_ping2 ++ w_bad] = LClosed true [m_sub] [] [] None [m_ping] (EParse EMultiBulk) /\
   t38_live_run ho_pinned is_sub [w_sub; w_ping1 ++ w_ping2; w_bad] = LClosed true [m_sub] [m_ping] [] None [] (EParse EMultiBulk)).
Proof. vm_compute. repeat split; reflexivity. Qed.
Print Assumptions c16_live_drop_pinned_refuted.

(* non-vacuity: a run of the source model through a hand-over in which nothing stays unhandled, cut inside
   the command after SUBSCRIBE and byte-wise inside SUBSCRIBE itself *)
Example c16_live_nonvacuous :
  acted_all (t38_live_run ho_source is_sub [w_sub ++ w_ping1; w_ping2]) = true /\
  t38_live_run ho_source is_sub [w_sub ++ w_ping1; w_ping2] = LOpen true [m_sub] [m_ping] [] None [] [] /\
  t38_live_run ho_source is_sub [[83;85]%N; [66;83;67;82;73;66;69;32;99;104;13]%N; [10;80]%N; [73;78;71;32;120;13;10]%N]
    = LOpen true [m_sub] [m_ping] [] None [] [] /\
  t38_live_run ho_source is_sub [w_sub ++ w_ping1 ++ w_ping2] = LOpen true [m_sub] [m_ping] [] None [] [] /\
  t38_live_run ho_source is_sub [w_sub; w_ping1 ++ w_ping2 ++ w_bad] = LClosed true [m_sub] [m_ping] [] None [] (EParse EMultiBulk).
Proof. vm_compute. repeat split; reflexivity. Qed.
