(* C16, continued — the HTTP request path after framing: the tile-path rewrite of handleInputCommand
   (mvtFilterHTTPArgs) belongs to the no-panic family.  Only the property theorems, each closed by a lemma of
   Proofs/MvtArgsProofs.v or by computation.  Model: Model/MvtArgs.v; source facts: Gen/MvtArgs.v (t38x/mvtargs.go). *)
From T38 Require Import Base.Bytes Model.Resp Model.Pipeline Model.MvtArgs Model.HandoverFacts Proofs.MvtArgsProofs.
From T38 Require Gen.MvtArgs.

(* the source is the model: mvtFilterHTTPArgs up to its unescape loop (guard `len(parts) != 4` included), its
   only call site (query split off at the first '?', ".mvt" / ".pbf" suffix test) and the fact that nothing
   else calls it, statement by statement *)
Theorem c16_mvt_source_transcribed :
  strs_eqb Gen.MvtArgs.mvt_filter_prefix expected_mvt_prefix = true /\
  str_eqb Gen.MvtArgs.mvt_call_site expected_mvt_call_site = true /\
  strs_eqb Gen.MvtArgs.mvt_callers expected_mvt_callers = true.
Proof. vm_compute. repeat split; reflexivity. Qed.
Print Assumptions c16_mvt_source_transcribed.

(* EVERY one-argument HTTP request path — any number of segments, empty segments, any extension, escapes,
   a query or none — goes through the call site and the rewrite without a run-time panic: with exactly four
   segments the fourth is the last one and carries the 4-byte extension that was tested for *)
Theorem c16_mvt_no_panic : forall arg0, mvt_entry mvt_reject_exact4 arg0 <> MPanic.
Proof. exact mvt_entry_exact4_no_panic. Qed.
Print Assumptions c16_mvt_no_panic.

(* the guard matters: with `len(parts) < 4` the path tiles/fleet/10/193/413.mvt slices parts[3] = "193" with a
   negative bound (the whole process exits: the panic is raised on the connection goroutine outside the recover
   of the framing parser); with the guard of the source it is an unknown command, and fleet/10/193/413.mvt?limit=5
   is the tile request INTERSECTS fleet ... MVT 193 413 10 *)
Theorem c16_mvt_below4_refuted :
  mvt_entry mvt_reject_below4 w_prefixed_tile = MPanic /\
  mvt_entry mvt_reject_exact4 w_prefixed_tile = MNo /\
  mvt_entry mvt_reject_exact4 [102;108;101;101;116;47;49;48;47;49;57;51;47;52;49;51;46;109;118;116;63;108;105;109;105;116;61;53]%N
    = MYes [102;108;101;101;116]%N [49;48]%N [49;57;51]%N [52;49;51]%N.
Proof. vm_compute. repeat split; reflexivity. Qed.
Print Assumptions c16_mvt_below4_refuted.
