(* C17 — Every reply is well-formed, and RESP and JSON outputs agree.
   This file holds only the property theorems, each closed by a lemma of Proofs/ or by the line or two that prove it here. *)
From T38 Require Import Base.Bytes Base.Utf8 Model.Json Model.Templates
  Model.JsonMode Proofs.JsonModeProofs Model.WsFrame Model.RespOut Model.JsonScan Proofs.JsonScanProofs Proofs.JsonRespProofs Proofs.JsonProofs Proofs.JsonTmplProofs Proofs.JsonGenProofs Proofs.JsonWsProofs Model.Mvt Proofs.MvtProofs Model.ClientList Proofs.ClientListProofs.
From T38 Require Gen.Templates.

(* jsonString / appendJSONString (fast path and Go's json.Marshal escaping: control bytes, quote,
   backslash, < > &, U+2028/9, invalid UTF-8) always produce one valid JSON document: a string. *)
Theorem json_string_valid : forall s, valid_json (json_string s) = true.
Proof. intros s. unfold valid_json. rewrite (json_string_run s jstart false []); reflexivity. Qed.
Print Assumptions json_string_valid.

(* ... and a string token in every position where one may start (value, array element, member
   name), leaving the enclosing structure untouched: this is what typed HStr holes rely on. *)
Theorem json_string_token : forall s q k st,
  string_start q = Some (k, st) -> jrun (json_string s) q = Some (string_end k st).
Proof. exact json_string_run. Qed.
Print Assumptions json_string_token.

(* Soundness of the template checker: whatever the holes are filled with (within their types),
   whichever branches are taken and however often loops iterate, an accepted template only
   produces valid JSON documents. *)
Theorem tmpl_ok_sound : forall t,
  tmpl_ok t = true -> forall v, inst t v -> valid_json v = true.
Proof. exact tmpl_ok_sound_proof. Qed.
Print Assumptions tmpl_ok_sound.

(* The checker holds for every whole-document reply template regenerated from the source. *)
Theorem c17_all_templates : forallb tmpl_ok Gen.Templates.templates = true.
Proof. exact all_templates_ok. Qed.
Print Assumptions c17_all_templates.

(* Hence: every instance of every regenerated whole-document template is one valid JSON
   document that starts with {"ok":true or {"ok":false. *)
Theorem c17_replies_valid : forall t v,
  In t Gen.Templates.templates -> inst t v ->
  valid_json v = true /\ (hasPrefix ok_true_prefix v \/ hasPrefix ok_false_prefix v).
Proof. exact all_replies_valid. Qed.
Print Assumptions c17_replies_valid.

(* The helpers that print one JSON value (simple point, simple bounds, time) are checked as values. *)
Theorem c17_value_helpers : forallb tmpl_value_ok Gen.Templates.value_templates = true.
Proof. vm_compute. reflexivity. Qed.
Print Assumptions c17_value_helpers.

(* Replies assembled across functions (scanWriter: SCAN / SEARCH / NEARBY / WITHIN / INTERSECTS)
   are checked write expression by write expression.  PARTIAL: each fragment is a legal
   continuation of a JSON text in some context (raw text only inside string literals, value holes
   only in value position, quotes and escapes balanced); that the fragments are issued in an order
   that forms one document is NOT proved here, it is carried by the black-box oracle. *)
Theorem c17_fragments_partial : forallb frag_ok Gen.Templates.fragments = true.
Proof. vm_compute. reflexivity. Qed.
Print Assumptions c17_fragments_partial.

Theorem frag_ok_sound_partial : forall t,
  frag_ok t = true ->
  exists q q', In q frag_starts /\
    forall v, inst t v -> exists qc', jrun v q = Some qc' /\ sim q' qc'.
Proof. exact frag_ok_sound_proof. Qed.
Print Assumptions frag_ok_sound_partial.

(* Whole-document validity of the scanWriter replies (SCAN / SEARCH / NEARBY / WITHIN /
   INTERSECTS): the four templates assembled from the extracted fragments in the order in which
   the handler, writeFoot and writeFilled emit them (the order grammar is written by hand in
   harness/internal/tmplx scanGrammar; the harness checks that every real reply of these commands
   is an instance of its template) are accepted, hence every instance is one valid JSON document
   starting with {"ok":true or {"ok":false.  This supersedes the fragment-wise statement for validity. *)
Theorem c17_scan_templates :
  length Gen.Templates.scan_templates = 4%nat /\ forallb tmpl_ok Gen.Templates.scan_templates = true.
Proof. exact (conj scan_templates_present all_scan_templates_ok). Qed.
Print Assumptions c17_scan_templates.

Theorem c17_scan_replies_valid : forall t v,
  In t Gen.Templates.scan_templates -> inst t v ->
  valid_json v = true /\ (hasPrefix ok_true_prefix v \/ hasPrefix ok_false_prefix v).
Proof. exact (checked_replies_valid _ all_scan_templates_ok all_scan_templates_ok_head). Qed.
Print Assumptions c17_scan_replies_valid.

(* F7 (repaired): the template of OUTPUT before the repair is rejected, with an invalid instance. *)
Theorem c17_output_before_fix_refuted :
  tmpl_ok output_template_before_fix = false /\
  exists v, inst output_template_before_fix v /\ valid_json v = false.
Proof.
  split; [vm_compute; reflexivity|]. eexists. split.
  - apply ISeq; [apply ISeq; [apply ILit | apply (IDur [52; 48; 110; 115]); reflexivity] | apply ILit].
  - vm_compute. reflexivity.
Qed.
Print Assumptions c17_output_before_fix_refuted.

(* F15 (repaired): a float printed by strconv.FormatFloat in value position is rejected. *)
Theorem c17_unguarded_float_refuted :
  tmpl_ok (Seq (Seq (Lit [123; 34; 111; 107; 34; 58; 116; 114; 117; 101; 44; 34; 100; 34; 58]) HFloat) (Lit [125])) = false /\
  exists v, inst (Seq (Seq (Lit [123; 34; 111; 107; 34; 58; 116; 114; 117; 101; 44; 34; 100; 34; 58]) HFloat) (Lit [125])) v /\ valid_json v = false.
Proof.
  split; [vm_compute; reflexivity|]. eexists. split.
  - apply ISeq; [apply ISeq; [apply ILit | apply (IFloat [78; 97; 78])] | apply ILit].
  - vm_compute. reflexivity.
Qed.
Print Assumptions c17_unguarded_float_refuted.

(* WebSocket transport wrapping: the frame WriteWebSocketMessage writes for a payload (header
   transcribed: len <= 125 | len <= 0xFFFF | else) is decoded by a conforming client to exactly
   that payload, for every payload length a Go slice can have (len is an int: < 2^63). *)
Theorem c17_ws_frame_roundtrip : forall payload,
  N.of_nat (length payload) < 2 ^ 63 -> ws_decode (ws_frame payload) = Some payload.
Proof. exact ws_frame_roundtrip_proof. Qed.
Print Assumptions c17_ws_frame_roundtrip.

(* the boundaries of the three length forms, and the refutation of the usual off-by-one
   (first test <= 126): a 126 byte payload is then not decodable *)
Theorem c17_ws_header_boundaries :
  ws_header 125 = [129; 125] /\ ws_header 126 = [129; 126; 0; 126] /\
  ws_header 65535 = [129; 126; 255; 255] /\ ws_header 65536 = [129; 127; 0; 0; 0; 0; 0; 1; 0; 0].
Proof. vm_compute. auto. Qed.
Print Assumptions c17_ws_header_boundaries.

Theorem c17_ws_header_off_by_one_refuted :
  exists p, ws_decode (ws_header_126 (N.of_nat (length p)) ++ p) <> Some p.
Proof. exists (repeat 123 126). vm_compute. discriminate. Qed.
Print Assumptions c17_ws_header_off_by_one_refuted.

(* RESP mode: the printer of every RESP-mode reply (resp.Value.MarshalRESP transcribed: simple
   strings, errors, integers, bulk strings, null bulk, null array, arrays, nested) is inverted by a
   strict RESP2 parser: a client recovers exactly the value printed and nothing is left over.
   Well-formed = simple strings and errors contain no CR / LF.  tile38 guarantees that: every
   error reply goes through resp.ErrorValue and every simple string through
   resp.SimpleStringValue, both of which apply formSingleLine (c17_resp_single_line); the raw
   writes (+PONG, +OK, -ERR wrong number of arguments for 'cmd' command) are fixed literals around a
   dispatched command name. *)
Theorem c17_resp_valid : forall v, resp_wf v = true -> resp_parse (resp_print v) = Some (v, []).
Proof. exact resp_valid_proof. Qed.
Print Assumptions c17_resp_valid.

(* ... also in the middle of a stream (pipelined replies do not run into each other) *)
Theorem c17_resp_valid_stream : forall v, resp_wf v = true -> forall rest,
  resp_parse_fuel (S (length (resp_print v ++ rest))) (resp_print v ++ rest) = Some (v, rest).
Proof. exact resp_roundtrip_proof. Qed.
Print Assumptions c17_resp_valid_stream.

Theorem c17_resp_single_line : forall s, line_ok (form_single_line s) = true.
Proof. exact form_single_line_ok. Qed.
Print Assumptions c17_resp_single_line.

(* the hypothesis is needed: a simple string carrying CR LF does not come back *)
Theorem c17_resp_crlf_refuted :
  resp_parse (resp_print (RSimple [79; 75; 13; 10; 43; 88])) <> Some (RSimple [79; 75; 13; 10; 43; 88], []).
Proof. vm_compute. discriminate. Qed.
Print Assumptions c17_resp_crlf_refuted.

(* The two modes convey the same result, for the scanWriter commands (SCAN / SEARCH / NEARBY /
   WITHIN / INTERSECTS) with the outputs IDS, COUNT and OBJECTS: the JSON arm and the RESP arm of
   writeFoot / writeFilled, transcribed as render_json / render_resp over one abstract result (ids,
   objects and field values as printed values, field-name list, distances, count, cursor), are
   projected by a client onto the same abstract reply: ids, objects, non-zero fields, distances,
   cursor (count for COUNT).  Hypothesis wf_res: the name list has no duplicates and is in byte
   order, and every object's field list is a sub-list of it (field.List and the fkeys B-tree set are
   both in byte order of the names; the repaired JSON arm scans the object's list up to the first
   larger name). *)
Theorem c17_modes_agree : forall r, wf_res r ->
  proj_json (sr_out r) (render_json r) = Some (abs_of r) /\
  proj_resp (sr_out r) (render_resp r) = Some (abs_of r).
Proof. exact modes_agree_proof. Qed.
Print Assumptions c17_modes_agree.

(* Finding C17-scan-json-path-field (repaired in /repo: 903e555).  The pinned JSON arm of writeFilled
   filled the positional "fields" array with Fields().Get(name), which resolves a dotted name inside
   a JSON-valued field; the RESP arm lists the stored fields.  On the well-formed result of SET fleet b
   FIELD props.speed 5 POINT 1 1; SET fleet truck1 FIELD props {"speed":7} POINT 2 2; SCAN fleet OBJECTS
   the pinned JSON rendering (json_item_pinned) and the RESP rendering convey different fields, the
   repaired rendering (exact stored name) agrees. *)
Theorem c17_scan_json_path_field_pinned_refuted :
  wf_res json_path_result /\
  proj_json (sr_out json_path_result) (render_json_pinned json_path_result) <>
  proj_resp (sr_out json_path_result) (render_resp json_path_result) /\
  proj_json (sr_out json_path_result) (render_json json_path_result) =
  proj_resp (sr_out json_path_result) (render_resp json_path_result).
Proof.
  split; [exact json_path_result_wf|]. split.
  - vm_compute. discriminate.
  - destruct (modes_agree_proof _ json_path_result_wf) as [-> ->]. reflexivity.
Qed.
Print Assumptions c17_scan_json_path_field_pinned_refuted.

(* the distance-0 case, explicitly: NEARBY .. DISTANCE of an object at the query point prints
   "distance":0 / the bulk 0 (opts.distOutput makes the test true although dist > 0 is false) *)
Theorem c17_zero_distance_kept :
  wf_res zero_dist_result /\
  abs_of zero_dist_result = AList 0 [ {| a_id := [97]; a_obj := None; a_fields := []; a_dist := Some [48] |} ] /\
  proj_json OIds (render_json zero_dist_result) = Some (abs_of zero_dist_result) /\
  proj_resp OIds (render_resp zero_dist_result) = Some (abs_of zero_dist_result).
Proof.
  split; [split; [constructor | split; [repeat constructor | constructor]]|]. split; [reflexivity|].
  split; vm_compute; reflexivity.
Qed.
Print Assumptions c17_zero_distance_kept.

(* ... and the variant whose JSON ids arm tests dist > 0 only (seeded change C17/2) makes the two
   modes disagree on that very result *)
Theorem c17_drop_zero_distance_refuted :
  exists r, wf_res r /\ proj_json (sr_out r) (render_json_dropzero r) <> proj_resp (sr_out r) (render_resp r).
Proof. exists zero_dist_result. split; [exact (proj1 c17_zero_distance_kept)|]. vm_compute. discriminate. Qed.
Print Assumptions c17_drop_zero_distance_refuted.

(* Which mode a reply is in: netServe's loops (per packet, per message: resolve msg.OutputType from
   client.outputType / the -o default / the framing, OUTPUT switches it, HELLO <digit> on a server
   started with -o json is answered in RESP for that one reply, write the message's mode back)
   produce, for every split of the command stream into packets, the mode of the latest OUTPUT switch
   at or before each command (else the connection's initial mode); a HELLO changes nothing for the
   commands after it.  serve is the model with the HELLO branch as the source has it: whether the
   branch restores msg.OutputType before returning is read from handleInputCommand by tmplx
   (Gen.Templates.hello_restores_output). *)
Theorem c17_mode_follows_output : forall dflt parsed packets c,
  serve dflt parsed c packets = spec_modes dflt parsed (initial_mode dflt parsed c) (concat packets).
Proof. exact serve_spec_proof. Qed.
Print Assumptions c17_mode_follows_output.

Theorem c17_mode_packet_independent : forall dflt parsed c ps qs,
  concat ps = concat qs -> serve dflt parsed c ps = serve dflt parsed c qs.
Proof. intros. rewrite !serve_spec_proof. congruence. Qed.
Print Assumptions c17_mode_packet_independent.

(* resolving the mode once per packet (seeded change C17/4) is refuted: [OUTPUT json][cmd] in one packet *)
Theorem c17_mode_hoisted_refuted :
  serve_hoisted None OResp None [[POutput OJson; POther]; [POther]] <> serve None OResp None [[POutput OJson; POther]; [POther]].
Proof. vm_compute. discriminate. Qed.
Print Assumptions c17_mode_hoisted_refuted.

(* HELLO 3 on a server started with -o json (what go-redis sends first): the error is in RESP, the
   next command is answered in JSON again, in the same packet or the next; HELLO abc, or HELLO 3
   after an OUTPUT json on a server without -o, is an ordinary JSON error *)
Theorem c17_hello_leaves_mode :
  serve (Some OJson) OResp None [[PHello true; POther]] = [OResp; OJson] /\
  serve (Some OJson) OResp None [[PHello true]; [POther]] = [OResp; OJson] /\
  serve (Some OJson) OResp None [[PHello false; POther]] = [OJson; OJson] /\
  serve None OResp None [[POutput OJson; PHello true; POther]] = [OJson; OJson; OJson].
Proof. rewrite !serve_spec_proof. repeat split. Qed.
Print Assumptions c17_hello_leaves_mode.

(* without the restore in the HELLO branch (seeded change C17/11) the temporary RESP setting is written
   back into client.outputType: every later reply of the connection is RESP on a JSON-mode server *)
Theorem c17_hello_no_restore_refuted :
  serve_r false (Some OJson) OResp None [[PHello true]; [POther]] <>
  spec_modes (Some OJson) OResp (initial_mode (Some OJson) OResp None) (concat [[PHello true]; [POther]]) /\
  serve_r false (Some OJson) OResp None [[PHello true]; [POther]] = [OResp; OResp].
Proof. split; [vm_compute; discriminate | reflexivity]. Qed.
Print Assumptions c17_hello_no_restore_refuted.

(* CLIENT LIST: RESP mode returns the text `id=.. addr=.. name=.. age=.. idle=..` per connection, JSON
   mode re-parses that text (split at newlines and spaces, each piece cut at the FIRST '=').  For
   every list of connections whose names are names CLIENT SETNAME accepts (any bytes '!'..'~', '='
   included) and whose other values hold no white space, the members JSON mode recovers are exactly
   the fields RESP mode printed, connection by connection, in order. *)
Theorem c17_client_list_fields_agree : forall cs, forallb client_wf cs = true ->
  json_entries cut_first (list_text cs) = map resp_fields cs.
Proof. exact client_list_fields_agree. Qed.
Print Assumptions c17_client_list_fields_agree.

(* cutting at every '=' and keeping pieces of exactly two parts (seeded change C17/12) loses the name a=b *)
Theorem c17_client_list_split_all_refuted :
  client_wf client_eq_name = true /\
  json_entries cut_only (list_text [client_eq_name]) <> map resp_fields [client_eq_name] /\
  json_entries cut_only (list_text [client_eq_name]) = [[(k_id, [55]); (k_addr, [49; 58; 50]); (k_age, [48]); (k_idle, [48])]].
Proof. split; [reflexivity|]. split; [vm_compute; discriminate | reflexivity]. Qed.
Print Assumptions c17_client_list_split_all_refuted.

(* Pub/sub: what a JSON-mode subscriber is sent for any published payload (the payload itself
   when it is valid JSON, else jsonString of it) is always one valid JSON value; deciding by the
   delimiters only (seeded change C17/5) is refuted by the payload {x}. *)
Theorem c17_sub_message_valid : forall p, valid_json (sub_msg p) = true.
Proof. intros p. unfold sub_msg. destruct (valid_json p) eqn:E; [exact E | apply json_string_valid]. Qed.
Print Assumptions c17_sub_message_valid.

Theorem c17_sub_message_delims_refuted : exists p, valid_json (sub_msg_delims p) = false.
Proof. exists [123; 120; 125]. vm_compute. reflexivity. Qed.
Print Assumptions c17_sub_message_delims_refuted.

(* Vector tiles (MVT queries): one tile, three transports.  RESP returns the tile bytes; JSON mode
   carries them in the "mvt" member as base64 written by scanWriter.writeFoot; the HTTP route
   GET /key/z/x/y.mvt runs the query in JSON mode, takes the member out again and decodes it
   (handleInputCommand, case HTTP).  The two sites are an encode / decode pair; which encoding each
   names is read from the source on every run (Gen.Templates.mvt_json_encoding / mvt_http_decoding).
   With the encodings the source names: for EVERY tile the member decodes back to it and the HTTP
   route answers 200, application/vnd.mapbox-vector-tile and exactly the tile RESP returns. *)
Theorem c17_mvt_http_delivers_tile : forall tile res, wf_bytes tile ->
  exists member,
    mvt_member Gen.Templates.mvt_json_encoding tile = Some member /\
    mvt_http Gen.Templates.mvt_http_decoding res (Some member) = Some (mkH 200 CTMvt tile).
Proof.
  intros tile res Hw. destruct sites_same_kind as (k & E1 & E2). unfold mvt_member, mvt_http. rewrite E1, E2.
  eexists. split; [reflexivity|]. rewrite (same_kind_roundtrip k tile Hw). reflexivity.
Qed.
Print Assumptions c17_mvt_http_delivers_tile.

(* base64 itself (encoding/base64 transcribed for StdEncoding and RawStdEncoding): decoding with the
   encoding that encoded gives the bytes back, for all byte strings *)
Theorem c17_base64_roundtrip : forall k t, wf_bytes t -> decode k (encode k t) = Some t.
Proof. exact same_kind_roundtrip. Qed.
Print Assumptions c17_base64_roundtrip.

(* ... and the padded encoder in front of the unpadded decoder (seeded change C17/9) is refuted for
   every tile whose length is not a multiple of 3: the HTTP route answers 500, the JSON content type
   and the base64 text *)
Theorem c17_mvt_std_into_raw_refuted : forall tile res,
  wf_bytes tile -> (N.of_nat (length tile)) mod 3 <> 0 ->
  decode BRawStd (encode BStd tile) = None /\
  mvt_http n_RawStdEncoding res (mvt_member n_StdEncoding tile) = Some (mkH 500 CTJson (encode BStd tile)).
Proof. exact (fun tile res _ Hn => conj (std_into_raw_rejected tile Hn) (mvt_http_std_raw_refuted tile res Hn)). Qed.
Print Assumptions c17_mvt_std_into_raw_refuted.

(* non-vacuity: hole fills exist (a string needing every kind of escape, an integer, a boolean),
   and the regenerated list is not empty *)
Example c17_nonvacuous :
  json_value (json_string [97; 34; 92; 10; 1; 60; 255; 226; 128; 168; 195; 169]) /\
  json_value [45; 49; 50] /\ json_value [116; 114; 117; 101] /\
  (40 <= length Gen.Templates.templates)%nat /\
  valid_json (json_string [97; 34; 92; 10; 1; 60; 255; 226; 128; 168; 195; 169]) = true.
Proof.
  split; [apply json_string_value|]. split; [apply int_text_value; reflexivity|].
  split; [apply (bool_text_value true)|]. split; [vm_compute; lia | vm_compute; reflexivity].
Qed.
