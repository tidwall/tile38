(* C17 on the keyspace commands (SET FSET DEL PDEL DROP RENAME RENAMENX FLUSHDB EXPIRE PERSIST TTL GET
   FGET EXISTS FEXISTS TYPE KEYS JGET JSET JDEL and every error reply): the reply in BOTH output
   modes is inside the model (Model/KsReply.v) — one abstract result [kres] per handler outcome,
   rendered as the RESP value (resp_reply) and as the JSON document (json_doc = an instantiation of
   the reply template regenerated from the handler's source; json_tree = the same document as a tree).
   This file holds only the property theorems; their lemmas are in Proofs/KsReplyProofs.v. *)
From Coq Require Import String.
From T38 Require Import Base.Bytes Base.Utf8 Base.SMap Model.Field Model.Object Model.Spec Model.Keyspace.
From T38 Require Import Model.Json Model.Templates Model.KsReply.
From T38 Require Import Proofs.JsonTmplProofs Proofs.KsReplyProofs.
From T38 Require Model.RespOut Proofs.JsonRespProofs Proofs.KsRefine.
From T38 Require Gen.Templates.

(* Well-formed results (kres_wf) = what the libraries behind the opaque texts are trusted to print:
   geojson AppendJSON yields a JSON value, strconv.FormatFloat(f,'f',-1,64) a decimal text or NaN /
   +Inf / -Inf, a geohash is base-32 text, a Number / JSON field value passed gjson.Valid, true /
   false / null fields have one spelling, the command name of an arity error is that of a dispatched
   command.  handler_ok = the success document is written by a function that has one. *)

(* JSON mode, the bytes: the document written for a result — the regenerated template of its handler,
   instantiated — is the compact printing of the document tree (so what is proved about the tree is
   about the bytes on the wire). *)
Theorem c17_ks_json_doc_is_tree : forall h k d, kres_wf k -> handler_ok h k ->
  json_doc h k d = Some (jprint (json_tree k d)).
Proof. exact json_doc_tree. Qed.
Print Assumptions c17_ks_json_doc_is_tree.

(* JSON mode, validity: for every result of every keyspace command the reply is defined, is an
   instance of a reply template regenerated from internal/server (c17_all_templates applies), is one
   valid JSON document, and starts with {"ok":true exactly when the result is a success and with
   {"ok":false otherwise.  d is the printed duration (time.Duration.String: no quote, backslash or
   control byte). *)
Theorem c17_ks_json_valid : forall h k d, kres_wf k -> handler_ok h k -> string_safe d = true ->
  exists v, json_doc h k d = Some v /\ v = jprint (json_tree k d) /\
            doc_instance v /\ valid_json v = true /\ hasPrefix (ok_prefix (is_ok k)) v.
Proof. exact json_reply_valid. Qed.
Print Assumptions c17_ks_json_valid.

(* ... "ok" is a boolean member, and "err" (a string) is present exactly when it is false *)
Theorem c17_ks_json_ok_err : forall k d,
  exists m, json_tree k d = VObj m /\
    vget k_ok m = Some (VTok (if is_ok k then t_true else t_false)) /\
    (if is_ok k then vget k_err m = None else exists msg, vget k_err m = Some (VStr msg)).
Proof. exact json_tree_ok_err. Qed.
Print Assumptions c17_ks_json_ok_err.

(* any document tree whose leaves are JSON values / string-safe raw strings prints to a JSON value
   in every position (independent of the templates: jsonString, json.Marshal and raw quoting for
   strings, commas and colons by the printer) *)
Theorem c17_ks_tree_prints_value : forall j, jv_wf j -> json_value (jprint j).
Proof. exact jprint_value. Qed.
Print Assumptions c17_ks_tree_prints_value.

(* appendJSONFloat: null for NaN / +Inf / -Inf, else the FormatFloat text, which is a JSON number *)
Theorem c17_ks_float_is_value : forall t, float_text t = true -> json_value (jf t).
Proof. exact jf_value. Qed.
Print Assumptions c17_ks_float_is_value.

(* RESP mode: the value handed to MarshalRESP is well-formed, hence (c17_resp_valid) a strict RESP2
   client re-reads exactly it, with nothing left over *)
Theorem c17_ks_resp_valid : forall k, kres_wf k ->
  exists v, rval_of (resp_reply k) = Some v /\ RespOut.resp_parse (RespOut.resp_print v) = Some (v, []).
Proof.
  intros k Hk. destruct (resp_reply_wf k Hk) as (v & E & W). exists v.
  exact (conj E (JsonRespProofs.resp_valid_proof v W)).
Qed.
Print Assumptions c17_ks_resp_valid.

(* Both modes convey the same result.  A client that sent the command c (asked as a: the command
   and its reply-shaping options) reads the conveyed result conv_of a k off either reply:
   error class and text (RESP's line is writeErr of JSON's text), negative answer, object / point
   / bounds / hash, field names and data, FGET value, EXISTS boolean, TTL, TYPE, key list, JGET value.
   [fits c a k]: k is a result that command can answer with.  By design the projection forgets: the
   count of DEL / PDEL / DROP / RENAMENX / FSET (RESP only), which of key and id is missing (JSON
   only), NaN vs +Inf vs -Inf coordinates (RESP only; JSON prints null), and for PERSIST everything
   but "no error" (see c17_ks_persist_incomparable). *)
Theorem c17_ks_modes_agree : forall c a k d, kres_wf k -> fits c a k ->
  conveys_json c a (json_tree k d) = Some (conv_of a k) /\
  conveys_resp a (resp_reply k) = Some (conv_of a k).
Proof. exact modes_convey_same. Qed.
Print Assumptions c17_ks_modes_agree.

(* The abstract result of a step is the one C01's handler model answers with: same new state, same
   log record, and the RESP arm is exec's reply — for every oracle, state and command line.  Hence
   the state effect and the log do not depend on the output mode, and everything C01 proves about
   replies (refinement of the plain-map specification) holds for the RESP rendering. *)
Theorem c17_ks_resp_is_c01_reply : forall O e s args,
  match exec_k O e s args with
  | KDone s' c a h k log => exec O true e s args = Done s' (resp_reply k) log
  | KPanic => exec O true e s args = Panic
  | KUnmodelled => True
  end.
Proof.
  intros O e s args. pose proof (exec_k_spec O e s args) as H.
  destruct (exec_k O e s args); [exact (proj1 H) | exact I | exact H].
Qed.
Print Assumptions c17_ks_resp_is_c01_reply.

(* every result a handler computes is one its command can answer with, and is written by a
   function that has a success template; errs_distinct: the error text (argument parsing, sjson,
   geojson) is not literally one of JSON mode's negative texts for that command *)
Theorem c17_ks_step_fits : forall O c e s q hk a,
  kres_of O c e s q = Some hk -> ask_of q = Some a -> errs_distinct a (snd hk) ->
  fits c a (snd hk) /\ handler_ok (fst hk) (snd hk).
Proof.
  intros O c e s q hk a E Ha. pose proof (kres_of_ok O c e s q) as H. rewrite E, Ha in H.
  destruct (run_req O true e s q) eqn:R; [exact (proj2 H) | destruct (KsRefine.run_req_no_panic O e s q R)].
Qed.
Print Assumptions c17_ks_step_fits.

(* One step, everything together, for all oracles / environments / states / command lines. *)
Theorem c17_ks_step : forall O e s args s' c a h k log d,
  exec_k O e s args = KDone s' c (Some a) h k log ->
  kres_wf k -> errs_distinct a k -> string_safe d = true ->
  exec O true e s args = Done s' (resp_reply k) log /\
  (exists v, json_doc h k d = Some v /\ v = jprint (json_tree k d) /\ doc_instance v /\
             valid_json v = true /\ hasPrefix (ok_prefix (is_ok k)) v) /\
  (exists v, rval_of (resp_reply k) = Some v /\ RespOut.resp_wf v = true) /\
  conveys_json c a (json_tree k d) = Some (conv_of a k) /\
  conveys_resp a (resp_reply k) = Some (conv_of a k).
Proof.
  intros O e s args s' c a h k log d H. exact (step_modes O e s args s' c _ h k log a d H eq_refl).
Qed.
Print Assumptions c17_ks_step.

(* ... and when the gate (not the leader / read only / catching up) or the argument parser refuses
   the command: an error in both modes, nothing changed, nothing logged *)
Theorem c17_ks_step_early_error : forall O e s args s' c h k log a d,
  exec_k O e s args = KDone s' c None h k log ->
  kres_wf k -> errs_distinct a k -> string_safe d = true ->
  s' = s /\ log = [] /\ is_ok k = false /\
  exec O true e s args = Done s (resp_reply k) [] /\
  (exists v, json_doc h k d = Some v /\ v = jprint (json_tree k d) /\ doc_instance v /\ valid_json v = true) /\
  conveys_json c a (json_tree k d) = Some (conv_of a k) /\
  conveys_resp a (resp_reply k) = Some (conv_of a k).
Proof.
  intros O e s args s' c h k log a d H Hk He Hd.
  destruct (step_modes O e s args s' c _ h k log a d H I Hk He Hd) as (Hx & (v & E & Ev & Hi & Hv & _) & _ & Hc).
  pose proof (exec_k_spec O e s args) as X. rewrite H in X. destruct X as (_ & -> & -> & msg & ->). eauto 10.
Qed.
Print Assumptions c17_ks_step_early_error.

(* Where the modes differ by design (stated, not hidden in the projection). *)
Theorem c17_ks_persist_incomparable : forall d,
  (exists k1 k2, fits c_persist_l APersist k1 /\ fits c_persist_l APersist k2 /\
                 resp_reply k1 = resp_reply k2 /\ json_tree k1 d <> json_tree k2 d) /\
  (exists k1 k2, fits c_persist_l APersist k1 /\ fits c_persist_l APersist k2 /\
                 json_tree k1 d = json_tree k2 d /\ resp_reply k1 <> resp_reply k2).
Proof.
  intros d. split.
  - exists (KMiss (RInt 0) MissId), (KInt 0). repeat split; try reflexivity. discriminate.
  - exists (KInt 1), (KInt 0). repeat split; try reflexivity. discriminate.
Qed.
Print Assumptions c17_ks_persist_incomparable.

(* DEL / PDEL / DROP / RENAMENX / FSET: the count is carried by RESP only *)
Theorem c17_ks_count_only_in_resp : forall c d,
  exists k1 k2, fits c ACount k1 /\ fits c ACount k2 /\
                json_tree k1 d = json_tree k2 d /\ resp_reply k1 <> resp_reply k2.
Proof. intros c d. exists (KInt 1), (KInt 0). repeat split; try reflexivity. discriminate. Qed.
Print Assumptions c17_ks_count_only_in_resp.

(* GET: which of key and id is missing is carried by JSON only *)
Theorem c17_ks_missing_which_only_in_json : forall c kind wf d,
  exists k1 k2, fits c (AObjGet kind wf) k1 /\ fits c (AObjGet kind wf) k2 /\
                resp_reply k1 = resp_reply k2 /\ json_tree k1 d <> json_tree k2 d.
Proof.
  intros c kind wf d. exists (KMiss RNil MissKey), (KMiss RNil MissId). repeat split; try reflexivity. discriminate.
Qed.
Print Assumptions c17_ks_missing_which_only_in_json.

(* the side condition errs_distinct cannot be dropped *)
Theorem c17_ks_negative_text_error_refuted : forall d,
  exists k, kres_wf k /\
    conveys_json c_jdel_l AJdel (json_tree k d) <> conveys_resp AJdel (resp_reply k).
Proof. intros d. exists (KErr c_jdel_l err_path_not_found). split; [reflexivity|]. vm_compute. discriminate. Qed.
Print Assumptions c17_ks_negative_text_error_refuted.

Definition pt : geo := mkGeo true (bs "{""type"":""Point"",""coordinates"":[1,2]}").
Definition O0 : oracle :=
  mkOracle (mkFOracle (fun d => mkValue KNumber d) (fun s => s) (fun _ _ => None))
           (fun _ => true) (fun _ => 0%Z) (fun _ => Some 5%Z) (fun _ => Some 0%N) (fun s => s)
           (fun _ _ => GOk pt) (fun _ => [bs "2"; bs "1"]) (fun _ => [bs "2"; bs "1"; bs "2"; bs "1"])
           (fun _ _ => bs "s00twy0") (fun _ j _ _ => OOk j) (fun j _ => OOk j) (fun _ _ _ => None).
Definition e0 : env := mkEnv 1000%Z false true false [].
Definition st1 : state :=
  match exec O0 true e0 [] (map bs ["SET"; "fleet"; "t""1"; "FIELD"; "speed"; "5"; "POINT"; "2"; "1"]%string) with
  | Done s _ _ => s
  | Panic => []
  end.

Example c17_ks_nonvacuous :
  exists s' h k log,
    exec_k O0 e0 st1 (map bs ["GET"; "fleet"; "t""1"; "WITHFIELDS"; "POINT"]%string) =
      KDone s' c_get (Some (AObjGet RK_POINT true)) h k log /\
    kres_wf k /\ errs_distinct (AObjGet RK_POINT true) k /\
    conv_of (AObjGet RK_POINT true) k = CObj (CGCoords [bs "2"; bs "1"]) [(bs "speed", bs "5")] /\
    json_doc h k (bs "12.5µs") =
      Some (bs "{""ok"":true,""point"":{""lat"":2,""lon"":1},""fields"":{""speed"":5},""elapsed"":""12.5µs""}") /\
    (* a missing id: nil in RESP, an error document in JSON, both read as a negative answer *)
    (exists k2, exec_k O0 e0 st1 (map bs ["GET"; "fleet"; "nope"]%string) =
                  KDone st1 c_get (Some (AObjGet RK_OBJECT false)) h_bor k2 [] /\
                resp_reply k2 = RNil /\ is_ok k2 = false /\ conv_of (AObjGet RK_OBJECT false) k2 = CNeg).
Proof.
  eexists _, _, _, _. split; [vm_compute; reflexivity|].
  split.
  { cbn [kres_wf geoview_wf]. split; [split; [left; reflexivity | reflexivity]|].
    constructor; [|constructor]. right. apply (int_text_value (bs "5")). reflexivity. }
  split; [exact I|]. split; [vm_compute; reflexivity|]. split; [vm_compute; reflexivity|].
  eexists. split; [vm_compute; reflexivity|]. repeat split.
Qed.
