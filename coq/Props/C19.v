(* C19 — Counters, bounds and every access path agree with the retrievable dataset.
   Only the property theorems, each closed by a lemma of Proofs/ or by the line or two that prove it here. *)
From T38 Require Import Base.Bytes Model.Float32 Model.Collection Proofs.CollectionProofs Proofs.CollectionBounds Proofs.CollectionTotals.
From T38 Require Import Model.HookReg.
Import ListNotations.
Local Open Scope Z_scope.

(* The invariant (each index holds exactly the objects it should, each counter equals its
   recomputation from objs) is preserved by Set and Delete as collection.go performs them. *)
Theorem c19_wf_preserved : forall c o id, Wf c -> Wf (cset c o) /\ Wf (cdelete c id).
Proof. intros c o id W. split; [apply cset_wf | apply cdelete_wf]; exact W. Qed.
Print Assumptions c19_wf_preserved.

(* Hence it holds after every history of Set/Delete starting from New(). *)
Theorem c19_any_history : forall ops, Wf (run ops).
Proof. exact wf_run. Qed.
Print Assumptions c19_any_history.

(* Counters = recomputation from the objects the id scan returns. *)
Theorem c19_counters_agree : forall c, Wf c ->
  ccount c = Z.of_nat (length (scan_ids c)) /\
  cstring_count c = zsum (fun o => b2z (negb (o_spatial o))) (scan_ids c) /\
  cpoint_count c = zsum o_npoints (scan_ids c) /\
  ctotal_weight c = zsum o_weight (scan_ids c).
Proof. exact counters_agree. Qed.
Print Assumptions c19_counters_agree.

(* Every access path returns exactly the retrievable objects of its class (retrievable = what
   Get returns for that id), without duplicates. *)
Theorem c19_paths_agree : forall c, Wf c ->
  (forall o, In o (scan_ids c) <-> cget c (o_id o) = Some o) /\
  (forall o, In o (search_values c) <-> (cget c (o_id o) = Some o /\ o_spatial o = false)) /\
  (forall o, In o (spatial_list c) <-> (cget c (o_id o) = Some o /\ o_spatial o = true /\ o_empty o = false)) /\
  (forall o, In o (scan_expires c) <-> (cget c (o_id o) = Some o /\ o_ex o <> 0)) /\
  NoDup (map o_id (scan_ids c)) /\ NoDup (map o_id (search_values c)) /\
  NoDup (map o_id (spatial_list c)) /\ NoDup (map o_id (scan_expires c)).
Proof. exact paths_agree. Qed.
Print Assumptions c19_paths_agree.

(* Server totals (SERVER, SERVER EXT, /metrics: sums over the registered collections) equal the
   recomputation from every retrievable object of the server. *)
Theorem c19_server_totals : forall cs : cols, Forall (fun kc => Wf (snd kc)) cs ->
  srv_num_objects cs = Z.of_nat (length (all_objs cs)) /\
  srv_num_strings cs = zsum (fun o => b2z (negb (o_spatial o))) (all_objs cs) /\
  srv_num_points cs = zsum o_npoints (all_objs cs) /\
  srv_in_memory_size cs = zsum o_weight (all_objs cs).
Proof. exact server_totals. Qed.
Print Assumptions c19_server_totals.

(* num_collections counts exactly the keys holding a retrievable object, provided no registered
   collection is empty (the keyspace invariant of C01; seeded change C19/1 breaks it). *)
Theorem c19_num_collections : forall cs : cols, (forall kc, In kc cs -> scan_ids (snd kc) <> []) ->
  srv_num_collections cs =
    Z.of_nat (length (filter (fun kc => negb (Nat.eqb (length (scan_ids (snd kc))) 0)) cs)).
Proof.
  intros cs H. unfold srv_num_collections. rewrite ListFacts.filter_all; [reflexivity|].
  intros kc Hk. specialize (H kc Hk). destruct (scan_ids (snd kc)); [contradiction | reflexivity].
Qed.
Print Assumptions c19_num_collections.

(* Hook registry (Model/HookReg.v, invariant proved for C05): after any history of SETHOOK / SETCHAN /
   DEL* / PDEL* / FLUSHDB / expiry, num_hooks = |HOOKS *| + |CHANS *|, names are unique, and the
   secondary registries (expiry, fence tree, cross tree, outside list) hold only registered hooks. *)
Theorem c19_hook_totals : forall ops,
  let r := reg_run ops in
  num_hooks r = (length (hooks_listing r) + length (chans_listing r))%nat /\
  NoDup (map h_name (hooks r)) /\
  (forall h, In h (hookExpires r) -> In h (hooks r)) /\
  (forall h, In h (hookTree r) -> In h (hooks r)) /\
  (forall h, In h (hookCross r) -> In h (hooks r)) /\
  (forall h, In h (hooksOut r) -> In h (hooks r)).
Proof. exact hook_totals. Qed.
Print Assumptions c19_hook_totals.

(* Bounds. Full statement wanted by the property:
     forall c b, Wf c -> bounds_ok c b = true -> bounds_exact c b = true
   It is FALSE for the code as written (known finding C19-bounds-f32-key, F12): *)
Theorem c19_bounds_exact_refuted :
  exists c b, Wf c /\ bounds_ok c b = true /\ bounds_exact c b = false.
Proof. exists f12_coll, (o_rect f12_p2). split; [apply wf_run|]. split; vm_compute; reflexivity. Qed.
Print Assumptions c19_bounds_exact_refuted.

(* What does hold: every reported side is the exact coordinate of a retrievable spatial non-empty
   object, and that object's float32 index key is extreme among the keys of all such objects.
   Missing for the full statement: the float32 keys (rtreeValueDown/Up) do not order distinct
   float64 coordinates that fall into the same or adjacent float32 cells. *)
Theorem c19_bounds_partial : forall c b,
  Wf c -> c_spatial c <> [] -> bounds_ok c b = true -> bounds_spec_partial c b.
Proof. exact bounds_partial. Qed.
Print Assumptions c19_bounds_partial.

Theorem c19_bounds_empty : forall c b, c_spatial c = [] -> bounds_ok c b = true ->
  f64_same (r64_minx b) zero64 = true /\ f64_same (r64_miny b) zero64 = true /\
  f64_same (r64_maxx b) zero64 = true /\ f64_same (r64_maxy b) zero64 = true.
Proof.
  intros c b E H. unfold bounds_ok in H. rewrite E in H. repeat (apply andb_true_iff in H; destruct H as [H ?]). auto.
Qed.
Print Assumptions c19_bounds_empty.

(* non-vacuity: a well-formed state with a string, a geometry, an empty geometry and a deadline;
   and a state with a non-empty spatial index and an admissible exact Bounds answer *)
Example c19_nonvacuous :
  let c := run [OSet (Obj [97]%N false true 0 2 [120]%N 0 (rect64_of_bits 0 0 0 0));
                OSet (Obj [98]%N true false 1 17 [] 5 (o_rect f12_p1));
                OSet (Obj [97]%N true true 0 1 [] 7 (rect64_of_bits 0 0 0 0));
                ODel [99]%N] in
  Wf c /\ ccount c = 2 /\ cstring_count c = 0 /\ cpoint_count c = 1 /\ ctotal_weight c = 18 /\
  length (scan_expires c) = 2%nat /\ length (spatial_list c) = 1%nat.
Proof. split; [apply wf_run|]. vm_compute. repeat split. Qed.

Example c19_bounds_nonvacuous :
  c_spatial f12_coll <> [] /\
  bounds_ok f12_coll (rect64_of_bits 4636737291425005032 4607182418800017408 4636737291495373776 4607182418800017408) = true /\
  bounds_exact f12_coll (rect64_of_bits 4636737291425005032 4607182418800017408 4636737291495373776 4607182418800017408) = true.
Proof. split; [discriminate|]. split; vm_compute; reflexivity. Qed.
