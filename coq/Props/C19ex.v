(* C19 (continuation) — the expiry access path for every deadline in Z, negative ones included
   (SET ... EX accepts any float: EX -2000000000 gives a deadline before 1970; Expires() = 0 means
   "no deadline", every other value — either sign — is indexed by setFill and must be removed by
   Delete, which tests prev.Expires() != 0).  Only property theorems, each closed by a lemma of
   Proofs/CollExpiryProofs.v or by the line or two that prove it here; the objects of Model/Collection.v carry o_ex : Z without any sign
   restriction, and Wf's expiry clause is in_expires o = negb (o_ex o =? 0). *)
From T38 Require Import Base.Bytes Model.Float32 Model.Collection Proofs.CollectionProofs Proofs.CollExpiryProofs.
Import ListNotations.
Local Open Scope Z_scope.

(* Delete id removes exactly id's entry from the expiry path, whatever the deleted deadline *)
Theorem c19_delete_expiry_path : forall c id, Wf c ->
  forall o, In o (scan_expires (cdelete c id)) <-> (In o (scan_expires c) /\ o_id o <> id).
Proof. exact delete_expiry_path. Qed.
Print Assumptions c19_delete_expiry_path.

(* Set o: the expiry path reaches o's id iff o itself carries a deadline; nothing stored earlier
   under that id survives in it *)
Theorem c19_set_expiry_path : forall c o, Wf c ->
  forall x, In x (scan_expires (cset c o)) <-> ((x = o /\ o_ex o <> 0) \/ (In x (scan_expires c) /\ o_id x <> o_id o)).
Proof. exact set_expiry_path. Qed.
Print Assumptions c19_set_expiry_path.

(* hence an object stored without a deadline is out of the expiry sweep's reach *)
Theorem c19_no_deadline_not_swept : forall c o, Wf c -> o_ex o = 0 ->
  ~ In (o_id o) (map o_id (scan_expires (cset c o))).
Proof.
  intros c o W E H. apply in_map_iff in H as [x [Hid Hx]]. apply (set_expiry_path c o W) in Hx.
  destruct Hx as [[-> He]|[_ Hk]]; [contradiction | congruence].
Qed.
Print Assumptions c19_no_deadline_not_swept.

(* after every history the expiry path yields exactly the retrievable objects with a deadline <> 0 *)
Theorem c19_expiry_path_any_history : forall ops o,
  In o (scan_expires (run ops)) <-> (cget (run ops) (o_id o) = Some o /\ o_ex o <> 0).
Proof. intros ops o. destruct (paths_agree _ (wf_run ops)) as (_ & _ & _ & P4 & _). apply P4. Qed.
Print Assumptions c19_expiry_path_any_history.

(* non-vacuity: a string with a NEGATIVE deadline is indexed, the sweep's Delete takes it out of the
   index, and the same id stored again without a deadline is not reachable through the expiry path *)
Example c19_ex_nonvacuous :
  let neg := Obj [97%N] false true 0 2 [120%N] (-2000000000000000000) (rect64_of_bits 0 0 0 0) in
  let other := Obj [98%N] false true 0 2 [121%N] 7 (rect64_of_bits 0 0 0 0) in
  let again := Obj [97%N] false true 0 2 [122%N] 0 (rect64_of_bits 0 0 0 0) in
  map o_id (scan_expires (run [OSet other; OSet neg])) = [[97%N]; [98%N]] /\
  map o_id (scan_expires (run [OSet other; OSet neg; ODel [97%N]])) = [[98%N]] /\
  map o_id (scan_expires (run [OSet other; OSet neg; ODel [97%N]; OSet again])) = [[98%N]] /\
  cget (run [OSet other; OSet neg; ODel [97%N]; OSet again]) [97%N] = Some again.
Proof. vm_compute. repeat split. Qed.
