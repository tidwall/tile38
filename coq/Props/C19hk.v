(* C19 — counters agree with the retrievable dataset: the hook / channel registry.
   num_hooks (SERVER, SERVER EXT, /metrics) is s.hooks.Len(); Props/C19.v (c19_hook_totals) proves
   |HOOKS *| + |CHANS *| = size of the registry for the registry model of C05 (Model/HookReg.v, hooks
   with a boolean deadline flag). Here the same for the life-cycle model Model/HookLife.v, whose
   listings (cmdHooks incl. forEachHookByPattern's range shortcut and kind filter) and registry the
   harness compares with the server (harness/internal/hooklife, RunC19: SERVER num_hooks = size of the
   model's registry = length of the model's two listings, along random programs). *)
From Coq Require Import List ZArith.
From T38 Require Import Base.Bytes Base.SMap Model.Glob Model.HookLife Proofs.HookLifeProofs.
Import ListNotations.

(* HOOKS * and CHANS * (whatever the clock, whatever the spelling of the command word) are listings,
   and together they have exactly as many items as the registry has entries *)
Theorem c19hk_list_total : forall now s x y,
  match cmd_hooks now s [x; [STAR]] false, cmd_hooks now s [y; [STAR]] true with
  | (_, RList lh, _), (_, RList lc, _) => (length lh + length lc = length (hooks s))%nat
  | _, _ => False
  end.
Proof. exact list_total. Qed.
Print Assumptions c19hk_list_total.

(* ... and the registry holds each name once, after every history of commands and sweeper passes *)
Theorem c19hk_names_unique : forall O p, NoDup (keys (hooks (prun O p empty))).
Proof.
  intros O p. apply (ListFacts.SS_NoDup (fun a b => bytes_ltb a b = true)); [|exact (inv_sorted _ (reachable_inv O p))].
  intros a H. rewrite ltb_irrefl in H. discriminate.
Qed.
Print Assumptions c19hk_names_unique.

(* a listing does not change the registry and is never logged *)
Theorem c19hk_listing_pure : forall now s args c,
  fst (fst (cmd_hooks now s args c)) = s /\ snd (cmd_hooks now s args c) = false.
Proof. intros now s args c. pose proof (cmd_hooks_pure now s args c) as H. injection H as H1 H2. auto. Qed.
Print Assumptions c19hk_listing_pure.
