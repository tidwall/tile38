(* C19 (continuation) — the key space against the retrievable objects, at the server level.
   c19_server_totals / c19_num_collections (Props/C19.v) take "no registered collection is empty" as a
   hypothesis; here it is discharged for every history of keyspace commands by C01's invariant
   (Model/Keyspace.v = the handlers of crud.go / json.go / keys.go, Proofs/KsProgram.v: Reach,
   nonempty_cols = c01_nonempty_cols), and the C19 reading is stated: KEYS * = the keys from which GET retrieves at
   least one object, s.cols.Len() (SERVER num_collections) = their number, TYPE = none for every other
   key — in every reachable state, i.e. after every program of SET FSET DEL PDEL DROP RENAME RENAMENX
   FLUSHDB EXPIRE PERSIST JSET JDEL and reads with ANY argument lists: refused (NX / XX, missing key or
   id, sjson refusing the path), malformed and negative commands are steps like any other.
   Only property theorems, each closed by a lemma of Proofs/KsLive.v; [O] (opaque library behaviour,
   sjson included) is universally quantified. *)
From T38 Require Import Base.Bytes Base.SMap Model.Field Model.Object Model.Glob Model.Spec Model.Keyspace
  Proofs.KsInv Proofs.KsProgram Proofs.KsLive.
Import ListNotations.

(* a key is registered iff something is retrievable from it (find = the lookup of GET) *)
Theorem c19ks_registered_iff_retrievable : forall O s, Reach O s ->
  forall k, In k (keys s) <-> exists id o, find s k id = Some o.
Proof. exact registered_iff_retrievable. Qed.
Print Assumptions c19ks_registered_iff_retrievable.

(* no registered collection is empty, and the number of registered collections (num_collections) is
   the number of keys holding an object *)
Theorem c19ks_num_collections : forall O s, Reach O s ->
  live_keys s = keys s /\ length s = length (live_keys s).
Proof. exact live_keys_all. Qed.
Print Assumptions c19ks_num_collections.

(* KEYS * answers exactly those keys, in order *)
Theorem c19ks_keys_listing : forall O e s, Reach O s ->
  run_req O true e s (QKeys [STAR]) = Some (s, RArr (map RBulk (live_keys s)), false).
Proof. exact keys_star_listing. Qed.
Print Assumptions c19ks_keys_listing.

(* TYPE key = hash iff an object is retrievable from the key *)
Theorem c19ks_type_reply : forall O e s k, Reach O s ->
  ((exists id o, find s k id = Some o) -> run_req O true e s (QType k) = Some (s, ROk str_hash, false)) /\
  (~ (exists id o, find s k id = Some o) -> run_req O true e s (QType k) = Some (s, ROk str_none, false)).
Proof. exact type_reply. Qed.
Print Assumptions c19ks_type_reply.

(* the same after every program from the empty database (each step its own clock, any arguments) *)
Theorem c19ks_any_program : forall O p sf rs, run O true [] p = Some (sf, rs) ->
  (forall k, In k (keys sf) <-> exists id o, find sf k id = Some o) /\
  length sf = length (live_keys sf) /\
  (forall e, run_req O true e sf (QKeys [STAR]) = Some (sf, RArr (map RBulk (live_keys sf)), false)) /\
  (forall e k, ~ (exists id o, find sf k id = Some o) -> run_req O true e sf (QType k) = Some (sf, ROk str_none, false)).
Proof. exact program_keys_live. Qed.
Print Assumptions c19ks_any_program.

(* non-vacuity: refused writes on a key that does not exist (JSET with the path sjson refuses, SET XX,
   SET with a truncated POINT, FSET, EXPIRE) followed by an accepted JSET on another key: only the
   second key is registered *)
Example c19ks_nonvacuous :
  exists sf rs, run refusing_oracle true [] refused_prog = Some (sf, rs) /\ keys sf = [w_g] /\
    live_keys sf = [w_g] /\ nth 0 rs RNil = RErr w_err_path_refused /\ nth 5 rs RNil = ROk str_OK.
Proof. exact refused_prog_run. Qed.
