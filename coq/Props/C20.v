(* C20 — Roaming geofences report exactly the neighbours inside the radius.
   Only the property theorems, each closed by a lemma of Proofs/RoamProofs.v or by the line or two that prove it here.

   G, dist, in_rect are the opaque geometry (geojson Distance, "rectangle of o intersects
   geo.RectFromCenter(centre of c, r)").  Hr is the trusted, sampled hypothesis that the search
   rectangle contains the circle; it is only assumed for radii >= rmin, because
   geo.RectFromCenter collapses to the centre point below about 0.28 m (open finding
   C20-tiny-radius, c20_tiny_radius_refuted).  col is the roam collection in the order the
   R-tree search visits it (any order), with unique ids; old is the previous version of the
   moved object. *)
From Coq Require Import List ZArith Sorting.Sorted.
From T38 Require Import Base.Bytes Model.Glob Model.Roam Proofs.RoamProofs.
Import ListNotations.

Section C20.
  Variable G : Type.
  Variable dist : G -> G -> Z.
  Variable in_rect : G -> Z -> G -> bool.
  Variable rmin : Z.
  Hypothesis Hr : forall c r o, (rmin <= r)%Z -> (dist c o <= r)%Z -> in_rect c r o = true.

  (* the transcribed loop always terminates within its fuel *)
  Theorem c20_total : forall col sw obj old,
    NoDup (map o_id col) ->
    exists near far, fence_match_roam G dist in_rect col sw obj old = RoamDone near far.
  Proof.
    intros col sw obj old H. destruct (roam_result G dist in_rect col sw obj old H) as (far & near & E & _). eauto.
  Qed.

  (* partial: for radii >= rmin (what is missing: radii below rmin, where Hr is false).
     "nearby" = exactly the other pattern-matching objects within the radius of the new position,
     minus, under NODWELL, those within the radius of the previous position; metres = dist new o *)
  Theorem c20_nearby_exact_partial : forall col sw obj old near far,
    (rmin <= rs_meters sw)%Z ->
    NoDup (map o_id col) -> same_id G obj old ->
    fence_match_roam G dist in_rect col sw obj old = RoamDone near far ->
    forall m, In m near <->
      exists o, In o col /\
        (o_id o <> o_id obj /\ (dist (o_geo obj) (o_geo o) <= rs_meters sw)%Z /\ id_match sw (o_id o) = true) /\
        (rs_nodwell sw = true -> forall ob, old = Some ob -> ~ (dist (o_geo ob) (o_geo o) <= rs_meters sw)%Z) /\
        m = {| m_id := o_id o; m_geo := o_geo o; m_meters := dist (o_geo obj) (o_geo o) |}.
  Proof. exact (roam_nearby_exact G dist in_rect rmin Hr). Qed.

  (* "faraway" = exactly those within the radius of the previous position and not of the new one;
     metres = distance to the new position *)
  Theorem c20_faraway_exact_partial : forall col sw obj old near far,
    (rmin <= rs_meters sw)%Z ->
    NoDup (map o_id col) -> same_id G obj old ->
    fence_match_roam G dist in_rect col sw obj old = RoamDone near far ->
    forall m, In m far <->
      exists o ob, old = Some ob /\ In o col /\
        (o_id o <> o_id obj /\ (dist (o_geo ob) (o_geo o) <= rs_meters sw)%Z /\ id_match sw (o_id o) = true) /\
        ~ (dist (o_geo obj) (o_geo o) <= rs_meters sw)%Z /\
        m = {| m_id := o_id o; m_geo := o_geo o; m_meters := dist (o_geo o) (o_geo obj) |}.
  Proof. exact (roam_faraway_exact G dist in_rect rmin Hr). Qed.

  (* both lists are ordered by (metres, id) and name every neighbour once *)
  Theorem c20_sorted : forall col sw obj old near far,
    NoDup (map o_id col) ->
    fence_match_roam G dist in_rect col sw obj old = RoamDone near far ->
    StronglySorted (lex_le G) near /\ StronglySorted (lex_le G) far /\
    NoDup (map m_id near) /\ NoDup (map m_id far).
  Proof. exact (roam_sorted G dist in_rect). Qed.
End C20.
Print Assumptions c20_total.
Print Assumptions c20_nearby_exact_partial.
Print Assumptions c20_faraway_exact_partial.
Print Assumptions c20_sorted.

(* extendRoamMessage's floor(meters*1000)/1000, on metres scaled to integer micrometres: the reported
   value (whole millimetres) never exceeds the distance and is less than a millimetre below it; it is
   monotone, so the (metres, id) order of the messages is also the order of the printed values. *)
Theorem c20_meters_rounding : forall d, (0 <= d)%Z ->
  (0 <= round_mm d /\ 1000 * round_mm d <= d < 1000 * round_mm d + 1000)%Z.
Proof.
  intros d. unfold round_mm. intro H. split; [apply Z.div_pos; lia|]. pose proof (Z.div_mod d 1000).
  pose proof (Z.mod_pos_bound d 1000). lia.
Qed.
Print Assumptions c20_meters_rounding.

Theorem c20_meters_rounding_monotone : forall a b, (a <= b)%Z -> (round_mm a <= round_mm b)%Z.
Proof. intros a b. unfold round_mm. intro H. apply Z.div_le_mono; lia. Qed.
Print Assumptions c20_meters_rounding_monotone.

(* ROAM ... SCAN glob: the "scan" member of a message lists the matched neighbour itself (marked self,
   when it exists) and exactly the other ids of the roam collection matching  neighbour-id ++ glob. *)
Theorem c20_scan_exact : forall ids mid scan s i,
  In (s, i) (scan_ids ids mid scan) <->
  (s = true /\ i = mid /\ In mid ids) \/
  (s = false /\ In i ids /\ i <> mid /\ glob_match (mid ++ scan) i = WTrue).
Proof. exact scan_ids_spec. Qed.
Print Assumptions c20_scan_exact.

(* The pinned tree's radius test (an object measured against itself) reports a neighbour outside
   the radius: finding F8, repaired by proposed_fixes/C20-roam-radius.diff. *)
Theorem c20_pinned_refuted :
  exists m, In m (Plane.nearbys_pinned Plane.col (Plane.sw1000 false) (Plane.mk 97 0 0)) /\
            (m_meters m > rs_meters (Plane.sw1000 false))%Z.
Proof.
  exists {| m_id := Plane.b 98; m_geo := (800, 800)%Z; m_meters := 1280000%Z |}.
  split; [vm_compute; auto | vm_compute; reflexivity].
Qed.
Print Assumptions c20_pinned_refuted.

(* Open finding C20-tiny-radius: when the search rectangle collapses to the centre point (as
   geo.RectFromCenter does for radii below about 0.28 m) a pattern-matching neighbour within the
   radius is not reported: the restriction to radii >= rmin cannot be dropped.  Real-server
   witness: SETCHAN c NEARBY m FENCE ROAM m * 0.2 ; SET m a POINT 10 10 ; SET m b POINT 10.0000009 10
   (0.10 m apart) -> no message. *)
Theorem c20_tiny_radius_refuted :
  fence_match_roam Plane.P Plane.pdist Plane.prect_degenerate Plane.col_tiny Plane.sw_tiny (Plane.mk 97 0 0) None
    = RoamDone [] [] /\
  In (Plane.mk 98 3 4) Plane.col_tiny /\
  (Plane.pdist (0, 0)%Z (3, 4)%Z <= rs_meters Plane.sw_tiny)%Z /\
  id_match Plane.sw_tiny (Plane.b 98) = true.
Proof. vm_compute. repeat split; auto; discriminate. Qed.
Print Assumptions c20_tiny_radius_refuted.

(* non-vacuity: Hr is satisfiable by a non-trivial geometry (the plane, bounding square of the
   disc), on which the model reports the neighbour inside the disc, drops the one in the corner of
   the square, and reports the one left behind as faraway *)
Example c20_Hr_satisfiable : forall c r o, (0 <= r)%Z -> (Plane.pdist c o <= r)%Z -> Plane.prect c r o = true.
Proof. exact Plane.prect_contains_disc. Qed.
Example c20_nonvacuous :
  NoDup (map o_id Plane.col) /\
  fence_match_roam Plane.P Plane.pdist Plane.prect Plane.col (Plane.sw1000 false)
                   (Plane.mk 97 0 0) (Some (Plane.mk 97 5000 0)) =
  RoamDone [{| m_id := [99%N]; m_geo := (300, 400)%Z; m_meters := 250000%Z |}]
           [{| m_id := [101%N]; m_geo := (5000, 300)%Z; m_meters := 25090000%Z |}].
Proof.
  split; [|vm_compute; reflexivity].
  repeat constructor; cbn; intuition discriminate.
Qed.
