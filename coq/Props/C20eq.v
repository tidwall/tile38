(* C20, continued — every re-definition of a roaming fence takes effect: Hook.Equals, which decides
   cmdSetHook's early "nothing to do" return (the input equal_prev of the registry model), is
   byte-identity of the two definitions.
   Only the property theorems, each closed by a lemma of Proofs/HookDefProofs.v or by the line or two that prove it here.
   Model: Model/HookDef.v; coq/Gen/HookEquals.v (equals_checks) is the list of Equals' tests - compared
   field and comparison used - as t38x reads it from hooks.go on every run. *)
From Coq Require Import List NArith ZArith Bool.
From T38 Require Import Base.Bytes Model.HookDef Gen.HookEquals Proofs.HookDefProofs.
Import ListNotations.

(* equal_prev = true iff the stored and the new definition are byte-identical (key, name, endpoints,
   metas, expiry, every message argument) *)
Theorem c20_equals_is_identity : forall a b, hook_equals_by equals_checks a b = true <-> a = b.
Proof. exact equals_exact. Qed.
Print Assumptions c20_equals_is_identity.

(* after an accepted SETHOOK / SETCHAN (reply 1 or 0) the definition in force under the name is the one
   just sent, byte for byte: a re-definition that changes pattern, key, radius or any other argument -
   be it only in letter case - takes effect *)
Theorem c20_definition_in_force : forall ds chan d,
  snd (def_sethook equals_checks ds chan d) <> (-1)%Z ->
  def_get (hd_name d) (fst (def_sethook equals_checks ds chan d)) = Some (chan, d).
Proof. intros ds chan d. apply definition_in_force. intros p. apply equals_exact. Qed.
Print Assumptions c20_definition_in_force.

(* the reply is 0 exactly for an identical re-issue *)
Theorem c20_reply_zero_iff_identical : forall ds chan p d,
  def_get (hd_name d) ds = Some (chan, p) ->
  (snd (def_sethook equals_checks ds chan d) = 0%Z <-> p = d).
Proof.
  intros ds chan p d E. unfold def_sethook. rewrite E, Bool.eqb_reflx, <- equals_exact. cbn [negb].
  destruct (hook_equals_by equals_checks p d); cbn [snd]; split; (reflexivity || discriminate).
Qed.
Print Assumptions c20_reply_zero_iff_identical.

(* with strings.EqualFold on the message arguments:  ... ROAM fleet T* 500  then  ... ROAM fleet t* 500
   answers 0 and the old pattern stays in force *)
Theorem c20_equals_fold_refuted :
  exists ds chan d,
    snd (def_sethook equals_checks_fold_args ds chan d) = 0%Z /\
    def_get (hd_name d) (fst (def_sethook equals_checks_fold_args ds chan d)) <> Some (chan, d).
Proof.
  exists [(true, d_upper)], true, d_lower. split; [vm_compute; reflexivity|]. vm_compute. intros H. discriminate H.
Qed.
Print Assumptions c20_equals_fold_refuted.

Example c20_equals_example :
  hook_equals_by equals_checks d_upper d_lower = false /\ hook_equals_by equals_checks d_upper d_upper = true /\
  snd (def_sethook equals_checks [(true, d_upper)] true d_lower) = 1%Z /\
  snd (def_sethook equals_checks [(true, d_upper)] false d_lower) = (-1)%Z.
Proof. exact equals_source_example. Qed.
