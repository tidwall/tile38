(* C20, continued — "for all id patterns": the pattern-vs-literal decision of the ROAM clause.
   Only the property theorems, each closed by a lemma of Proofs/RoamPatProofs.v or by the line or two that prove it here.

   search.go parses  ROAM key pattern meters  into  roam.id = pattern, roam.pattern = glob.IsGlob(pattern)
   (Model.Roam.roam_parse / is_glob); fenceMatchNearbys compares ids with glob.Match when roam.pattern
   is set and with string equality otherwise (Model.Roam.id_match).  Props/C20.v states nearby /
   faraway in terms of id_match of an arbitrary switch record; the theorems below say what id_match
   of a *parsed* clause is.
     glob_ok p   the pattern passes IsGlob's probe Match(p, "whatever") without ErrBadPattern
     has_wild p  a '[', '*' or '?' occurs in p *)
From Coq Require Import List NArith ZArith Bool.
From T38 Require Import Base.Bytes Model.Glob Model.Roam Proofs.RoamPatProofs Gen.GlobMeta.
Import ListNotations.

(* a pattern of plain bytes (no '[', '*', '?', '\') matches exactly itself *)
Theorem c20_plain_pattern_matches_itself : forall p s,
  no_meta p -> (glob_match p s = WTrue <-> p = s).
Proof. exact glob_match_literal. Qed.
Print Assumptions c20_plain_pattern_matches_itself.

(* the literal shortcut is justified exactly when IsGlob is false *)
Theorem c20_isglob_false_shortcut_exact : forall p,
  is_glob p = false -> glob_ok p -> ~ In BSL p ->
  forall s, glob_match p s = WTrue <-> p = s.
Proof. exact roam_shortcut_exact. Qed.
Print Assumptions c20_isglob_false_shortcut_exact.

(* partial: for patterns that pass the probe and in which an escape only occurs together with a
   wildcard (what is missing: c20_escape_only_is_literal below).  The ids a parsed ROAM clause
   selects are exactly those glob.Match accepts. *)
Theorem c20_idmatch_all_patterns_partial : forall p meters nodwell detnil s,
  glob_ok p -> (In BSL p -> has_wild p = true) ->
  (id_match (roam_parse p meters nodwell detnil) s = true <-> glob_match p s = WTrue).
Proof. exact roam_idmatch_all_patterns. Qed.
Print Assumptions c20_idmatch_all_patterns_partial.

(* a pattern without wildcard names one id, whatever else it contains *)
Theorem c20_idmatch_plain : forall p meters nodwell detnil s,
  has_wild p = false -> (id_match (roam_parse p meters nodwell detnil) s = true <-> p = s).
Proof.
  intros p meters nodwell detnil s Hw. unfold id_match, roam_parse. cbn [rs_pattern rs_id].
  rewrite (is_glob_plain p Hw). apply bytes_eqb_eq.
Qed.
Print Assumptions c20_idmatch_plain.

(* an IsGlob whose case list forgets '?', '*' or '[' takes the literal shortcut on a pattern that
   matches another string *)
Theorem c20_isglob_without_qm_refuted : shortcut_wrong [LBR; STAR].
Proof. exact isglob_without_qm_refuted. Qed.
Print Assumptions c20_isglob_without_qm_refuted.
Theorem c20_isglob_without_star_refuted : shortcut_wrong [LBR; QM].
Proof. exact isglob_without_star_refuted. Qed.
Print Assumptions c20_isglob_without_star_refuted.
Theorem c20_isglob_without_bracket_refuted : shortcut_wrong [STAR; QM].
Proof. exact isglob_without_bracket_refuted. Qed.
Print Assumptions c20_isglob_without_bracket_refuted.

(* the hypothesis on escapes cannot be dropped:  ROAM key car\1 m  selects the id "car\1", not "car1"
   (documented behaviour: a pattern without wildcard is an exact id) *)
Theorem c20_escape_only_is_literal :
  exists p s, glob_ok p /\ glob_match p s = WTrue /\
              id_match (roam_parse p 0%Z false true) s = false /\
              id_match (roam_parse p 0%Z false true) p = true.
Proof. exact roam_escape_only_is_literal. Qed.
Print Assumptions c20_escape_only_is_literal.

(* tie to the source: the case list and the probe string of glob.IsGlob, the assignment
   roam.pattern = glob.IsGlob(roam.id) and the if/else of fenceMatchNearbys, as re-read by t38x *)
Theorem c20_isglob_source_tied :
  (forall c, In c isglob_case_bytes <-> In c ISGLOB_METAS) /\
  isglob_probe = WHATEVER /\ roam_pattern_is_isglob = true /\ roam_idmatch_shape = true.
Proof. exact isglob_source_tied. Qed.
Print Assumptions c20_isglob_source_tied.

(* the hypotheses are satisfiable by every wildcard class *)
Example c20_pattern_classes :
  map is_glob [b_car_s; b_car_q; b_car_c; b_car1; b_car_e1] = [true; true; true; false; false] /\
  map (fun p => id_match (roam_parse p 0%Z false true) b_car1) [b_car_s; b_car_q; b_car_c; b_car1; b_car_e1]
    = [true; true; true; true; false].
Proof. split; vm_compute; reflexivity. Qed.
