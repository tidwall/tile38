(* C20, continued — a roaming fence that is listed is evaluated for every SET on its key, after any
   history of hook commands, including re-definitions under the same name.
   Only the property theorems, each closed by a lemma of Proofs/RoamRegProofs.v or by the line or two that prove it here.

   A NEARBY ... FENCE ROAM fence has no Fence.obj: of the three indexes getQueueCandidates consults
   (hooksOut, hookCross, hookTree) only hooksOut can select it.  The registry model is C05's
   (Model/HookReg.v: reg_sethook, reg_delhook, reg_pdelhook, candidates; invariant registry_inv);
   Model/HookRegOps.v executes cmdSetHook's registry statements as a list, and
   coq/Gen/SetHookOrder.v is that list as t38x reads it from hooks.go on every run.
   Props/C20.v says which messages an evaluated roaming fence produces (fence_match_roam). *)
From Coq Require Import List Bool ZArith.
From T38 Require Import Base.Bytes Model.Fence Model.HookReg Model.HookRegOps Gen.SetHookOrder
  Proofs.FenceRegProofs Proofs.RoamRegProofs.
Import ListNotations.

(* tie to the source: HookReg.reg_sethook is the execution, in source order, of the registry
   statements of cmdSetHook (delete the previous hook of the name, THEN set the new one) *)
Theorem c20_sethook_is_source_order : forall r h e,
  reg_sethook r h e = sethook_by sethook_stmts r h e.
Proof. exact sethook_is_source. Qed.
Print Assumptions c20_sethook_is_source_order.

(* after any history, a hook without Fence.obj (a roaming fence) is a candidate for a write on key k
   exactly when it is listed, fences k, and has no DETECT clause (or one naming "outside") *)
Theorem c20_roam_hook_selected_iff : forall ops h k old new,
  h_area h = None ->
  (In h (candidates (reg_run ops) k old new) <->
   In h (hooks (reg_run ops)) /\ h_key h = k /\ detects (h_detect h) DOutside = true).
Proof. intros ops h k old new. apply roam_hook_selected_iff, registry_inv. Qed.
Print Assumptions c20_roam_hook_selected_iff.

(* re-definition: once an accepted SETHOOK / SETCHAN has (re-)defined a roaming fence - whatever hook
   of that name existed before, with whatever arguments - it is a candidate for every write on its key (DETECT as above) *)
Theorem c20_roam_redefined_selected : forall ops h old new,
  h_area h = None -> detects (h_detect h) DOutside = true ->
  sethook_stops (reg_run ops) h false = false ->
  In h (candidates (reg_run (ops ++ [RSet h false])) (h_key h) old new).
Proof. intros ops h old new. rewrite reg_run_snoc. apply roam_redefined_selected, registry_views. Qed.
Print Assumptions c20_roam_redefined_selected.

(* an identical re-issue leaves the registry as it is *)
Theorem c20_roam_reissue_unchanged : forall ops h p,
  get_name (h_name h) (hooks (reg_run ops)) = Some p ->
  reg_run (ops ++ [RSet h true]) = reg_run ops.
Proof.
  intros ops h p Hg. rewrite reg_run_snoc. cbn [reg_step]. unfold reg_sethook. rewrite Hg.
  destruct (negb (Bool.eqb (h_chan p) (h_chan h))); reflexivity.
Qed.
Print Assumptions c20_roam_reissue_unchanged.

(* what the model driver's "regsel" request computes *)
Theorem c20_selected_iff : forall ops n k old new,
  selected (reg_run ops) n k old new = true <->
  exists h, In h (hooks (reg_run ops)) /\ h_name h = n /\ h_key h = k /\ cand_cond h old new = true.
Proof. intros ops n k old new. apply selected_iff, registry_inv. Qed.
Print Assumptions c20_selected_iff.

(* the order matters: with hooksOut.Delete(prevHook) after hooksOut.Set(hook) a re-defined roaming
   fence is listed and never selected *)
Theorem c20_sethook_late_delete_refuted :
  exists ops h,
    h_area h = None /\ detects (h_detect h) DOutside = true /\
    In h (hooks (reg_run_by sethook_stmts_late_delete ops)) /\
    candidates (reg_run_by sethook_stmts_late_delete ops) (h_key h) (Some r_unit) (Some r_unit) = [].
Proof. exact late_delete_refuted. Qed.
Print Assumptions c20_sethook_late_delete_refuted.

(* the histories of the variant family with the source's list are the model's histories *)
Theorem c20_run_by_source : forall ops, reg_run_by sethook_stmts ops = reg_run ops.
Proof. exact run_by_source. Qed.
Print Assumptions c20_run_by_source.

(* satisfiable: define, re-define (selected), re-define with DETECT inside (not selected), delete *)
Example c20_redefinition_example :
  let ops := [RSet (roam_hook n_fence true k_fleet true) false; RSet (roam_hook n_fence true k_fleet true) false] in
  selected (reg_run ops) n_fence k_fleet (Some r_unit) (Some r_unit) = true /\
  selected (reg_run (ops ++ [RSet (roam_hook n_fence true k_fleet false) false])) n_fence k_fleet (Some r_unit) (Some r_unit) = false /\
  selected (reg_run (ops ++ [RDel n_fence true])) n_fence k_fleet (Some r_unit) (Some r_unit) = false.
Proof. exact source_order_example. Qed.
