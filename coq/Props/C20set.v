(* C20, continued — the "previous position" of a roaming evaluation is the object stored under the id
   immediately before the SET (what GET returned), whatever its deadline.
   Only the property theorems, each closed by a lemma of Proofs/RoamSetProofs.v or by the line or two that prove it here.
   Model: Model/RoamSet.v (tail of cmdSET: old := col.Set(obj); d.old = old; Collection.Get / Set do not
   look at deadlines; backgroundExpireObjects deletes expired objects later).  krun = any history of
   SET (with or without EX) / DEL / sweep of the fenced collection. *)
From Coq Require Import List NArith ZArith Bool String.
From T38 Require Import Base.Bytes Model.Glob Model.Roam Model.RoamSet Proofs.RoamProofs Proofs.RoamSetProofs Gen.SetOld.
Import ListNotations.

Section C20set.
  Variable G : Type.
  Variable dist : G -> G -> Z.
  Variable in_rect : G -> Z -> G -> bool.
  Variable rmin : Z.
  Hypothesis Hr : forall c r o, (rmin <= r)%Z -> (dist c o <= r)%Z -> in_rect c r o = true.

  (* commandDetails.old of a SET is Collection.Get of the id just before it, at any clock value *)
  Theorem c20_set_old_is_get : forall now col o,
    snd (set_details G (old_as_is G) now col o) = col_get G (s_id o) col.
  Proof. reflexivity. Qed.

  (* after any history, an object that is still stored - its deadline passed or not - is the old of the
     next SET of its id *)
  Theorem c20_stored_is_old : forall ops now x o,
    In x (krun G ops) -> s_id x = s_id o ->
    snd (set_details G (old_as_is G) now (krun G ops) o) = Some x.
  Proof. intros ops now x o Hi He. exact (stored_is_old G now (krun G ops) x o (krun_ids_unique G ops) Hi He). Qed.

  (* partial (radii >= rmin, as c20_faraway_exact_partial): the faraway entries of that SET are the
     pattern-matching objects within the radius of the stored previous object - no condition on its
     deadline or on the clock - and not within the radius of the new position *)
  Theorem c20_set_faraway_from_stored_partial : forall ops now x o rcol sw near far,
    In x (krun G ops) -> s_id x = s_id o ->
    (rmin <= rs_meters sw)%Z -> NoDup (map (@o_id G) rcol) ->
    set_roam G dist in_rect (old_as_is G) now (krun G ops) o rcol sw = RoamDone near far ->
    forall m, In m far <->
      exists n, In n rcol /\
        (o_id n <> s_id o /\ (dist (s_geo x) (o_geo n) <= rs_meters sw)%Z /\ id_match sw (o_id n) = true) /\
        ~ (dist (s_geo o) (o_geo n) <= rs_meters sw)%Z /\
        m = {| m_id := o_id n; m_geo := o_geo n; m_meters := dist (o_geo n) (s_geo o) |}.
  Proof. intros ops now x o rcol sw near far. apply (set_roam_faraway G dist in_rect rmin Hr), krun_ids_unique. Qed.
End C20set.
Print Assumptions c20_set_old_is_get.
Print Assumptions c20_stored_is_old.
Print Assumptions c20_set_faraway_from_stored_partial.

(* a cmdSET that forgets a replaced object whose deadline has passed: the object is still stored (GET
   returns it), it is SET elsewhere, and the neighbour it leaves is not reported faraway *)
Theorem c20_set_forget_expired_refuted :
  col_get Plane.P (Plane.b 97) (krun Plane.P PlaneSet.ops) = Some (PlaneSet.so 97 5000 0 (Some 10%Z)) /\
  set_roam Plane.P Plane.pdist Plane.prect (old_as_is Plane.P) 20 (krun Plane.P PlaneSet.ops) (PlaneSet.so 97 0 0 None)
           PlaneSet.rcol_after (Plane.sw1000 false)
    = RoamDone [] [{| m_id := Plane.b 101; m_geo := (5000, 300)%Z; m_meters := 25090000%Z |}] /\
  set_roam Plane.P Plane.pdist Plane.prect (old_forget_expired Plane.P) 20 (krun Plane.P PlaneSet.ops) (PlaneSet.so 97 0 0 None)
           PlaneSet.rcol_after (Plane.sw1000 false)
    = RoamDone [] [].
Proof. vm_compute. auto. Qed.
Print Assumptions c20_set_forget_expired_refuted.

(* ... and under NODWELL a neighbour that was already within the radius is reported nearby again *)
Theorem c20_set_forget_expired_nodwell_refuted :
  set_roam Plane.P Plane.pdist Plane.prect (old_as_is Plane.P) 20 (krun Plane.P PlaneSet.ops2) (PlaneSet.so 97 0 0 None)
           [Plane.mk 97 0 0; Plane.mk 99 300 400] (Plane.sw1000 true) = RoamDone [] [] /\
  set_roam Plane.P Plane.pdist Plane.prect (old_forget_expired Plane.P) 20 (krun Plane.P PlaneSet.ops2) (PlaneSet.so 97 0 0 None)
           [Plane.mk 97 0 0; Plane.mk 99 300 400] (Plane.sw1000 true)
    = RoamDone [{| m_id := Plane.b 99; m_geo := (300, 400)%Z; m_meters := 250000%Z |}] [].
Proof. vm_compute. auto. Qed.
Print Assumptions c20_set_forget_expired_nodwell_refuted.

(* tie to the source: in cmdSET the variable d.old receives is assigned once, from col.Set(obj); d.obj is
   obj; fenceMatch hands details.obj and details.old to fenceMatchRoam *)
Open Scope string_scope.
Theorem c20_set_old_source_tied :
  set_old_defs = ["col.Set(obj)"] /\ set_details_old = ["old"] /\ set_details_obj = ["obj"] /\
  roam_call_args = ["sw.s"; "fence"; "details.obj"; "details.old"].
Proof. repeat split; reflexivity. Qed.
Print Assumptions c20_set_old_source_tied.
